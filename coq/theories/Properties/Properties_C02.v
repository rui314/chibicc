(* C02 - floating-point conversions, integer side: the halving with a sticky bit that u64f32 / u64f64 use is rounding to
   nearest-even (the link to IEEE arithmetic is in Properties_C02_fpgen.v), and the cast table of codegen.c is the one
   written down in Model/FloatRows.v. *)
From Chibicc Require Import Base.Mach Model.FloatConv Model.FloatRows Gen.CastTable Proofs.FloatConvProofs.
Local Open Scope Z_scope.

(* unsigned long -> double / float for values with the top bit set: converting the halved value
   with its sticky bit (what cvtsi2sd/cvtsi2ss, round-to-nearest-even at 53/24 bits, are given) and
   doubling the result IS the correctly rounded conversion of x, for EVERY x in [2^63, 2^64).
   x has 64 significant bits and its half 63: rounding them to 53 drops 11 resp. 10 bits, to 24 drops 40 resp. 39. *)
Theorem C02_u64_halving_is_rne_f64 : forall x, 2 ^ 63 <= x < 2 ^ 64 -> 2 * rne (halve_sticky x) 10 = rne x 11.
Proof. intros x Hx. apply (halving_is_rne x 10); lia. Qed.
Print Assumptions C02_u64_halving_is_rne_f64.

Theorem C02_u64_halving_is_rne_f32 : forall x, 2 ^ 63 <= x < 2 ^ 64 -> 2 * rne (halve_sticky x) 39 = rne x 40.
Proof. intros x Hx. apply (halving_is_rne x 39); lia. Qed.
Print Assumptions C02_u64_halving_is_rne_f32.

(* dropping the sticky bit double-rounds: plain halving is wrong at the odd values just above a tie whose quotient by 2^11 is even
   (the half is then an exact tie and rounds down) *)
Theorem C02_sticky_bit_needed : 2 * rne (halve_plain (2 ^ 63 + 1025)) 10 <> rne (2 ^ 63 + 1025) 11.
Proof. vm_compute. discriminate. Qed.
Print Assumptions C02_sticky_bit_needed.

(* every row of cast_table[][] in codegen.c (Gen/CastTable.v, printed from the source by tools/gen_casttable.py) is the
   instruction sequence written down in Model/FloatRows.v *)
Theorem C02_fp_rows_correct : list_eqb (list_eqb cell_eqb) cast_table expected_cast_table = true.
Proof. vm_compute. reflexivity. Qed.
Print Assumptions C02_fp_rows_correct.

Example C02_nonvacuous : rne (2 ^ 63 + 1025) 11 = 2 ^ 63 + 2048 /\ 2 * rne (halve_sticky (2 ^ 63 + 1025)) 10 = 2 ^ 63 + 2048 /\ rne (2 ^ 63 + 1024) 11 = 2 ^ 63.
Proof. vm_compute. repeat split. Qed.
Print Assumptions C02_nonvacuous.
