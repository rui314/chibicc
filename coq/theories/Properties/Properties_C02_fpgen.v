(* C02 - floating-point expression code (SSE path of gen_expr) against C11 + IEC 60559 semantics
   built from Flocq, and the x87 path for long double.
   "The tie" below is the correspondence check tools/tie_fpgen.py. *)
From Coq Require Import ZArith Reals Bool List String.
From Flocq Require Import Core Binary Bits.
From Chibicc Require Import Spec.C11Int Spec.C11Float Spec.C11LDouble Model.X86Int Model.CodegenInt Gen.CastTable Model.X86Sse Model.FloatGen Model.FloatFlat
     Model.X87 Model.LDoubleGen
     Model.FloatConv Proofs.CastTableProofs Proofs.X86SseProofs Proofs.FloatRoundProofs Proofs.X86SseRowsProofs
     Proofs.FloatOpsProofs Proofs.FloatGenProofs Proofs.FloatFlatProofs Proofs.LDoubleGenProofs.
Import ListNotations.
Local Open Scope Z_scope.

(* The type chibicc's add_type / get_common_type gives to every expression tree over _Bool ... unsigned long,
   float and double operands is the C11 type: double if either operand is double, else float if either is
   float, else the integer rule (6.3.1.8); unary - ~ + promote; comparisons, ! && || have type int. *)
Theorem C02_fp_typing : forall e, mf_type e = ftype_of e.
Proof. exact mf_type_is_c11. Qed.
Print Assumptions C02_fp_typing.

(* "Equal up to the choice of NaN" is: the same datum, or both are NaNs.  So every statement below is
   bit-exact whenever the C value is not a NaN. *)
Theorem C02_fp_feq_meaning : forall (p e : Z) (x y : binary_float p e),
  feq x y <-> (x = y \/ (is_nan p e x = true /\ is_nan p e y = true)).
Proof. exact (fun p e => @feq_iff p e). Qed.
Print Assumptions C02_fp_feq_meaning.

(* xorps / xorpd with 1<<31 / 1<<63 (what ND_NEG emits) turns the bit pattern of ANY float / double - zeros,
   denormals, infinities, quiet and signalling NaNs with any payload - into the pattern of the same datum with
   the opposite sign, and touches no other bit. *)
Theorem C02_fp_neg_bits32 : forall b, 0 <= b < 2 ^ 32 ->
  0 <= Z.lxor b (2 ^ 31) < 2 ^ 32 /\ b32_of_bits (Z.lxor b (2 ^ 31)) = flip (b32_of_bits b).
Proof. exact neg_bits32. Qed.
Print Assumptions C02_fp_neg_bits32.
Theorem C02_fp_neg_bits64 : forall b, 0 <= b < 2 ^ 64 ->
  0 <= Z.lxor b (2 ^ 63) < 2 ^ 64 /\ b64_of_bits (Z.lxor b (2 ^ 63)) = flip (b64_of_bits b).
Proof. exact neg_bits64. Qed.
Print Assumptions C02_fp_neg_bits64.

(* addss/subss/mulss/divss (and sd) as selected by gen_expr: with the left operand in %xmm0 and the right one in
   %xmm1 (any bit patterns), %xmm0 receives the C11 result of the operation rounded to nearest-even in the
   operation's own type (FLT_EVAL_METHOD 0) - the x86 NaN rule against any other NaN choice makes no difference. *)
Theorem C02_fp_arith : forall mem o f t va vb w s, is_fp t = true -> fop_of o = Some f -> Rv t va s -> Rv1 t vb s ->
  eval_common o t va vb = Some w -> exists s', sexec mem (mbinop o t) s = Some s' /\ Rv t w s'.
Proof. exact fp_arith_ok. Qed.
Print Assumptions C02_fp_arith.

(* ucomiss/ucomisd %xmm0, %xmm1 followed by sete+setnp+and / setne+setp+or / seta / setae: %rax receives 1 or 0
   exactly as C11 + IEC 60559 say for == != < <= on every pair of operands; with a NaN operand == < <= give 0
   and != gives 1 (the parity flag is consulted). *)
Theorem C02_fp_compare : forall mem o t va vb w s, is_fp t = true -> (o = OEq \/ o = ONe \/ o = OLt \/ o = OLe) ->
  Rv t va s -> Rv1 t vb s -> eval_common o t va vb = Some w ->
  exists s', sexec mem (mbinop o t) s = Some s' /\ Rv (TI I32) w s'.
Proof. exact fp_cmp_ok. Qed.
Print Assumptions C02_fp_compare.

(* a > b and a >= b, which the parser turns into b < a and b <= a, keep their value for all operands, NaNs included *)
Theorem C02_fp_swap : forall t x y,
  eval_common OLt t y x = eval_common OGt t x y /\ eval_common OLe t y x = eval_common OGe t x y.
Proof. exact eval_common_swap. Qed.
Print Assumptions C02_fp_swap.

(* cmp_zero on float / double (xorps, ucomiss, sete, setnp, and, cmp $1): ZF is set exactly if the value compares
   equal to zero; +0.0 and -0.0 are false, a NaN is true.  Used by if-like tests, !, &&, ||, ?: and (_Bool). *)
Theorem C02_fp_truth : forall mem t v s, val_ok t v = true -> Rv t v s ->
  exists s', test_zero mem t s = Some (negb (truth v), s').
Proof. exact zero_test_ok. Qed.
Print Assumptions C02_fp_truth.

(* Flocq's rounding to nearest-even of an integer with prec + s significant bits is the integer function [rne _ s]
   of Model/FloatConv.v - this links the theorems of Properties_C02.v (halving with a sticky bit = RNE) to IEEE arithmetic. *)
Theorem C02_fp_rne_is_flocq : forall prec emax (Hp : Prec_gt_0 prec) n s, 1 <= s ->
  2 ^ (prec + s - 1) <= n < 2 ^ (prec + s) -> prec + s < emax ->
  round radix2 (SpecFloat.fexp prec emax) ZnearestE (IZR n) = IZR (rne n s).
Proof. exact round_int_rne. Qed.
Print Assumptions C02_fp_rne_is_flocq.

(* The rows u64f32 / u64f64 (test; js; cvtsi2ss; ... shr; or; cvtsi2ss; addss): for EVERY unsigned 64-bit value z in
   %rax, %xmm0 receives z rounded to nearest-even in float / double - below 2^63 by the signed conversion, from 2^63 on
   by converting (z >> 1) | (z & 1) and doubling. *)
Theorem C02_fp_u64_to_float : forall s z, rax (ix s) = z -> 0 <= z < 2 ^ 64 -> f32 (x0 (exec_u64_to_f SS s)) = s_of_int z.
Proof. exact exec_u64_to_f32. Qed.
Print Assumptions C02_fp_u64_to_float.
Theorem C02_fp_u64_to_double : forall s z, rax (ix s) = z -> 0 <= z < 2 ^ 64 -> f64 (x0 (exec_u64_to_f SD s)) = d_of_int z.
Proof. exact exec_u64_to_f64. Qed.
Print Assumptions C02_fp_u64_to_double.

(* The rows f32u64 / f64u64 (comiss with 2^63; jae; cvttss2siq | subss; cvttss2siq; btc $63): for EVERY float / double
   whose integral part z is representable in unsigned long, %rax receives z (subtracting 2^63 is exact). *)
Theorem C02_fp_float_to_u64 : forall s x z, feq (f32 (x0 s)) x -> int_part x = Some z -> 0 <= z < 2 ^ 64 ->
  rax (ix (exec_f_to_u64 SS s)) = z.
Proof. exact exec_f32_to_u64. Qed.
Print Assumptions C02_fp_float_to_u64.
Theorem C02_fp_double_to_u64 : forall s x z, feq (f64 (x0 s)) x -> int_part x = Some z -> 0 <= z < 2 ^ 64 ->
  rax (ix (exec_f_to_u64 SD s)) = z.
Proof. exact exec_f64_to_u64. Qed.
Print Assumptions C02_fp_double_to_u64.

(* Every cell of the regenerated cast table between _Bool ... unsigned long, float and double (121 cells, the four
   branching rows included), and the _Bool path: on a register holding ANY value of the source type for which C11
   defines the conversion, the emitted row leaves the C11-converted value (6.3.1.2, 6.3.1.4, 6.3.1.5: truncation
   toward zero; integer -> floating and double -> float round to nearest-even).  The hypothesis on the row is
   discharged for all cells by C02_fp_all_rows_modelled. *)
Theorem C02_fp_cast_rows : forall mem from to v w s, val_ok from v = true -> Rv from v s ->
  forallb insn_modelled (mcast from to) = true -> convert to v = Some w ->
  exists s', sexec mem (mcast from to) s = Some s' /\ Rv to w s'.
Proof. intros mem from to v w s Hv HR _. exact (cast_ok mem from to v w s Hv HR). Qed.
Print Assumptions C02_fp_cast_rows.

Theorem C02_fp_all_rows_modelled : forall from to, forallb insn_modelled (mcast from to) = true.
Proof. exact all_rows_modelled. Qed.
Print Assumptions C02_fp_all_rows_modelled.

(* The composition: for EVERY expression tree (any depth) over integer, float and double constants and objects,
   + - * / % & | ^ << >> == != < <= > >= && || ! ~ unary - + casts ?: and commas, whose C11 value is defined
   and whose code contains no instruction outside the model: the code gen_expr emits (right operand first, pushf / push,
   left operand, popf into %xmm1 / pop %rdi, operator; conversions as add_type inserts them; tests by cmp_zero),
   run from ANY register contents and ANY stack on a memory holding the objects, ends with the stack as found and
   the C11 value of the C11 type in %rax / %xmm0 - bit for bit, except that a NaN may differ in sign and payload. *)
Theorem C02_fp_expr_correct : forall mem rho, (forall n, mem (addr_of n) = obj_bits (rho n)) ->
  forall e v, feval rho e = Some v -> modelled (compile e) = true -> computes mem (compile e) (ftype_of e) v.
Proof. intros mem rho Hmem e v H _. exact (compile_correct mem rho Hmem e v H). Qed.
Print Assumptions C02_fp_expr_correct.

(* The same on the executable runner the tie uses: run_expr returns the bits of the C11 value (low 32 bits of
   %rax for types narrower than long; the float in the low lane of %xmm0), exactly unless the value is a NaN. *)
Theorem C02_fp_run_correct : forall rho e v, feval rho e = Some v -> modelled (compile e) = true ->
  exists b, run_expr rho e = Some b /\ result_is (ftype_of e) v b.
Proof. intros rho e v H _. exact (run_expr_correct rho e v H). Qed.
Print Assumptions C02_fp_run_correct.

(* The same with the C constraints instead of a condition on the code: % & | ^ << >> ~ have integer operands
   (6.5.3.3p1, 6.5.5p2, 6.5.7p2, 6.5.10p2-6.5.12p2).  Then every emitted instruction is in the model, so:
   for EVERY well-typed tree whose C11 value is defined the emitted code computes it. *)
Theorem C02_fp_wt_modelled : forall e, well_typed e = true -> modelled (compile e) = true.
Proof. exact wt_modelled. Qed.
Print Assumptions C02_fp_wt_modelled.
Theorem C02_fp_expr_correct_wt : forall mem rho, (forall n, mem (addr_of n) = obj_bits (rho n)) ->
  forall e v, well_typed e = true -> feval rho e = Some v -> computes mem (compile e) (ftype_of e) v.
Proof. intros mem rho Hmem e v _. exact (compile_correct mem rho Hmem e v). Qed.
Print Assumptions C02_fp_expr_correct_wt.
Theorem C02_fp_run_correct_wt : forall rho e v, well_typed e = true -> feval rho e = Some v ->
  exists b, run_expr rho e = Some b /\ result_is (ftype_of e) v b.
Proof. intros rho e v _. exact (run_expr_correct rho e v). Qed.
Print Assumptions C02_fp_run_correct_wt.

(* The jump-level code (labels of && || ?: as instruction positions, pushf / popf as the two instructions printed;
   this is the text the tie compares with chibicc -S): placed anywhere in a program, it reaches the structured
   evaluation's final state, and for a well-typed tree with a defined value it ends right behind its last
   instruction with the C11 value in %rax / %xmm0 and the stack as found. *)
Theorem C02_fp_flatten_simulates : forall mem c st st', frun mem c st = Some st' ->
  forall P p, fembedded P p (flatten c p) -> fstar mem P (p, st) ((p + fsize c)%nat, st').
Proof. exact flatten_simulates. Qed.
Print Assumptions C02_fp_flatten_simulates.
Theorem C02_fp_expr_code_correct : forall mem rho, (forall n, mem (addr_of n) = obj_bits (rho n)) ->
  forall e v, well_typed e = true -> feval rho e = Some v ->
  forall P p, fembedded P p (flatten (compile e) p) ->
  forall s k, exists s', fstar mem P (p, (s, k)) ((p + fsize (compile e))%nat, (s', k)) /\ Rv (ftype_of e) v s'.
Proof. exact expr_code_correct. Qed.
Print Assumptions C02_fp_expr_code_correct.

(* The row of the cast table into long double (fild / flds / fldl; for unsigned long: fildq, then 2^64 added back when
   the signed reading was negative): the value of ANY other arithmetic type arrives on the register stack exactly. *)
Theorem C02_ld_rows_in : forall mem lmem t v s, val_ok t v = true -> Rv t v (ms s) -> (List.length (st87 s) < 8)%nat ->
  exists x' m', lexec mem lmem (lcast_in t) s = Some {| st87 := x' :: st87 s; ms := m' |} /\ feq x' (l_of_val v).
Proof.
  intros mem lmem t v s Hv HR Hd. destruct (row_in_ok mem lmem t v s Hv HR Hd) as (m' & E).
  exists (l_of_val v), m'. exact (conj E (feq_refl _)).
Qed.
Print Assumptions C02_ld_rows_in.

(* For EVERY long double tree (constants, objects, operands of any other arithmetic type given by any well-typed
   tree of the first part, unary -, + - * /) whose value is defined and that needs no more x87 registers than are
   free: the code gen_expr emits (lhs, then rhs above it; faddp / fsubrp / fmulp / fdivrp; fchs; the rows into long
   double) pushes exactly one value - the C11 value computed with a 64-bit significand, up to the choice of NaN -
   and leaves everything below it on the register stack, and the machine stack, as found. *)
Theorem C02_ld_value_correct : forall mem lmem rho lrho,
  (forall n, mem (addr_of n) = obj_bits (rho n)) -> (forall n, lmem (addr_of n) = lrho n) ->
  forall e x, lwell_typed e = true -> leval rho lrho e = Some x ->
  forall s k, (List.length (st87 s) + lneed e <= 8)%nat ->
  exists x' m', lrun mem lmem (lcompile e) (s, k) = Some ({| st87 := x' :: st87 s; ms := m' |}, k) /\ feq x' x.
Proof.
  intros mem lmem rho lrho Hmem Hlmem e x _ H s k Hd. destruct (lcompile_correct mem lmem rho lrho Hmem Hlmem e x H s k Hd) as (m' & E).
  exists x, m'. exact (conj E (feq_refl _)).
Qed.
Print Assumptions C02_ld_value_correct.

(* a == b, != < <= > >= on long double operands (fcomip compares the right operand with the left one; fstp %st(0);
   sete+setnp+and / setne+setp+or / seta / setae; > and >= by swapping): %rax receives the IEEE result, NaNs included,
   and the register stack is as found. *)
Theorem C02_ld_compare_correct : forall mem lmem rho lrho,
  (forall n, mem (addr_of n) = obj_bits (rho n)) -> (forall n, lmem (addr_of n) = lrho n) ->
  forall o a b v, lwell_typed a = true -> lwell_typed b = true -> is_cmp o = true -> leval_cmp rho lrho o a b = Some v ->
  forall s k, (List.length (st87 s) + Nat.max (lneed a) (lneed b) + 1 <= 8)%nat ->
  exists m', lrun mem lmem (lcompile_cmp o a b) (s, k) = Some ({| st87 := st87 s; ms := m' |}, k) /\ Rv (TI I32) v m'.
Proof. exact lcmp_correct. Qed.
Print Assumptions C02_ld_compare_correct.

(* !a on a long double (cmp_zero: fldz; fucomip; fstp %st(0); sete; setnp; and; cmp $1): 1 exactly for +0 and -0, 0 for a NaN *)
Theorem C02_ld_not_correct : forall mem lmem rho lrho,
  (forall n, mem (addr_of n) = obj_bits (rho n)) -> (forall n, lmem (addr_of n) = lrho n) ->
  forall a v, lwell_typed a = true -> leval_not rho lrho a = Some v ->
  forall s k, (List.length (st87 s) + Nat.max (lneed a) 2 <= 8)%nat ->
  exists m', lrun mem lmem (lcompile_not a) (s, k) = Some ({| st87 := st87 s; ms := m' |}, k) /\ Rv (TI I32) v m'.
Proof. exact lnot_correct. Qed.
Print Assumptions C02_ld_not_correct.

(* (t)a out of long double for all ten other arithmetic types and _Bool (fistp under a truncating control word + the
   narrowing load; for unsigned long the comparison with 2^63, exact subtraction and btc; fstps / fstpl): the C11
   converted value whenever C11 defines it. *)
Theorem C02_ld_cast_correct : forall mem lmem rho lrho,
  (forall n, mem (addr_of n) = obj_bits (rho n)) -> (forall n, lmem (addr_of n) = lrho n) ->
  forall t a v, lwell_typed a = true -> leval_cast rho lrho t a = Some v ->
  forall s k, (List.length (st87 s) + Nat.max (lneed a) 2 <= 8)%nat ->
  exists m', lrun mem lmem (lcompile_cast t a) (s, k) = Some ({| st87 := st87 s; ms := m' |}, k) /\ Rv t v m'.
Proof. exact lcast_correct. Qed.
Print Assumptions C02_ld_cast_correct.

(* g0 : float = 0.1f, g1 : double = 2^53+2, g2 : int = 16777217, g3 : float = NaN *)
Definition rho_ex (n : nat) : val :=
  match n with
  | 0%nat => VS (b32_of_bits 1036831949) | 1%nat => VD (b64_of_bits 4845873199050653697)
  | 2%nat => VI 16777217 | 3%nat => VS (b32_of_bits 2143289344) | _ => VI 0
  end.
(* (float)g2 * g0 - g1 / 3  >=  g3 ? -g0 : (double)(g2 + 1) / (g3 != g3) *)
Definition e_ex : fexpr :=
  FCond (FBin OGe (FBin Sub (FBin Mul (FCast TF32 (FVar (TI I32) 2)) (FVar TF32 0)) (FBin Div (FVar TF64 1) (FLit I32 3))) (FVar TF32 3))
        (FUn Neg (FVar TF32 0))
        (FBin Div (FCast TF64 (FBin Add (FVar (TI I32) 2) (FLit I32 1))) (FBin ONe (FVar TF32 3) (FVar TF32 3))).
Example C02_fp_expr_nonvacuous :
  match feval rho_ex e_ex with Some (VD x) => bits_of_b64 x | _ => -1 end = 4715268810393780224 /\ modelled (compile e_ex) = true /\
  well_typed e_ex = true /\ ftype_of e_ex = TF64 /\ run_expr rho_ex e_ex = Some 4715268810393780224 /\ List.length (code_text e_ex) = 75%nat /\
  List.length (flat_text e_ex) = 73%nat.
Proof. vm_compute. repeat split; reflexivity. Qed.

(* a NaN result: inf - inf; the specification's NaN and the machine's differ in sign, both are NaNs *)
Example C02_fp_nan_nonvacuous :
  let e := FBin Sub (FLitS (b32_of_bits 2139095040)) (FLitS (b32_of_bits 2139095040)) in
  match feval rho_ex e with Some (VS x) => bits_of_b32 x | _ => -1 end = 2143289344 /\ run_expr rho_ex e = Some 4290772992 /\
  is_nan 24 128 (b32_of_bits 4290772992) = true.
Proof. vm_compute. repeat split; reflexivity. Qed.

(* unsigned long -> float at 2^63 + 2^39 + 1 (just above a tie: the sticky bit decides) and float -> unsigned long at 2^63:
   the branching rows are exercised; a tree that violates a constraint (double % int) is neither well typed nor modelled *)
Example C02_fp_rows_nonvacuous :
  run_expr (fun _ => VI 9223372586610589697) (FCast TF32 (FVar (TI U64) 8)) = Some 1593835521 /\
  match feval (fun _ => VI 9223372586610589697) (FCast TF32 (FVar (TI U64) 8)) with Some (VS x) => bits_of_b32 x | _ => -1 end = 1593835521 /\
  run_expr rho_ex (FCast (TI U64) (FLitS (b32_of_bits 1593835520))) = Some 9223372036854775808 /\
  well_typed (FBin Mod (FLitD (b64_of_bits 0)) (FLit I32 2)) = false /\
  modelled (compile (FBin Mod (FLitD (b64_of_bits 0)) (FLit I32 2))) = false.
Proof. vm_compute. repeat split; reflexivity. Qed.

(* the parsed rows print back as the text of the regenerated table: the model's instructions are the table's *)
Example C02_fp_table_text :
  forallb (fun row => forallb (fun cell => match cell with
                                           | None => true
                                           | Some l => forallb (fun x => match x with
                                                                         | XI _ => true
                                                                         | XText s => String.eqb (sinsn_text (parse_text s)) s
                                                                         end) l
                                           end) row) cast_table = true.
Proof. vm_compute. reflexivity. Qed.

(* long double: g0 : float = 0.1f, g1 : unsigned long = 2^64-1, h0 : long double = 8(1 + 2^-63);
   (h0 - (long double)g0) / ((long double)g1 + 3.0L) ; (unsigned long)((long double)g1 - h0) ; h0 >= (long double)g0 *)
Definition rho_l (n : nat) : val := match n with 0%nat => VS (b32_of_bits 1036831949) | 1%nat => VI 18446744073709551615 | _ => VI 0 end.
Definition lrho_l (n : nat) : binary80 := match n with 0%nat => decode80 302277571763841567555585 | _ => decode80 0 end.
Definition l_ex : lexpr :=
  LBin Div (LBin Sub (LVar 0) (LOf (FVar TF32 0))) (LBin Add (LOf (FVar (TI U64) 1)) (LLit (decode80 (16384 * 2 ^ 64 + 13835058055282163712)))).
Example C02_ld_nonvacuous :
  lwell_typed l_ex = true /\ lneed l_ex = 3%nat /\
  match leval rho_l lrho_l l_ex with Some x => encode80 x | None => -1 end = 301087526186782944133120 /\
  match run_l rho_l lrho_l (lcompile l_ex) with Some (s, []) => match st87 s with [x] => encode80 x | _ => -2 end | _ => -3 end = 301087526186782944133120 /\
  match leval_cast rho_l lrho_l (TI U64) (LBin Sub (LOf (FVar (TI U64) 1)) (LVar 0)) with Some (VI z) => z | _ => -1 end = 18446744073709551607 /\
  match run_l rho_l lrho_l (lcompile_cast (TI U64) (LBin Sub (LOf (FVar (TI U64) 1)) (LVar 0))) with Some (s, []) => rax (ix (ms s)) | _ => -3 end = 18446744073709551607 /\
  leval_cmp rho_l lrho_l OGe (LVar 0) (LOf (FVar TF32 0)) = Some (VI 1) /\
  List.length (ltext (lcompile l_ex) 0) = 17%nat.
Proof. vm_compute. repeat split; reflexivity. Qed.
