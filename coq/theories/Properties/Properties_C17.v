(* C17 - name tables behave as dictionaries under any history. *)
From Coq Require Import List NArith Bool Lia.
From Chibicc Require Import Model.Hashmap Gen.HashmapConsts Model.HashmapC
     Proofs.HashmapWalk Proofs.HashmapInv Proofs.HashmapRefine Proofs.HashmapInst.
Import ListNotations.
Local Open Scope N_scope.

(* c_run, c_step and c_empty are the model at the instance hashmap.c uses (Model/HashmapC.v): byte-string
   keys, FNV-1 with the constants regenerated from the C source, non-NULL values. *)

(* for every history of put/get/delete (any keys, any collisions, any
   number of table growths) shorter than 2^30/100 operations (the C [int]
   arithmetic of the load-factor test overflows from used*100 = 2^31 on, and
   rehash doubles the capacity once more: hence 2^30), the table never
   aborts, every get returns what a dictionary returns, and afterwards a name
   is present exactly when its last operation was a put, with that put's value. *)
Theorem C17_refines : forall ops : list (op bytes N),
  N.of_nat (length ops) * 100 < 1073741824 ->
  exists m outs,
    c_run ops = Ok (m, outs) /\
    outs = spec_run bytes N bytes_eqb (fun _ => None) ops /\
    (forall name, c_lookup m name = fold_left (lastw bytes N bytes_eqb name) ops None) /\
    c_Inv m.
Proof. exact C17_refines_proof. Qed.
Print Assumptions C17_refines.

(* the invariant is preserved by every single operation from any state
   that satisfies it (so it holds in every reachable state, whatever the prefix). *)
Theorem C17_inv_step : forall m o,
  c_Inv m -> (used m + 1) * 100 < 1073741824 ->
  exists m' out, c_step m o = Ok (m', out) /\ c_Inv m' /\
    out = snd (spec_step bytes N bytes_eqb (c_lookup m) o) /\
    (forall x, c_lookup m' x = fst (spec_step bytes N bytes_eqb (c_lookup m) o) x).
Proof.
  intros m o HI Hb.
  destruct (step_ok _ _ _ bytes_eqb_eq _ _ consts_ok m _ o (inv_rep _ _ _ _ _ m HI) Hb)
    as (m' & out & (Hst & [HI' Hab] & Ho) & _).
  exists m', out. auto.
Qed.
Print Assumptions C17_inv_step.

(* the side conditions on the constants of hashmap.c hold for the values
   regenerated from the source (Gen/HashmapConsts.v). *)
Theorem C17_consts_ok : params_ok hm_consts.
Proof. exact consts_ok. Qed.
Print Assumptions C17_consts_ok.

(* the "keep probing past tombstones" rule of get_or_insert_entry is needed: under the rule that
   claims the first tombstone at once (old_insert in Proofs/HashmapInst.v; hashmap.c before /repo
   commit ae6c306) the six operations of defect_history leave a second copy of a name, and the
   table answers that name after its deletion. *)
Theorem C17_old_rule_refuted :
  exists ops : list (op bytes N),
    old_run ops <> Ok (spec_run bytes N bytes_eqb (fun _ => None) ops).
Proof. exists defect_history. vm_compute. discriminate. Qed.
Print Assumptions C17_old_rule_refuted.

(* non-vacuity: a concrete colliding history with a tombstone and a rehash
   runs without abort and meets the hypotheses *)
Example C17_nonvacuous :
  exists m outs, c_run demo_history = Ok (m, outs) /\ c_Inv m /\
     16 < capacity m /\ In Tomb (buckets m) /\
     N.of_nat (length demo_history) * 100 < 1073741824.
Proof. exact demo_history_ok. Qed.
Print Assumptions C17_nonvacuous.
