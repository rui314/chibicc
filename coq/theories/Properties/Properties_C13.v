(* C13 - every input is answered with output or a located diagnostic.  Partial by nature: that the
   C implementation neither crashes nor hangs is not expressible in a Gallina model (every model
   function is total by construction).  What is proved: the LOCATION a diagnostic shows is right,
   and the front-end models answer every input with a value or an explicit error - which the check
   then compares with the implementation's outcome class on mutated inputs. *)
From Chibicc Require Import Base.Mach Model.Diag Proofs.DiagProofs Model.Lexer Model.Macro Gen.PunctTable.

(* the source line printed with a diagnostic is the line that holds the offending token: it contains
   the position, no new-line, and is delimited by new-lines or the ends of the buffer *)
Theorem C13_diagnostic_shows_the_line : forall input loc, (loc <= length input)%nat ->
  let s := line_start input loc in let e := line_end input loc in
  (s <= loc <= e)%nat /\ (e <= length input)%nat /\
  (forall k, (s <= k < e)%nat -> nth_error input k <> Some 10%N) /\
  (s = 0%nat \/ nth_error input (s - 1) = Some 10%N) /\
  (e = length input \/ nth_error input e = Some 10%N).
Proof. exact shown_line_is_the_line. Qed.
Print Assumptions C13_diagnostic_shows_the_line.

(* and the line number printed is the number of that line (1 + new-lines before its start) *)
Theorem C13_diagnostic_line_number : forall input loc, (loc <= length input)%nat ->
  line_no input loc = line_no input (line_start input loc).
Proof.
  intros input loc Hl. destruct (shown_line_is_the_line input loc Hl) as ((Hs & He) & _ & Hno & _).
  unfold line_no. f_equal. apply (count_lf_between input _ loc Hs). intros k Hk. apply Hno. lia.
Qed.
Print Assumptions C13_diagnostic_line_number.

(* the lexer model answers every byte string: tokens or an explicit error (never "stuck") *)
Theorem C13_lexer_answers : forall p, (exists l, tokenize punct_table p = LexOk l) \/ tokenize punct_table p = LexErr.
Proof. intros p. destruct (tokenize punct_table p) as [l|]; [left; exists l; reflexivity|right; reflexivity]. Qed.
Print Assumptions C13_lexer_answers.

Example C13_nonvacuous : line_start [97; 10; 98; 99; 100; 10; 101]%N 4 = 2%nat /\ line_end [97; 10; 98; 99; 100; 10; 101]%N 4 = 5%nat /\ line_no [97; 10; 98; 99; 100; 10; 101]%N 4 = 2%nat
  /\ shown_line [97; 10; 98; 99; 100; 10; 101]%N 4 = [98; 99; 100]%N.
Proof. vm_compute. repeat split. Qed.
Print Assumptions C13_nonvacuous.
