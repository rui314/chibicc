(* C16 - atomic read-modify-write operations are indivisible. *)
From Coq Require Import List ZArith Bool.
From Chibicc Require Import Model.Atomic Proofs.AtomicProofs.
Import ListNotations.
Local Open Scope Z_scope.

(* For any number of threads, any per-thread programs of op= / fetch_op / exchange /
   compare-exchange operations, and ANY schedule of their atomic steps (plain load, lock cmpxchg,
   xchg): the completed operations, in the order of their successful lock-prefixed step (which
   lies between invocation and response of each), form a sequential history of ONE atomic object
   that explains every returned value and the final memory; every thread's results are exactly
   the results of its own operations in that history, in program order. *)
Theorem C16_linearizable : forall M init progs0 sched,
  let s := run M (init_sys init progs0) sched in
  consistent M init (hist s) /\ replay M init (hist s) = mem s /\
  (forall i t, nth_error (threads s) i = Some t ->
     exists done, nth_error progs0 i = Some (done ++ prog t) /\
                  done = map e_op (mine i (hist s)) /\ results t = map e_result (mine i (hist s))).
Proof.
  intros M init progs0 sched s. destruct (inv_run M init progs0 sched) as [Hc [Hr Ht]]. split; [exact Hc|]. split; [exact Hr|].
  intros i t Hi. destruct (Ht i t Hi) as [Hp Hres]. eauto.
Qed.
Print Assumptions C16_linearizable.

(* no update is lost: if every operation adds a constant (+=, ++, atomic_fetch_add ...), the
   object ends with the initial value plus ALL completed operands, whatever the interleaving *)
Theorem C16_no_lost_update : forall M init progs0 sched cs,
  init = wrap M init ->
  Forall2 (fun e c => is_add (e_op e) c) (hist (run M (init_sys init progs0) sched)) cs ->
  mem (run M (init_sys init progs0) sched) = wrap M (init + fold_right Z.add 0 cs).
Proof.
  intros M init progs0 sched cs Hi H. destruct (inv_run M init progs0 sched) as [_ [<- _]]. exact (replay_adds M _ _ _ Hi H).
Qed.
Print Assumptions C16_no_lost_update.

(* compare-exchange fails only when the object differs from the expected value, which then
   receives the value the object held *)
Theorem C16_cas_failure : forall M init progs0 sched ev e d x,
  In ev (hist (run M (init_sys init progs0) sched)) -> e_op ev = Cas e d -> e_result ev = RCas false x ->
  x = e_before ev /\ e_before ev <> e.
Proof.
  intros M init progs0 sched ev e d x Hin Hop Hres. apply (cas_failed M _ e d). rewrite <- Hop, <- Hres.
  exact (consistent_in M _ _ _ (proj1 (inv_run M init progs0 sched)) Hin).
Qed.
Print Assumptions C16_cas_failure.

(* non-vacuity: two threads incrementing a one-byte counter, interleaved so that a CAS fails *)
Example C16_nonvacuous :
  let inc := Rmw (fun m => m + 1) true in
  let s := run 256 (init_sys 255 [[inc; inc]; [inc]]) [0; 1; 0; 1; 1; 0; 0]%nat in
  mem s = 2 /\ length (hist s) = 3%nat /\ map e_tid (hist s) = [0; 1; 0]%nat.
Proof. vm_compute. repeat split; reflexivity. Qed.
Print Assumptions C16_nonvacuous.
