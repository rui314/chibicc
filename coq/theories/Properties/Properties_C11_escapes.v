(* C11 - the functions of tokenize.c that turn the SPELLING of a literal into
   its value: escape sequences, string literal bodies in the five encodings, character
   constants, integer constants (prefix, digits, suffix), universal character names.
   Proofs in Proofs/LitScanProofs.v, IntScanProofs.v and UcnProofs.v unless a line or two suffices. *)
From Coq Require Import List NArith ZArith Bool.
From Chibicc Require Import Model.Unicode Spec.Utf Model.IntLit Spec.IntLitSpec Model.LitScan Spec.LitSpec
     Proofs.LitScanProofs Proofs.IntScanProofs Proofs.UcnProofs.
Import ListNotations.
Local Open Scope N_scope.

(* read_escaped_char, started behind the backslash of ANY valid escape sequence (simple, \e,
   one to three octal digits, \x with any number of hexadecimal digits) that the next
   character does not prolong, returns the value C11 6.4.4.4 gives the sequence - reduced
   modulo 2^32, because the C code accumulates in an int - and stops exactly behind it *)
Theorem C11_escape_value : forall e rest,
  valid_escape e = true -> escape_ends_before e (peek rest) = true ->
  read_escaped_char (spell_escape_body e ++ rest) = Ok (escape_value e mod 4294967296, rest).
Proof. exact read_escaped_char_spec. Qed.
Print Assumptions C11_escape_value.

(* no reduction happens for values below 2^32 (all simple and octal escapes, \x up to 8 digits) *)
Theorem C11_escape_value_exact : forall e rest,
  valid_escape e = true -> escape_ends_before e (peek rest) = true -> escape_value e < 4294967296 ->
  read_escaped_char (spell_escape_body e ++ rest) = Ok (escape_value e, rest).
Proof.
  intros e rest Hv He Hlt. rewrite read_escaped_char_spec by assumption.
  rewrite N.mod_small by exact Hlt. reflexivity.
Qed.
Print Assumptions C11_escape_value_exact.

(* \x without a hexadecimal digit is answered with "invalid hex escape sequence" *)
Theorem C11_escape_rejects_bare_x : forall rest,
  is_digit_of 16 (peek rest) = false -> read_escaped_char (120 :: rest) = Err ErrHexEscape.
Proof. intros rest H. rewrite hexdig_isxdigit in H. rewrite read_escaped_char_x, H. reflexivity. Qed.
Print Assumptions C11_escape_rejects_bare_x.

(* for every prefix ("" u8"" u"" U"" L"") and every lexically valid body of any length: the
   token has the element type of 6.4.5p6, ends behind the closing quote, and its array holds
   the UTF-8 / UTF-16 (surrogate pairs included) / UTF-32 encoding of the source characters,
   one unit per escape sequence, and the terminating zero.  Escape values are cut to the
   element width (this is what chibicc does with values C11 6.4.4.4p9 forbids) *)
Theorem C11_string_stored : forall p l rest,
  valid_items 34 l = true ->
  string_token (model_sprefix p) (spell_items l ++ 34 :: rest) =
    Ok (model_elem_ty (string_elem_ty p), stored_units p l, rest).
Proof. exact string_token_stored. Qed.
Print Assumptions C11_string_stored.

(* ... and when every escape value is representable in the element type, that array is exactly
   the one C11 6.4.5p6 describes *)
Theorem C11_string_literal : forall p l rest,
  valid_items 34 l = true -> items_in_range p l = true ->
  string_token (model_sprefix p) (spell_items l ++ 34 :: rest) =
    Ok (model_elem_ty (string_elem_ty p), spec_string_units p l, rest).
Proof.
  intros p l rest Hv Hr. rewrite string_token_stored by exact Hv. rewrite stored_is_spec by exact Hr. reflexivity.
Qed.
Print Assumptions C11_string_literal.

(* a body of valid elements that meets a new-line or the end of the file before a closing quote
   is answered with "unclosed string literal", whatever the encoding *)
Theorem C11_string_unclosed : forall l tail reader,
  forallb (valid_item 34) l = true -> (tail = [] \/ exists t, tail = 10 :: t) ->
  read_literal_with reader (spell_items l ++ tail) = Err ErrUnclosedString.
Proof.
  intros l tail reader Hl Ht. unfold read_literal_with. rewrite sle_walk by exact Hl.
  destruct Ht as [->|[t ->]]; reflexivity.
Qed.
Print Assumptions C11_string_unclosed.

(* '' u'' U'' L'' with one valid element: the type is int / unsigned short / unsigned int / int,
   the token ends behind the closing quote, and wherever 6.4.4.4p10-11 define the value (single
   byte characters and escapes that fit unsigned char, sign-extended through char; code points
   that fit one unit; escapes that fit the unsigned type) it is that value *)
Theorem C11_char_constant : forall p it rest v,
  valid_item 39 it = true -> spec_char_value p it = Some v ->
  exists val, char_token (model_cprefix p) (spell_item it ++ 39 :: rest) =
                Ok (val, model_char_ty (char_const_ty p), rest) /\
              num_value (model_char_ty (char_const_ty p)) val = v.
Proof. exact char_token_spec. Qed.
Print Assumptions C11_char_constant.

(* outside that domain (implementation-defined or constraint violation) chibicc cuts the int to
   the width of the type: 'é' is (char)0xE9, '\x123' is 0x23, u'\x12345' is 0x2345 *)
Theorem C11_char_constant_stored : forall p it rest, valid_item 39 it = true ->
  exists val, char_token (model_cprefix p) (spell_item it ++ 39 :: rest) =
                Ok (val, model_char_ty (char_const_ty p), rest) /\
              num_value (model_char_ty (char_const_ty p)) val = stored_char_value p it.
Proof. exact char_token_stored. Qed.
Print Assumptions C11_char_constant_stored.

Theorem C11_char_unclosed : forall it tail, valid_item 39 it = true -> item_follow it (peek tail) = true ->
  forallb (fun b => negb (b =? 39)) tail = true ->
  read_char_literal (spell_item it ++ tail) = Err ErrUnclosedChar.
Proof.
  intros it tail Hv Hfol Ht. rewrite read_char_literal_gen by assumption. rewrite cle_none by exact Ht. reflexivity.
Qed.
Print Assumptions C11_char_unclosed.

(* constants with several elements ('ab', 'a\'': value implementation-defined): chibicc takes the
   value of the first element and finds the closing quote by stepping over every later element,
   escaped quotes included *)
Theorem C11_char_multichar : forall it more rest, valid_item 39 it = true ->
  item_follow it (first_byte (spell_items more) 39) = true ->
  forallb (valid_item 39) more = true ->
  read_char_literal (spell_item it ++ spell_items more ++ 39 :: rest) = Ok (item_int it, rest).
Proof.
  intros it more rest Hv Hfol Hm. rewrite read_char_literal_gen; [|exact Hv|rewrite peek_app; exact Hfol].
  rewrite cle_items by exact Hm. reflexivity.
Qed.
Print Assumptions C11_char_multichar.

(* an instance: 'a\'' followed by ; is one token with value 97 (read_char_literal steps over escaped
   quotes since /repo commit 6181ddd) *)
Example C11_char_multichar_escaped_quote :
  valid_items 39 [IChr 97; IEsc (ESimple SQuote)] = true /\
  read_char_literal (spell_items [IChr 97; IEsc (ESimple SQuote)] ++ [39; 59]) = Ok (97, [59]).
Proof. exact char_multichar_escaped_quote. Qed.
Print Assumptions C11_char_multichar_escaped_quote.

(* non-vacuity: the body  a \n \x41 \1234 é \\ u U+1F600  read as "" and as u"" ; '\xff' ; U'\xffffffff' ; u'€' ;
   a \x of nine digits, whose value wraps *)
Example C11_escapes_nonvacuous :
  let nv_items := [IChr 97; IEsc (ESimple EscN); IEsc (EHex [52; 49]); IEsc (EOct [49; 50; 51]); IChr 52; IChr 233;
                   IEsc (ESimple Backslash); IChr 117; IChr 128512] in
  valid_items 34 nv_items = true /\ items_in_range SPnone nv_items = true /\
  spell_items nv_items = [97; 92;110; 92;120;52;49; 92;49;50;51; 52; 195;169; 92;92; 117; 240;159;152;128] /\
  string_token StrNone (spell_items nv_items ++ [34; 59]) =
    Ok (TyChar, [97; 10; 65; 83; 52; 195; 169; 92; 117; 240; 159; 152; 128; 0], [59]) /\
  string_token StrU16 (spell_items nv_items ++ [34; 59]) =
    Ok (TyUShort, [97; 10; 65; 83; 52; 233; 92; 117; 55357; 56832; 0], [59]) /\
  spec_char_value CPnone (IEsc (EHex [102; 102])) = Some (-1)%Z /\
  char_token ChrNone (spell_item (IEsc (EHex [102; 102])) ++ [39]) = Ok ((-1)%Z, CTyInt, []) /\
  spec_char_value CPU (IEsc (EHex [102;102;102;102;102;102;102;102])) = Some 4294967295%Z /\
  spec_char_value CPu (IChr 8364) = Some 8364%Z /\
  valid_escape (EHex [49;50;51;52;53;54;55;56;57]) = true /\
  read_escaped_char (spell_escape_body (EHex [49;50;51;52;53;54;55;56;57]) ++ [34]) = Ok (591751049, [34]).
Proof. vm_compute. repeat split; reflexivity. Qed.
Print Assumptions C11_escapes_nonvacuous.

(* the suffix chain of convert_pp_int, on EVERY byte string: it consumes the whole string with
   the meaning (l, u) iff the string is one of the 23 suffix spellings that the grammar of
   6.4.4.1 generates, with that meaning.  So lL, Ll, ulu, lul, llL, uu, lll ... are refused *)
Theorem C11_int_suffix_iff : forall s l u,
  scan_suffix s = (l, u, []) <-> In (s, (l, u)) suffix_table.
Proof.
  intros s l u. split; [apply scan_suffix_inv|].
  intros H. apply table_sound in H. destruct H as [sfx [-> [-> ->]]]. apply scan_suffix_accepts.
Qed.
Print Assumptions C11_int_suffix_iff.

(* every integer constant of the grammar (decimal, octal, 0x/0X, [GNU] 0b/0B; any number of
   digits and leading zeros; any valid suffix) whose value fits 64 bits and has a type by
   6.4.4.1p5: convert_pp_int accepts its spelling and stores exactly its value and that type
   (composition with C11_int_literal_type of Properties_C11.v) *)
Theorem C11_int_constant : forall k t, valid_iconst k = true ->
  iconst_value k <= 18446744073709551615 -> iconst_type k = Some t ->
  convert_pp_int (spell_iconst k) = Some (iconst_value k, t).
Proof. exact convert_pp_int_spec. Qed.
Print Assumptions C11_int_constant.

(* acceptance and rejection: for every byte string that starts with a digit, convert_pp_int
   accepts it iff the grammar generates it *)
Theorem C11_int_constant_iff : forall s, isdigit (peek s) = true ->
  (convert_pp_int s <> None <-> exists k, valid_iconst k = true /\ spell_iconst k = s).
Proof. exact convert_pp_int_iff. Qed.
Print Assumptions C11_int_constant_iff.

(* ... and a pp-number that starts with a period is never taken for an integer *)
Theorem C11_int_rejects_dot : forall t, scan_int (46 :: t) = None.
Proof. reflexivity. Qed.
Print Assumptions C11_int_rejects_dot.

(* instances: 0x0x1, 0X0X1f, 0b0b1 are refused (convert_pp_int tests for a second prefix since /repo
   commit d1a8518) and are not in the grammar; 0x0b1 is 177, 0x0 is 0 *)
Example C11_int_doubled_prefix :
  convert_pp_int [48; 120; 48; 120; 49] = None /\ recognise_iconst [48; 120; 48; 120; 49] = None /\
  convert_pp_int [48; 88; 48; 88; 49; 102] = None /\ convert_pp_int [48; 98; 48; 98; 49] = None /\
  convert_pp_int [48; 120; 48; 98; 49] = Some (177, TInt) /\ convert_pp_int [48; 120; 48] = Some (0, TInt).
Proof. exact convert_pp_int_doubled_prefix. Qed.
Print Assumptions C11_int_doubled_prefix.

(* a constant beyond 2^64-1 (no type in C11, a constraint violation) is accepted with the
   saturated value ULONG_MAX *)
Theorem C11_int_overflow_saturates : forall k, valid_iconst k = true -> 18446744073709551615 < iconst_value k ->
  exists t, convert_pp_int (spell_iconst k) = Some (18446744073709551615, t).
Proof.
  intros k Hv Hgt. unfold convert_pp_int. rewrite scan_int_accepts by exact Hv.
  rewrite N.min_r by (apply N.lt_le_incl; exact Hgt). eexists. reflexivity.
Qed.
Print Assumptions C11_int_overflow_saturates.

(* the exhaustive-search recogniser that the correspondence check tools/tie_escapes.py runs decides
   membership in the grammar *)
Theorem C11_int_recogniser : forall s,
  recognise_iconst s <> None <-> exists k, valid_iconst k = true /\ spell_iconst k = s.
Proof. exact recognise_iff. Qed.
Print Assumptions C11_int_recogniser.

(* convert_universal_chars on a literal body (any length, followed by anything): every valid
   \uXXXX / \UXXXXXXXX is replaced by the UTF-8 form of the character it names, every other
   element - in particular every escape sequence, as a backslash PAIR - is copied unchanged;
   so \\u00e9 stays six characters *)
Theorem C11_ucn_replaced : forall q l more, (q = 34 \/ q = 39) -> forallb (valid_sitem q) l = true ->
  cuc (spell_sitems l ++ more) = res_map (app (spell_items (map resolve_sitem l))) (cuc more).
Proof. exact cuc_sitems. Qed.
Print Assumptions C11_ucn_replaced.

(* phase 1 followed by the string scanner: the array is that of the body in which each
   universal character name is the character it names (5.1.1.2 phases 1 and 5, 6.4.3, 6.4.5) *)
Theorem C11_ucn_string_literal : forall p l rest rest',
  forallb (valid_sitem 34) l = true -> munch_ok 34 (map resolve_sitem l) = true ->
  cuc rest = Ok rest' ->
  exists buf, cuc (spell_sitems l ++ 34 :: rest) = Ok buf /\
    string_token (model_sprefix p) buf =
      Ok (model_elem_ty (string_elem_ty p), stored_units p (map resolve_sitem l), rest').
Proof. exact ucn_string_literal. Qed.
Print Assumptions C11_ucn_string_literal.

Theorem C11_ucn_char_constant : forall p it rest rest' v,
  valid_sitem 39 it = true -> spec_char_value p (resolve_sitem it) = Some v -> cuc rest = Ok rest' ->
  exists buf val, cuc (spell_sitem it ++ 39 :: rest) = Ok buf /\
    char_token (model_cprefix p) buf = Ok (val, model_char_ty (char_const_ty p), rest') /\
    num_value (model_char_ty (char_const_ty p)) val = v.
Proof. exact ucn_char_constant. Qed.
Print Assumptions C11_ucn_char_constant.

(* \u0000 is left as six characters (0 is the failure marker of read_universal_char) *)
Theorem C11_ucn_zero_kept : forall more,
  cuc (92 :: 117 :: 48 :: 48 :: 48 :: 48 :: more) = res_map (app [92; 117; 48; 48; 48; 48]) (cuc more).
Proof. exact cuc_ucn_zero. Qed.
Print Assumptions C11_ucn_zero_kept.

(* non-vacuity: 0x7fffffffULL, 4294967296 (decimal: long), 0XFFFFFFFF (unsigned int); 1lL and 08 refused by both sides,
   1LLu accepted ; the source body  \\ u00e9 \u00e9 \U0001F600 \x41 *)
Example C11_escapes_nonvacuous_int_ucn :
  let nv_k1 := {| ic_base := BHex false; ic_digits := [55;102;102;102;102;102;102;102]; ic_suffix := SfxUL SU (Some SLL) |} in
  let nv_k2 := {| ic_base := BDec; ic_digits := [52;50;57;52;57;54;55;50;57;54]; ic_suffix := SfxNone |} in
  let nv_k3 := {| ic_base := BHex true; ic_digits := [70;70;70;70;70;70;70;70]; ic_suffix := SfxNone |} in
  let nv_src := [SEsc (ESimple Backslash); SChr 117; SChr 48; SChr 48; SChr 101; SChr 57; SUcn false [48;48;101;57];
                 SUcn true [48;48;48;49;70;54;48;48]; SEsc (EHex [52;49])] in
  valid_iconst nv_k1 = true /\ iconst_type nv_k1 = Some TULong /\
  convert_pp_int (spell_iconst nv_k1) = Some (2147483647, TULong) /\
  valid_iconst nv_k2 = true /\ iconst_type nv_k2 = Some TLong /\
  convert_pp_int (spell_iconst nv_k2) = Some (4294967296, TLong) /\
  iconst_type nv_k3 = Some TUInt /\ convert_pp_int (spell_iconst nv_k3) = Some (4294967295, TUInt) /\
  convert_pp_int [49; 108; 76] = None /\ recognise_iconst [49; 108; 76] = None /\
  convert_pp_int [49; 76; 76; 117] = Some (1, TULong) /\
  convert_pp_int [48; 56] = None /\ recognise_iconst [48; 56] = None /\
  forallb (valid_sitem 34) nv_src = true /\ munch_ok 34 (map resolve_sitem nv_src) = true /\
  cuc (spell_sitems nv_src ++ [34]) =
    Ok [92;92; 117;48;48;101;57; 195;169; 240;159;152;128; 92;120;52;49; 34] /\
  string_token StrU16 [92;92; 117;48;48;101;57; 195;169; 240;159;152;128; 92;120;52;49; 34] =
    Ok (TyUShort, [92; 117;48;48;101;57; 233; 55357;56832; 65; 0], []).
Proof. vm_compute. repeat split; reflexivity. Qed.
Print Assumptions C11_escapes_nonvacuous_int_ucn.
