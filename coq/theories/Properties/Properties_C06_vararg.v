(* C06 / vararg: variadic functions deliver their arguments. *)
From Coq Require Import List ZArith.
From Chibicc Require Import Model.Abi Model.Vararg Spec.VarargSpec Proofs.VarargProofs.
Import ListNotations.
Local Open Scope Z_scope.

(* For every call f(named..., v1, ..., vn) compiled by chibicc on both sides - any number of named
   parameters of any of the types long, double, long double, small struct, large struct, in
   registers or on the stack - where the variadic actuals v1..vn are longs and doubles in any
   number and order: the prologue of f, va_start and the i-th va_arg(ap, long|double) of
   include/stdarg.h read exactly vi (from the register save area while registers of its class
   remain, from the overflow area afterwards). *)
Theorem C06_vararg_scalars_delivered : forall named variadic,
  wf_args named -> wf_args variadic -> Forall (fun a => scalar (fst a)) variadic ->
  delivers (call_reads named variadic) variadic.
Proof.
  intros named variadic Hn Hv Hs. apply vararg_scalars_memstructs_delivered; [assumption..|].
  eapply Forall_impl; [|exact Hs]. intros a [H|H]; [left|right; left]; exact H.
Qed.
Print Assumptions C06_vararg_scalars_delivered.

(* The gp_offset / fp_offset / overflow_arg_area values the prologue of a variadic function
   computes from its named parameters are 8 * the GP registers, 48 + 16 * the vector registers
   and 16 + 8 * the stack words the caller used for the named actuals. *)
Theorem C06_vararg_va_start : forall named, wf_args named ->
  va_start (map fst named) = ap_of (pass_args frame0 named).
Proof. exact va_start_is_ap_of. Qed.
Print Assumptions C06_vararg_va_start.

(* The same with structs larger than 16 bytes (class MEMORY, alignment at most 8) among the
   variadic actuals: va_arg(ap, struct T) reads them from the overflow area where the caller's
   push_struct put them. *)
Theorem C06_vararg_scalars_memstructs_delivered : forall named variadic,
  wf_args named -> wf_args variadic -> Forall (fun a => scalar_or_big (fst a)) variadic ->
  delivers (call_reads named variadic) variadic.
Proof. exact vararg_scalars_memstructs_delivered. Qed.
Print Assumptions C06_vararg_scalars_memstructs_delivered.

(* long double among the variadic actuals is NOT always delivered between two chibicc-compiled
   sides: f(long, ...) called with six longs and then a long double - the caller packs the long
   double at 24(%rbp) (odd stack word), __va_arg_mem rounds the overflow pointer up to 32.
   This is the known finding C06-stack-arg-alignment seen through va_arg. *)
Theorem C06_vararg_long_double_refuted :
  exists named variadic, wf_args named /\ wf_args variadic /\ ~ delivers (call_reads named variadic) variadic.
Proof.
  exists [(VInt, [1])], [(VInt, [2]); (VInt, [3]); (VInt, [4]); (VInt, [5]); (VInt, [6]); (VInt, [7]); (VLdbl, [8; 9])].
  split; [|split]; [repeat constructor..|]. vm_compute. discriminate.
Qed.
Print Assumptions C06_vararg_long_double_refuted.

Example C06_vararg_nonvacuous :
  let named := [(VInt, [1]); (VFlt, [2]); (VLdbl, [3; 4]); (VSmall true (Some false), [5; 6]); (VBig 3, [7; 8; 9])] in
  let variadic := [(VInt, [10]); (VFlt, [11]); (VInt, [12]); (VInt, [13]); (VInt, [14]); (VInt, [15]); (VInt, [16]);
                   (VFlt, [17]); (VFlt, [18]); (VFlt, [19]); (VFlt, [20]); (VFlt, [21]); (VFlt, [22]); (VFlt, [23]); (VInt, [24])] in
  call_reads named variadic = map (fun a => Some (snd a)) variadic
  /\ spec_reads named variadic = call_reads named variadic
  /\ va_start (map fst named) = VaList 16 80 56 24
  /\ (* small structs (stage 3: tied, not proved): in registers, then all-or-nothing in memory *)
     (let vs := [(VSmall false (Some true), [30; 31]); (VSmall true (Some true), [32; 33]); (VSmall false (Some false), [34; 35]);
                 (VSmall false (Some false), [36; 37]); (VInt, [38]); (VSmall false None, [39])] in
      call_reads named vs = map (fun a => Some (snd a)) vs /\ spec_reads named vs = call_reads named vs).
Proof. vm_compute. auto. Qed.
