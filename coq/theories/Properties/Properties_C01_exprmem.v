(* C01 - integer expressions WITH OBJECTS: variable reads, =, op=, ++ and -- on local
   variables of the nine integer types have the C11 value, the C11 type and the C11 side effects.
   "The tie" below is the correspondence check tools/tie_exprmem.py (specification, model and the real chibicc on random expressions). *)
From Coq Require Import ZArith Bool List.
From Chibicc Require Import Spec.C11Int Spec.C11IntMem Model.ConstFold Proofs.ConstFoldProofs
     Model.X86Int Model.CodegenInt Gen.CastTable Proofs.CastTableProofs Proofs.CodegenIntProofs
     Model.ExprGen Model.ExprMem Proofs.ExprMemProofs Proofs.ExprMemCorrect Proofs.ExprMemIncDec Proofs.ExprMemMain Proofs.ExprMemOrder
     Model.ExprMemFlat Proofs.ExprMemFlatProofs Proofs.ExprMemLayout.
Import ListNotations.
Local Open Scope Z_scope.

(* a store of n bytes followed by a load of the same n bytes at the same address gives back the low n
   bytes of the stored register (little endian, any n, any address) *)
Theorem C01_load_store_same : forall n m a v, load_le (store_le m a n v) a n = v mod 256 ^ Z.of_nat n.
Proof. exact load_store_same. Qed.
Print Assumptions C01_load_store_same.

(* C04: a store does not change what a load from a disjoint byte range sees - no neighbouring object
   is disturbed by an assignment, whatever the sizes and addresses *)
Theorem C04_store_disjoint : forall m a1 n1 a2 n2 v,
  a2 + Z.of_nat n2 <= a1 \/ a1 + Z.of_nat n1 <= a2 ->
  load_le (store_le m a2 n2 v) a1 n1 = load_le m a1 n1.
Proof. exact store_disjoint. Qed.
Print Assumptions C04_store_disjoint.

(* ... and changes no byte at all outside its own n bytes *)
Theorem C04_store_outside : forall m a n v p, ~ (a <= p < a + Z.of_nat n) -> store_le m a n v p = m p.
Proof. exact store_outside. Qed.
Print Assumptions C04_store_outside.

(* load(ty): movsbl/movzbl/movswl/movzwl/movsxd/mov applied to the object representation of a value
   of the type leaves the register representation of that value (movsbl for _Bool included) *)
Theorem C01_load_by_type : forall t v, in_range t v = true -> R t v (ld_ext (load_kind t) (urepr t v)).
Proof. exact load_R. Qed.
Print Assumptions C01_load_by_type.

(* store(ty): the low size_of(ty) bytes of a register representing v are the object representation of v *)
Theorem C01_store_by_type : forall t v r, in_range t v = true -> R t v r -> r mod 256 ^ Z.of_nat (nbytes t) = urepr t v.
Proof. intros t v r _. apply R_urepr. Qed.
Print Assumptions C01_store_by_type.

(* the type add_type gives to every expression with variables, assignments, op= and ++/-- is the C11 type *)
Theorem C01_mem_typing : forall G e, mm_type G e = mtype G e.
Proof. exact mm_type_is_c11. Qed.
Print Assumptions C01_mem_typing.

(* the parser's rewrites  ++x => x += 1,  --x => x -= 1  keep the C11 meaning (value, side effect,
   undefinedness) of every expression *)
Theorem C01_incdec_rewrite : forall G e env, meval G env (desugar G e) = meval G env e.
Proof. exact desugar_meval. Qed.
Print Assumptions C01_incdec_rewrite.

(* THE MAIN THEOREM.  For every expression tree - any depth - over literals and local variables of the
   nine integer types, built from unary + - ~ !, the ten arithmetic/bitwise/shift operators, the six
   comparisons, && || ?: , casts, commas, x = e, x o= e (ten operators), ++x --x x++ x-- (_Bool
   included), whose C11 value is defined (no signed overflow, /0, bad shift, and no unsequenced
   modification 6.5p2): the code gen_expr emits for it, started with ANY registers and ANY operand
   stack in a memory where every variable's bytes are the little-endian representation of its value,
   terminates without fault, leaves the representation of the C11 value (of the C11 type) in %rax,
   the stack as found, every variable holding exactly the value C11 prescribes after the side effects
   (side effects of the untaken operand of && || ?: do not happen), and no byte outside the variables
   and the temporaries of op= and postfix ++/-- changed.
   (wf_frame: the byte ranges of variables and temporaries are pairwise disjoint and inside the address
   space; temps_fit: the frame holds the unnamed locals the parser creates for e, in creation order.) *)
Theorem C01_exprmem_correct : forall F e env v env',
  wf_frame F -> vars_in (nvars F) e = true -> temps_fit F e ->
  meval (ftys F) env e = Some (v, env') ->
  forall s k m, agree F env m ->
  exists s' m', mrun (frbp F) (mcompile F e) (s, k, m) = Some (s', k, m') /\
                R (mtype (ftys F) e) v (rax s') /\ agree F env' m' /\ unchanged_outside F m m'.
Proof. exact mcompile_correct. Qed.
Print Assumptions C01_exprmem_correct.

(* 6.5p2 at work: when the two operands of an operator do not race (neither may modify a variable the
   other may read or modify), evaluating a then b and evaluating b then a give the same two values, the
   same final values of all variables, and are undefined together - so the operand order that
   chibicc happens to use (and that the specification follows) cannot be observed *)
Theorem C01_order_irrelevant : forall G a b env,
  norace a b = true -> eval_then G env a b = swap_res (eval_then G env b a).
Proof. exact meval_order_irrelevant. Qed.
Print Assumptions C01_order_irrelevant.

(* hence the meaning of every unsequenced binary operator can be read with the left operand first *)
Theorem C01_bin_either_order : forall G env o a b, is_logical o = false ->
  meval G env (MBin o a b) =
  if norace a b then
    match eval_then G env a b with
    | Some (x, y, e2) => match eval_binval o (mtype G a) (mtype G b) x y with Some v => Some (v, e2) | None => None end
    | None => None
    end
  else None.
Proof. exact meval_bin_either_order. Qed.
Print Assumptions C01_bin_either_order.

(* an expression changes only variables it syntactically may write, and its result depends only on the
   variables it may read or write (the two facts behind C01_order_irrelevant) *)
Theorem C01_writes_sound : forall G e env v env1, meval G env e = Some (v, env1) -> frame_ok (writes e) env env1.
Proof. exact meval_frame. Qed.
Print Assumptions C01_writes_sound.
Theorem C01_footprint_sound : forall G e S env env',
  incl (reads e ++ writes e) S -> eqon S env env' -> res_equiv S (meval G env e) (meval G env' e).
Proof. exact meval_indep. Qed.
Print Assumptions C01_footprint_sound.

(* the specification with objects extends the one without: on expressions that mention no variable it
   is C11Int.eval / type_of (the spec C01_expr_correct is about), and the store is untouched *)
Theorem C01_spec_conservative : forall G e e' env, to_expr e = Some e' ->
  mtype G e = type_of e' /\ meval G env e = lift_res env (eval e').
Proof. intros G e e' env H. rewrite (to_expr_inv e e' H). destruct (meval_pure G e') as [Ty Ev]. exact (conj Ty (Ev env)). Qed.
Print Assumptions C01_spec_conservative.

(* the jump-level code (je / jne / jmp and labels as positions, as gen_expr prints ND_LOGAND, ND_LOGOR,
   ND_COND) run on the program-counter machine with memory reaches exactly the state of the code tree,
   wherever it is placed in a larger program *)
Theorem C01_mem_jump_code_simulates : forall rbp c st st', mrun rbp c st = Some st' ->
  forall P p, xembedded P p (mflatten c p) -> xstar rbp P (p, st) ((p + msize c)%nat, st').
Proof. exact mflatten_simulates. Qed.
Print Assumptions C01_mem_jump_code_simulates.

(* ... so the main theorem holds for the instruction sequence chibicc actually prints: from the first
   instruction of the expression the machine reaches the instruction after it, with the C11 value in
   %rax, the stack as found, the variables holding the C11 values, nothing else changed *)
Theorem C01_exprmem_code_correct : forall F e env v env',
  wf_frame F -> vars_in (nvars F) e = true -> temps_fit F e ->
  meval (ftys F) env e = Some (v, env') ->
  forall P p, xembedded P p (mflatten (mcompile F e) p) ->
  forall s k m, agree F env m ->
  exists s' m', xstar (frbp F) P (p, (s, k, m)) ((p + msize (mcompile F e))%nat, (s', k, m')) /\
                R (mtype (ftys F) e) v (rax s') /\ agree F env' m' /\ unchanged_outside F m m'.
Proof. exact mexpr_code_correct. Qed.
Print Assumptions C01_exprmem_code_correct.

(* the frame assign_lvar_offsets lays out for ANY list of declared integer variables and ANY list of
   temporaries (newest local nearest to %rbp, each aligned to its size) is well formed: all byte
   ranges pairwise disjoint and inside the frame, provided the frame fits below %rbp; and it holds the
   temporaries of the expression it was laid out for *)
Theorem C01_layout_wf : forall rbp ts ks, frame_bottom ts ks <= rbp -> rbp <= 2 ^ 64 -> wf_frame (layout rbp ts ks).
Proof. exact layout_wf. Qed.
Print Assumptions C01_layout_wf.
Theorem C01_layout_fits : forall rbp ts e, temps_fit (layout rbp ts (temps_of ts e)) e.
Proof. exact layout_fits. Qed.
Print Assumptions C01_layout_fits.

(* hence the main theorem with no assumption about the frame left: for the frame chibicc lays out *)
Theorem C01_exprmem_correct_laidout : forall rbp ts e env v env',
  frame_bottom ts (temps_of ts e) <= rbp -> rbp <= 2 ^ 64 ->
  vars_in (length ts) e = true ->
  meval ts env e = Some (v, env') ->
  let F := layout rbp ts (temps_of ts e) in
  forall s k m, agree F env m ->
  exists s' m', mrun rbp (mcompile F e) (s, k, m) = Some (s', k, m') /\
                R (mtype ts e) v (rax s') /\ agree F env' m' /\ unchanged_outside F m m'.
Proof. exact mcompile_correct_layout. Qed.
Print Assumptions C01_exprmem_correct_laidout.

(* the frame checks used in examples and by the tie are sound *)
Theorem C01_wf_frame_check : forall F, wf_frameb F = true -> wf_frame F.
Proof. exact wf_frameb_sound. Qed.
Print Assumptions C01_wf_frame_check.
Theorem C01_temps_fit_check : forall F e, temps_fitb F e = true -> temps_fit F e.
Proof. intros F e H. apply kinds_at_frame. exact (kinds_prefixb_nth _ _ H). Qed.
Print Assumptions C01_temps_fit_check.

(* non-vacuity: signed char a = -5; unsigned short b = 65535; _Bool c = 1; unsigned d = 1; long e = 41;
     (a = b), ((b += 70000) + e++) + ((c && --d) ? a : (d <<= 1))
   in the frame assign_lvar_offsets lays out: the hypotheses hold, C11 gives 4504 and a=-1 b=4463 c=1 d=0 e=42,
   and running the model's code on a concrete memory gives exactly that *)
Definition nv_ts := [I8; U16; IBool; U32; I64].
Definition nv_e := MComma (MAssign 0 (MVar 1))
   (MBin Add (MBin Add (MOpAssign Add 1 (MLit I32 70000)) (MIncDec true true 4))
             (MCond (MBin LAnd (MVar 2) (MIncDec false false 3)) (MVar 0) (MOpAssign Shl 3 (MLit I32 1)))).
Definition nv_F := layout 4294967296 nv_ts (temps_of nv_ts nv_e).
Definition nv_env := [-5; 65535; 1; 1; 41].
Definition nv_s0 := {| rax := 7; rdi := 8; rdx := 9; rcx := 10; f_zf := false; f_cf := true; f_lt := false |}.
Example C01_exprmem_nonvacuous :
  wf_frameb nv_F = true /\ vars_in (nvars nv_F) nv_e = true /\ temps_fitb nv_F nv_e = true /\
  ftys nv_F = nv_ts /\ map fst (ftemps nv_F) = [TPtr; TSaved I64; TPtr; TPtr; TPtr] /\ frame_bottom nv_ts (temps_of nv_ts nv_e) = 57 /\
  meval nv_ts nv_env nv_e = Some (4504, [-1; 4463; 1; 0; 42]) /\
  agreeb nv_F nv_env (init_mem nv_F nv_env (nvars nv_F) (fun _ => 0)) = true /\
  match mrun (frbp nv_F) (mcompile nv_F nv_e) (nv_s0, [99], init_mem nv_F nv_env (nvars nv_F) (fun _ => 0)) with
  | Some (s', k', m') => rax s' = 4504 /\ k' = [99] /\ agreeb nv_F [-1; 4463; 1; 0; 42] m' = true
  | None => False
  end.
Proof. vm_compute. repeat split; reflexivity. Qed.
Print Assumptions C01_exprmem_nonvacuous.

(* non-vacuity of the order theorem: int a = 3, b = 4, c = 5;  (a = 7) and (b += c) do not race; both orders
   give the values 7 and 9 and the store a=7 b=9 c=5;  (a = 7) and (b += a) race and are excluded *)
Example C01_order_nonvacuous :
  norace (MAssign 0 (MLit I32 7)) (MOpAssign Add 1 (MVar 2)) = true /\
  eval_then [I32; I32; I32] [3; 4; 5] (MAssign 0 (MLit I32 7)) (MOpAssign Add 1 (MVar 2)) = Some (7, 9, [7; 9; 5]) /\
  eval_then [I32; I32; I32] [3; 4; 5] (MOpAssign Add 1 (MVar 2)) (MAssign 0 (MLit I32 7)) = Some (9, 7, [7; 9; 5]) /\
  norace (MAssign 0 (MLit I32 7)) (MOpAssign Add 1 (MVar 0)) = false /\
  eval_then [I32; I32; I32] [3; 4; 5] (MAssign 0 (MLit I32 7)) (MOpAssign Add 1 (MVar 0)) = Some (7, 11, [7; 11; 5]) /\
  eval_then [I32; I32; I32] [3; 4; 5] (MOpAssign Add 1 (MVar 0)) (MAssign 0 (MLit I32 7)) = Some (7, 7, [7; 7; 5]).
Proof. vm_compute. repeat split; reflexivity. Qed.
Print Assumptions C01_order_nonvacuous.

(* postfix ++ / -- on _Bool (finding C01-bool-postfix; /repo saves the old value in a temporary since 43b829f, and that
   form is what is modelled): _Bool x = 1; x++  has the C11 value 1 and leaves 1 in x, and so does the modelled code;
   likewise _Bool x = 0; x--  has the value 0 and leaves 1 *)
Definition bp_F := layout 4294967296 [IBool] (temps_of [IBool] (MIncDec true true 0)).
Example C01_bool_postfix_right :
  meval [IBool] [1] (MIncDec true true 0) = Some (1, [1]) /\ meval [IBool] [0] (MIncDec true false 0) = Some (0, [1]) /\
  wf_frameb bp_F = true /\ temps_fitb bp_F (MIncDec true true 0) = true /\
  match mrun (frbp bp_F) (mcompile bp_F (MIncDec true true 0)) (nv_s0, [], init_mem bp_F [1] 1 (fun _ => 0)) with
  | Some (s', k', m') => rax s' = 1 /\ agreeb bp_F [1] m' = true | None => False end /\
  match mrun (frbp bp_F) (mcompile bp_F (MIncDec true false 0)) (nv_s0, [], init_mem bp_F [0] 1 (fun _ => 0)) with
  | Some (s', k', m') => rax s' = 0 /\ agreeb bp_F [1] m' = true | None => False end.
Proof. vm_compute. repeat split; reflexivity. Qed.
Print Assumptions C01_bool_postfix_right.
