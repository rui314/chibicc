(* C19 - preprocessed output is a faithful program: the -E printer (print_tokens in main.c).

   Vocabulary.  A token given to the printer (Model/EPrint.v, [etok]) carries what print_tokens()
   reads: kind, spelling, has_space, at_bol, and [e_adj] = the outcome of the C test
   `prev && prev->file == tok->file && prev->loc + prev->len == tok->loc`.
   [eprint] is print_tokens (with the space it writes behind a `\\` token before a new-line, /repo commit
   f21a1fb, and in front of a first token beginning with EF BB BF, /repo commit 87479b9);
   [tokenize punct_table] is tokenize() of tokenize.c (Model/Lexer.v) with
   the punctuator table regenerated from the source; [relex ts] is the token list - flags included -
   that reading the printed text must give.
   [printable_src ts]: every token of ts was cut by tokenize() out of SOME text in which it was followed
   by the spellings of the tokens that the printer glues to it (those whose adjacency test succeeds and
   that have no has_space and start no line).  That is what the C code guarantees: the adjacency test
   only succeeds for tokens lying side by side in one buffer that one tokenize() run cut into exactly
   these tokens.  Nothing is assumed about tokens that are NOT glued: they may come from anywhere
   (macro bodies, arguments, pasted or stringized text, other files) and may fuse at will. *)
From Coq Require Import List NArith Bool.
From Chibicc Require Import Model.Lexer Gen.PunctTable Proofs.LexerProofs Model.Phases Model.EPrint Spec.EPrintSpec Proofs.EPrintProofs.
Import ListNotations.
Local Open Scope N_scope.

(* The hypothesis [printable_src] is what tokenize() delivers: the token list of ANY text the tokenizer
   accepts (any length, comments and white space anywhere) satisfies it ... *)
Theorem C19_eprint_tokenizer_output_printable : forall text l,
  tokenize punct_table text = LexOk l -> printable_src (of_lexed l).
Proof. intros text l. exact (lex_printable punct_table _ text true false l). Qed.
Print Assumptions C19_eprint_tokenizer_output_printable.

(* ... hence -E of a text without directives and macros reads back as the same preprocessing tokens. *)
Theorem C19_eprint_plain_text_roundtrip : forall text l, tokenize punct_table text = LexOk l ->
  exists l', tokenize punct_table (eprint (of_lexed l)) = LexOk l' /\ map pptoken_of l' = map pptoken_of l.
Proof.
  intros text l H. rewrite <- given_of_lexed. exact (eprint_same_tokens _ (lex_printable punct_table _ _ _ _ _ H)).
Qed.
Print Assumptions C19_eprint_plain_text_roundtrip.

(* The heart (maximal munch is only ever stopped by a separator, never prolonged): if tokenize(),
   standing in front of the text p r1, cuts a token that ends inside p, then in front of p followed by
   a space or a new-line and ANY other text it cuts the same token.  All kinds of token: identifier,
   pp-number with its e+ e- p+ p- pairs, every punctuator of tokenize.c, string and character literals
   with every prefix. *)
Theorem C19_eprint_cut : forall p r1 c r2 k n, is_sep c = true ->
  first_token punct_table (p ++ r1) = Some (k, n) -> (n <= length p)%nat ->
  first_token punct_table (p ++ c :: r2) = Some (k, n).
Proof. exact (first_token_cut punct_table punct_table_nosep). Qed.
Print Assumptions C19_eprint_cut.

(* The hypothesis of the round trip is decidable: a token list is printable iff every token, followed
   by the spellings glued to it and then a new-line, is cut by the tokenizer as itself. *)
Theorem C19_eprint_printable_decidable : forall ts, printable_src ts <-> printable_b punct_table ts = true.
Proof. exact (printable_iff punct_table punct_table_nosep). Qed.
Print Assumptions C19_eprint_printable_decidable.

(* Soundness of the printer's decision for a pair: whenever print_tokens() writes token b directly
   behind token a (no space, no new-line), the tokenizer reading the output from the first byte of a
   cuts exactly a - whatever follows b in the output. *)
Theorem C19_eprint_glued_pair_sound : forall a b rest pb, printable_src (a :: b :: rest) -> glued b = true ->
  exists more, eprint_from false pb (a :: b :: rest) = sep_before false pb a ++ e_text a ++ e_text b ++ more /\
               first_token punct_table (e_text a ++ e_text b ++ more) = Some (e_kind a, length (e_text a)).
Proof. exact glued_pair_sound. Qed.
Print Assumptions C19_eprint_glued_pair_sound.

(* THE round trip, for token lists of any length: the text written by -E, read by tokenize(), is
   exactly the token list that was printed - same number of tokens, same kinds, same spellings - and
   every token is at the beginning of a line / preceded by white space exactly as [relex] says. *)
Theorem C19_eprint_roundtrip : forall ts, printable_src ts ->
  tokenize punct_table (eprint ts) = LexOk (relex ts).
Proof. exact eprint_roundtrip. Qed.
Print Assumptions C19_eprint_roundtrip.

(* In the words of Spec/EPrintSpec.v: phase 3 decomposes the -E text into the preprocessing tokens
   (kind, spelling) the compiler proper consumes. No exclusion: holds also with a leading `#`. *)
Theorem C19_eprint_same_tokens : forall ts, printable_src ts ->
  same_tokens (tokenize punct_table) (eprint ts) (given ts).
Proof. exact eprint_same_tokens. Qed.
Print Assumptions C19_eprint_same_tokens.

(* A `#` that is still there after preprocessing is not a directive; in the -E text a `#` is the first
   token of a line if and only if it is the very first token of the whole output. *)
Theorem C19_eprint_hash_at_line_start : forall ts, no_directive (relex ts) = negb (leading_hash ts).
Proof. exact relex_no_directive. Qed.
Print Assumptions C19_eprint_hash_at_line_start.

(* Phases 1 and 2 of whoever reads the -E text leave it alone: it does not begin with a byte order mark
   (an identifier beginning with U+FEFF as first token gets a space in front), holds no backslash
   directly before a new-line (a `\` token is followed by a space there, also at the very end) and no
   carriage return.  [clean_tokens]: no spelling holds a CR or backslash-new-line itself, and only the
   `\` token ends in a backslash - true of every spelling tokenize() cuts from a file. *)
Theorem C19_eprint_survives_phases_1_2 : forall ts, printable_src ts -> clean_tokens ts = true ->
  survives_phases_1_2 (eprint ts) = true.
Proof. exact eprint_survives_phases_1_2. Qed.
Print Assumptions C19_eprint_survives_phases_1_2.

(* The same against the model of tokenize_file's phases 1-2 (Model/Phases.v) and its BOM test: reading
   the -E text the way chibicc reads a file gives exactly the tokens that were printed. *)
Theorem C19_eprint_reread : forall ts, printable_src ts -> clean_tokens ts = true ->
  tokenize punct_table (phases12 (strip_bom (eprint ts))) = LexOk (relex ts).
Proof.
  intros ts Hp Hc. rewrite (survives_is_identity _ (eprint_survives_phases_1_2 ts Hp Hc)). exact (eprint_roundtrip ts Hp).
Qed.
Print Assumptions C19_eprint_reread.

(* Hence, unless the output begins with `#`, the -E text is faithful: same preprocessing tokens,
   nothing in it is taken for a directive, and phases 1-2 do not touch it. *)
Theorem C19_eprint_faithful : forall ts, printable_src ts -> clean_tokens ts = true -> leading_hash ts = false ->
  faithful (tokenize punct_table) (eprint ts) (given ts).
Proof. exact eprint_faithful. Qed.
Print Assumptions C19_eprint_faithful.

(* The exclusion is exact and real (open finding C19-leading-hash): EVERY token list that begins with
   `#` is printed with the `#` at the start of line 1 ... *)
Theorem C19_eprint_leading_hash_always_refuted : forall ts, printable_src ts -> leading_hash ts = true ->
  ~ faithful (tokenize punct_table) (eprint ts) (given ts).
Proof. exact leading_hash_always_refuted. Qed.
Print Assumptions C19_eprint_leading_hash_always_refuted.

(* ... with the witness `#define H #` / `H define X 1` / `X`, printed as "# define X 1\nX\n". *)
Theorem C19_eprint_leading_hash_refuted : exists ts, printable_src ts /\ leading_hash ts = true /\
  eprint ts = [35; 32; 100; 101; 102; 105; 110; 101; 32; 88; 32; 49; 10; 88; 10] /\
  ~ faithful (tokenize punct_table) (eprint ts) (given ts).
Proof.
  exists leading_hash_witness. pose proof (printable_src_b leading_hash_witness eq_refl) as Hp.
  split; [exact Hp|]. split; [reflexivity|]. split; [vm_compute; reflexivity|]. exact (leading_hash_always_refuted _ Hp eq_refl).
Qed.
Print Assumptions C19_eprint_leading_hash_refuted.

(* Idempotence: read the -E text (the tokens of ONE text are adjacent iff nothing was skipped between
   them), print what was read: the same bytes; read that: the same tokens, flags included.
   The first equation needs no hypothesis at all. *)
Theorem C19_eprint_print_of_read : forall ts, eprint (of_lexed (relex ts)) = eprint ts.
Proof. exact eprint_of_relex. Qed.
Print Assumptions C19_eprint_print_of_read.

Theorem C19_eprint_idempotent : forall ts, printable_src ts ->
  exists l, tokenize punct_table (eprint ts) = LexOk l /\ eprint (of_lexed l) = eprint ts /\
            tokenize punct_table (eprint (of_lexed l)) = LexOk l.
Proof.
  intros ts Hp. exists (relex ts). pose proof (eprint_roundtrip ts Hp) as H.
  split; [exact H|]. split; [apply eprint_of_relex|]. rewrite eprint_of_relex. exact H.
Qed.
Print Assumptions C19_eprint_idempotent.

(* non-vacuity: `x=-N;` with `#define N -1` (six tokens, two origins) is printable and prints "x=- -1 ;" *)
Example C19_eprint_nonvacuous :
  printable_src ex_minus /\ eprint ex_minus = [120; 61; 45; 32; 45; 49; 32; 59; 10] /\
  tokenize punct_table (eprint ex_minus) = LexOk (relex ex_minus) /\ length (relex ex_minus) = 6%nat.
Proof.
  pose proof (printable_src_b ex_minus eq_refl) as Hp.
  split; [exact Hp|]. split; [vm_compute; reflexivity|]. split; [exact (eprint_roundtrip _ Hp)|reflexivity].
Qed.
Print Assumptions C19_eprint_nonvacuous.

(* non-vacuity: fourteen tokens that would all fuse (u8 "a", 1e +, / *, . 5, L 'c', a `#` at_bol, % :) *)
Example C19_eprint_nonvacuous_mixed :
  printable_src ex_mixed /\ leading_hash ex_mixed = false /\
  eprint ex_mixed = [117; 56; 32; 34; 97; 34; 32; 49; 101; 32; 43; 32; 47; 32; 42; 32; 46; 32; 53; 32; 76; 32; 39; 99; 39;
                     32; 35; 100; 10; 37; 58; 10] /\
  faithful (tokenize punct_table) (eprint ex_mixed) (given ex_mixed).
Proof.
  pose proof (printable_src_b ex_mixed eq_refl) as Hp.
  split; [exact Hp|]. split; [reflexivity|]. split; [vm_compute; reflexivity|]. exact (eprint_faithful _ Hp eq_refl eq_refl).
Qed.
Print Assumptions C19_eprint_nonvacuous_mixed.

(* non-vacuity: `\` tokens before new-lines and at the very end; U+FEFF first *)
Example C19_eprint_nonvacuous_backslash :
  printable_src ex_bslash /\ clean_tokens ex_bslash = true /\
  eprint ex_bslash = [97; 32; 92; 32; 10; 120; 92; 32; 10; 98; 32; 92; 32; 10] /\
  faithful (tokenize punct_table) (eprint ex_bslash) (given ex_bslash).
Proof.
  pose proof (printable_src_b ex_bslash eq_refl) as Hp.
  split; [exact Hp|]. split; [reflexivity|]. split; [vm_compute; reflexivity|]. exact (eprint_faithful _ Hp eq_refl eq_refl).
Qed.
Print Assumptions C19_eprint_nonvacuous_backslash.

Example C19_eprint_nonvacuous_bom :
  printable_src ex_bom /\ clean_tokens ex_bom = true /\
  eprint ex_bom = [32; 239; 187; 191; 120; 32; 61; 32; 49; 10] /\
  faithful (tokenize punct_table) (eprint ex_bom) (given ex_bom).
Proof.
  pose proof (printable_src_b ex_bom eq_refl) as Hp.
  split; [exact Hp|]. split; [reflexivity|]. split; [vm_compute; reflexivity|]. exact (eprint_faithful _ Hp eq_refl eq_refl).
Qed.
Print Assumptions C19_eprint_nonvacuous_bom.

(* the hypothesis is not empty talk: impossible token lists are rejected *)
Example C19_eprint_not_printable :
  printable_b punct_table [T LPunct [45] false true false; T LPunct [45] false false true] = false /\
  printable_b punct_table [T LIdent [117; 56] false true false; T LStr [34; 97; 34] false false true] = false /\
  printable_b punct_table [T LNum [49; 101] false true false; T LPunct [43] false false true] = false /\
  printable_b punct_table [T LPunct [47] false true false; T LPunct [42] false false true] = false /\
  printable_b punct_table [T LPunct [45] false true false; T LPunct [45] false false false] = true.
Proof. vm_compute. repeat split; reflexivity. Qed.
Print Assumptions C19_eprint_not_printable.
