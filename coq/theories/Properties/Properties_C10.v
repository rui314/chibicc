(* C10 - conditional inclusion and #include resolution. *)
From Chibicc Require Import Base.Mach Model.Cond Model.Include Proofs.CondProofs Proofs.IncludeProofs.

(* for EVERY well-nested sequence of #if/#ifdef/#ifndef/#elif/#else/#endif and text lines (the
   flattening of any tree of if-sections, any depth, any truth values) the directive dispatcher
   with its skip-ahead functions outputs exactly the text lines of the groups that C11 6.10.1
   selects: the first group of each section whose condition holds, else the #else group *)
Theorem C10_groups_selected : forall (P : Type) (items : list (item P)), run P (flat P items) = Some (select P items).
Proof. exact cond_correct. Qed.
Print Assumptions C10_groups_selected.

(* what stands in the first group of a section whose condition is false has no effect *)
Theorem C10_skipped_group_irrelevant : forall (P : Type) body1 body2 es els rest,
  run P (flat P (Sec P false body1 es els :: rest)) = run P (flat P (Sec P false body2 es els :: rest)).
Proof. intros. rewrite !cond_correct. reflexivity. Qed.
Print Assumptions C10_skipped_group_irrelevant.

Theorem C10_first_true_group : forall (P : Type) body es els rest,
  run P (flat P (Sec P true body es els :: rest)) = Some (select P body ++ select P rest).
Proof. intros. rewrite cond_correct. reflexivity. Qed.
Print Assumptions C10_first_true_group.

(* skipping passes over any well-nested text at any depth *)
Theorem C10_skip_balanced : forall (P : Type) l d rest, skipd P d (flat P l ++ rest) = skipd P d rest.
Proof. exact skipd_flat. Qed.
Print Assumptions C10_skip_balanced.

(* include search: the first existing file in the order including directory (for "..."), -I,
   standard, -idirafter; #include_next continues strictly after the previous hit *)
Theorem C10_include_first_match : forall (D N : Type) (ex : D -> N -> bool) dq cur dash_i std after n d,
  resolve D N ex dq cur (include_paths D dash_i std after) n = Some d ->
  ex d n = true /\
  exists k, nth_error ((if dq then [cur] else []) ++ dash_i ++ std ++ after) k = Some d /\
    forall j d', (j < k)%nat -> nth_error ((if dq then [cur] else []) ++ dash_i ++ std ++ after) j = Some d' -> ex d' n = false.
Proof. exact resolve_first_match. Qed.
Print Assumptions C10_include_first_match.

Theorem C10_include_not_found : forall (D N : Type) (ex : D -> N -> bool) dq cur paths n, resolve D N ex dq cur paths n = None ->
  (dq = true -> ex cur n = false) /\ forall d, In d paths -> ex d n = false.
Proof. exact resolve_none. Qed.
Print Assumptions C10_include_not_found.

Theorem C10_include_next : forall (D N : Type) (ex : D -> N -> bool) idx paths n d, resolve_next D N ex idx paths n = Some d ->
  ex d n = true /\ exists k, (idx <= k)%nat /\ nth_error paths k = Some d /\
    forall j d', (idx <= j < k)%nat -> nth_error paths j = Some d' -> ex d' n = false.
Proof. exact resolve_next_spec. Qed.
Print Assumptions C10_include_next.

(* non-vacuity: nested sections, #elif after a taken group, #else *)
Definition demo : list (item nat) :=
  [T nat 1; Sec nat false [T nat 2; Sec nat true [T nat 3] [] None] [(true, [T nat 4; Sec nat false [T nat 5] [] (Some [T nat 6])]); (true, [T nat 7])] (Some [T nat 8]); T nat 9].
Example C10_nonvacuous : run nat (flat nat demo) = Some [1; 4; 6; 9]%nat.
Proof. reflexivity. Qed.
Print Assumptions C10_nonvacuous.
