(* C11 - literals have the C11 value, type and encoding (the parts decided by proof).
   Proofs in Proofs/UnicodeProofs.v and IntLitProofs.v unless a line suffices. *)
From Coq Require Import List NArith ZArith Bool.
From Chibicc Require Import Model.Unicode Spec.Utf Gen.UnicodeTables Model.IntLit Spec.IntLitSpec
     Proofs.UnicodeProofs Proofs.IntLitProofs.
Import ListNotations.
Local Open Scope N_scope.

(* every code point below 2^21 (all that four bytes can carry; includes all 1,112,064 scalar
   values) survives encode_utf8 followed by decode_utf8, whatever follows it in the buffer *)
Theorem C11_utf8_roundtrip : forall c rest, c < 2097152 ->
  decode_utf8 (encode_utf8 c ++ rest) = DecOk c rest.
Proof. intros c rest H. rewrite encode_is_rfc3629 by exact H. exact (decode_rfc3629 c rest H). Qed.
Print Assumptions C11_utf8_roundtrip.

Theorem C11_utf8_is_rfc3629 : forall c, c < 2097152 -> encode_utf8 c = rfc3629 c.
Proof. exact encode_is_rfc3629. Qed.
Print Assumptions C11_utf8_is_rfc3629.

Theorem C11_utf8_decode : forall c rest, c < 2097152 -> decode_utf8 (rfc3629 c ++ rest) = DecOk c rest.
Proof. exact decode_rfc3629. Qed.
Print Assumptions C11_utf8_decode.

Theorem C11_decode_rejects_lone_continuation : forall b rest, 128 <= b < 192 -> decode_utf8 (b :: rest) = DecErr.
Proof. exact decode_rejects_lone_continuation. Qed.
Print Assumptions C11_decode_rejects_lone_continuation.
Theorem C11_decode_rejects_bad_continuation : forall b x rest,
  192 <= b < 256 -> x < 256 -> ~ (128 <= x < 192) -> decode_utf8 (b :: x :: rest) = DecErr.
Proof. exact decode_rejects_bad_continuation. Qed.
Print Assumptions C11_decode_rejects_bad_continuation.

(* UTF-16: BMP code points are one unit; the others a surrogate pair in D800-DBFF / DC00-DFFF
   that decodes back to the code point *)
Theorem C11_utf16_bmp : forall c, c < 65536 -> utf16_units c = [c].
Proof. exact utf16_bmp. Qed.
Print Assumptions C11_utf16_bmp.
Theorem C11_utf16_surrogates : forall c, 65536 <= c < 1114112 ->
  exists w1 w2, utf16_units c = [w1; w2] /\ 55296 <= w1 <= 56319 /\ 56320 <= w2 <= 57343 /\
                utf16_decode [w1; w2] = Some c.
Proof. exact utf16_surrogates. Qed.
Print Assumptions C11_utf16_surrogates.

(* the identifier tables regenerated from unicode.c denote exactly Annex D.1 minus D.2 (first
   character) and Annex D.1 (later characters), plus the basic letters, digits, _ and $ - for
   every 32-bit value, not only the sampled ones *)
Theorem C11_ident_start_ranges : forall c, is_ident1 c = spec_ident_start c.
Proof. exact is_ident1_annex_d. Qed.
Theorem C11_ident_cont_ranges : forall c, is_ident2 c = spec_ident_cont c.
Proof. exact is_ident2_annex_d. Qed.
Print Assumptions C11_ident_start_ranges.
Print Assumptions C11_ident_cont_ranges.

(* the shift ladder of convert_pp_int picks the first type of the 6.4.4.1p5 list that can
   represent the value, for every base class, suffix class and value below 2^64 *)
Theorem C11_int_literal_type : forall decimal l u v t,
  v < 18446744073709551616 ->
  c11_literal_type decimal l u v = Some t -> lit_type decimal l u v = t.
Proof. exact literal_type_is_c11. Qed.
Print Assumptions C11_int_literal_type.

(* non-vacuity: the hypotheses are met at the interesting boundaries *)
Example C11_nonvacuous :
  c11_literal_type true false false 2147483648 = Some TLong /\
  c11_literal_type false false false 2147483648 = Some TUInt /\
  c11_literal_type false false false 9223372036854775808 = Some TULong /\
  c11_literal_type true false false 9223372036854775808 = None /\
  encode_utf8 65535 = [239; 191; 191] /\ encode_utf8 65536 = [240; 144; 128; 128] /\
  utf16_units 1114111 = [56319; 57343] /\ is_ident1 0x0300 = false /\ is_ident2 0x0300 = true.
Proof. vm_compute. repeat split; reflexivity. Qed.
Print Assumptions C11_nonvacuous.
