(* C03, switch / labels / goto: switch (fall-through, default anywhere, case labels in nested blocks / ifs /
   loops), break / continue through switches and loops, labelled statements and goto:
   gen_stmt's jump code simulates the structured semantics of C11 6.8. *)
From Coq Require Import List Arith Bool.
Import ListNotations.
From Chibicc Require Import Spec.SwSem Spec.SwCont Model.LoweringSw Model.LoweringSwParse Proofs.LoweringSwProofs Proofs.LoweringSwParseProofs Proofs.SwContProofs Proofs.SwContComplete Proofs.LoweringSwCont.

(* The jump code chibicc emits for ANY statement built from markers, blocks, if, for / while, do,
   break, continue, switch, case, default, labels and goto - at any nesting depth, embedded
   anywhere (position p) in any program P, with any break / continue targets b c in force and any
   label table lt - does what the structured semantics says, for every oracle (every sequence of
   values of the controlling expressions):
   - executed from its beginning (m = None), or from one of its labels (m = Some t: a case /
     default label when the enclosing switch dispatches into it, a named label when a goto targets
     it): the code entered at the beginning resp. at the position of that label prints the same
     markers in the same order, consumes the same oracle values, and control ends at the end of the
     statement / at b after a break / at c after a continue / at lt's position for the label of a
     goto that left the statement;
   - when the statement does not contain the label looked for, nothing is executed. *)
Theorem C03_sw_lowering_simulates :
  forall lt f m s o tr o' out, sexec f m s o = Some (tr, o', out) -> swf s = true ->
  forall P p b c, sembedded P p (sgen lt s p b c) ->
  match sentry m s p with
  | None => out = RSeek /\ tr = [] /\ o' = o
  | Some q => out <> RSeek /\ forall r, exists r', sstar P (q, o, r) tr (sout_target lt out p s b c, o', r')
  end.
Proof. exact sw_lowering_simulates. Qed.
Print Assumptions C03_sw_lowering_simulates.

(* A whole function body (label names distinct, every switch with distinct case constants and at
   most one default - the constraints of 6.8.1p3 and 6.8.4.2p3) with chibicc's label resolution:
   whenever the structured semantics gives the body a complete run - through any number of gotos,
   forward, backward, into and out of loops, ifs and switches - the jump code started at position
   0 prints exactly that trace, consumes exactly those oracle values and arrives at its end. *)
Theorem C03_sw_program_simulates :
  forall fuel body o tr o', swf_fn body = true -> srun fuel None body o = Some (tr, o') ->
  forall r, exists r', sstar (sprogram body) (0, o, r) tr (ssize body, o', r').
Proof. exact sw_program_simulates. Qed.
Print Assumptions C03_sw_program_simulates.

(* ... and so does the body when it is entered at one of its labels *)
Theorem C03_sw_function_simulates :
  forall fuel m body o tr o', swf_fn body = true -> srun fuel m body o = Some (tr, o') ->
  exists q, sentry m body 0 = Some q /\ forall r, exists r', sstar (sprogram body) (q, o, r) tr (ssize body, o', r').
Proof. exact sw_function_simulates. Qed.
Print Assumptions C03_sw_function_simulates.

(* The jump machine is deterministic, so that run is THE run: every execution of the emitted code
   that comes to a halt has printed the trace of the structured semantics, has consumed the same
   oracle values, and stands at the end of the code. *)
Theorem C03_sw_program_run_unique :
  forall fuel body o tr o', swf_fn body = true -> srun fuel None body o = Some (tr, o') ->
  forall r t2 st2, sstar (sprogram body) (0, o, r) t2 st2 -> sstep (sprogram body) st2 = None ->
  t2 = tr /\ fst (fst st2) = ssize body /\ snd (fst st2) = o'.
Proof. exact sw_program_run_unique. Qed.
Print Assumptions C03_sw_program_run_unique.

(* The executable machine run that tools/tie_sw.py compares with the compiled program is a run of the machine. *)
Theorem C03_sw_smrun_sound :
  forall P fuel st tr st', smrun fuel P st = Some (tr, st') -> sstar P st tr st' /\ fst (fst st') = length P.
Proof. exact smrun_sound. Qed.
Print Assumptions C03_sw_smrun_sound.

(* In the structured semantics no break and no continue ever leaves a loop, and no break leaves a
   switch (6.8.6.2, 6.8.6.3), whether the statement was entered at its beginning or at a label. *)
Theorem C03_sw_loop_binds_break_continue :
  forall fuel m s o tr o' out,
  (exists init k inc body, s = SFor init k inc body) \/ (exists body k, s = SDo body k) ->
  sexec fuel m s o = Some (tr, o', out) -> out <> RBreak /\ out <> RCont.
Proof. exact sw_loop_binds_break_continue. Qed.
Print Assumptions C03_sw_loop_binds_break_continue.

Theorem C03_sw_switch_binds_break :
  forall fuel m k body o tr o' out, sexec fuel m (SSwitch k body) o = Some (tr, o', out) -> out <> RBreak.
Proof. exact sw_switch_binds_break. Qed.
Print Assumptions C03_sw_switch_binds_break.

(* The constraints are needed and chibicc does not enforce them: with two equal case constants, two
   defaults, or two definitions of a label name, the emitted code takes the LAST one where program
   order (and the structured semantics) meets the first.  chibicc compiles all three programs
   without a diagnostic (C11 5.1.1.3 requires one); replayed on the real compiler, see DELIVERY_sw.md. *)
Theorem C03_sw_duplicates_refuted :
  (swf_fn sdup_case = false /\ srun 20 None sdup_case [1] = Some ([1; 2], []) /\ fmap_trace (smrun 50 (sprogram sdup_case) (0, [1], 0)) = Some [1; 3]) /\
  (swf_fn sdup_default = false /\ srun 20 None sdup_default [7] = Some ([1; 2], []) /\ fmap_trace (smrun 50 (sprogram sdup_default) (0, [7], 0)) = Some [1; 3]) /\
  (swf_fn sdup_label = false /\ srun 20 None sdup_label [] = Some ([2], []) /\ fmap_trace (smrun 50 (sprogram sdup_label) (0, [], 0)) = Some [3]).
Proof. exact sw_duplicates_refuted. Qed.
Print Assumptions C03_sw_duplicates_refuted.

(* parse.c and codegen.c as they do it: stmt() keeps brk_label / cont_label / current_switch in
   globals that it saves, replaces and restores around switch and loops, names every label with a
   number from new_unique_name() (gen_stmt: count()), collects the cases of the current switch and
   the labels of the function in lists, resolves gotos at the end; gen_stmt prints labelled code.
   All labels defined in the code of a function are pairwise distinct ... *)
Theorem C03_sw_parse_labels_unique :
  forall body ctr c code, pfunction body ctr c = Some code -> NoDup (pdefs code).
Proof. exact sw_parse_labels_unique. Qed.
Print Assumptions C03_sw_parse_labels_unique.

(* ... and once the assembler has replaced every label by the position of its definition the
   result is exactly the position-level code sprogram of the theorems above: break binds to the
   innermost loop or switch, continue to the innermost loop (through any switches), case / default
   to the innermost switch (through any blocks, ifs and loops), goto to the label of that name - for
   every function body that parse.c accepts, any nesting, any starting values of the counters. *)
Theorem C03_sw_parse_gen_is_sprogram :
  forall body ctr c code, pfunction body ctr c = Some code -> passemble code = sprogram body.
Proof. exact sw_parse_gen_is_sprogram. Qed.
Print Assumptions C03_sw_parse_gen_is_sprogram.

(* Composition: the assembled code of parse.c + gen_stmt runs as the structured semantics says. *)
Theorem C03_sw_parsed_program_simulates :
  forall body ctr c code fuel o tr o',
  pfunction body ctr c = Some code -> swf_fn body = true -> srun fuel None body o = Some (tr, o') ->
  forall r, exists r', sstar (passemble code) (0, o, r) tr (length (passemble code), o', r').
Proof. exact sw_parsed_program_simulates. Qed.
Print Assumptions C03_sw_parsed_program_simulates.

(* parse.c accepts a function body exactly when every break stands in a loop or switch body, every
   continue in a loop body, every case / default in a switch body, and every goto (also through a
   table) names a label of the function: 6.8.6.3p1, 6.8.6.2p1, 6.8.4.2, 6.8.6.1p1. *)
Theorem C03_sw_parse_accepts_iff :
  forall body ctr c, (exists code, pfunction body ctr c = Some code) <-> svalid_fn body = true.
Proof. exact sw_parse_accepts_iff. Qed.
Print Assumptions C03_sw_parse_accepts_iff.

(* break / continue / case / default with nothing to bind to are rejected ("stray ..."), a continue
   inside a switch that is in no loop included *)
Theorem C03_sw_parse_rejects_stray :
  pfunction SBreak 0 0 = None /\ pfunction SContinue 0 0 = None /\ pfunction (SCase 1 SSkip) 0 0 = None /\ pfunction (SDefault SSkip) 0 0 = None /\
  pfunction (SSwitch 1 SContinue) 0 0 = None /\ pfunction (SFor [] None [] (SCase 1 SBreak)) 0 0 = None.
Proof. exact sw_parse_rejects_stray. Qed.
Print Assumptions C03_sw_parse_rejects_stray.

(* The structured (seek) semantics is not an invention of this development: it agrees with the
   usual continuation semantics of languages with goto (CompCert Clight style, Spec/SwCont.v:
   small steps over statement + continuation, goto / switch replace the continuation by that of the
   labelled statement).  For every statement, mode, oracle and continuation k: what sexec computes is
   a run of the continuation machine from the statement (resp. from the labelled statement that
   sfind finds, and there is none exactly when sexec reports RSeek) to the state that expresses the
   outcome relative to k. *)
Theorem C03_sw_seek_agrees_with_continuations :
  forall fn f m s o tr o' out, sexec f m s o = Some (tr, o', out) -> forall k,
  match centry m s k with
  | None => out = RSeek /\ tr = [] /\ o' = o
  | Some (s1, k1) => exists st', cstar fn (s1, k1, o) tr st' /\ coutcome out k o' st'
  end.
Proof. exact sw_seek_agrees_with_continuations. Qed.
Print Assumptions C03_sw_seek_agrees_with_continuations.

(* whole function bodies: a complete run of srun is a complete run of the continuation machine, and
   the only one (the machine is a function) *)
Theorem C03_sw_program_agrees_with_continuations :
  forall fuel body o tr o', srun fuel None body o = Some (tr, o') -> cstar body (body, Kstop, o) tr (SSkip, Kstop, o').
Proof. exact sw_program_agrees_with_continuations. Qed.
Print Assumptions C03_sw_program_agrees_with_continuations.

Theorem C03_sw_continuation_run_unique :
  forall fuel body o tr o', srun fuel None body o = Some (tr, o') ->
  forall t2 o2, cstar body (body, Kstop, o) t2 (SSkip, Kstop, o2) -> t2 = tr /\ o2 = o'.
Proof. intros fuel body o tr o' H t2 o2. exact (cstar_final_unique (sw_program_agrees_with_continuations fuel body o tr o' H)). Qed.
Print Assumptions C03_sw_continuation_run_unique.

Theorem C03_sw_crun_sound :
  forall fn fuel st tr o', crun fuel fn st = Some (tr, o') -> cstar fn st tr (SSkip, Kstop, o').
Proof. exact crun_sound. Qed.
Print Assumptions C03_sw_crun_sound.

(* ... and conversely: every run of the continuation machine that brings the function body to its
   end is a run of the seek semantics.  The two semantics have exactly the same complete runs. *)
Theorem C03_sw_semantics_equivalent :
  forall body o tr o',
  (exists fuel, srun fuel None body o = Some (tr, o')) <-> cstar body (body, Kstop, o) tr (SSkip, Kstop, o').
Proof. intros body o tr o'. split; [intros [fuel H]; exact (sw_program_agrees_with_continuations fuel body o tr o' H)|apply sw_continuations_complete]. Qed.
Print Assumptions C03_sw_semantics_equivalent.

(* Hence the headline result can be read without the seek semantics at all.  Specification =
   Spec/SwCont.v (CompCert-Clight-style continuation semantics of blocks, if, for / while, do,
   break, continue, switch with case / default anywhere in its body, labels, goto, goto through a
   table).  For every function body satisfying the constraints of 6.8.1p3 / 6.8.4.2p3 and every
   oracle: if that semantics runs the body to its end with trace tr, then the jump code chibicc
   generates for it (labels as positions) runs from its first to behind its last instruction with
   exactly the trace tr and the same oracle values consumed. *)
Theorem C03_sw_code_simulates_continuation_semantics :
  forall body o tr o', swf_fn body = true -> cstar body (body, Kstop, o) tr (SSkip, Kstop, o') ->
  forall r, exists r', sstar (sprogram body) (0, o, r) tr (ssize body, o', r').
Proof. exact sw_code_simulates_continuation_semantics. Qed.
Print Assumptions C03_sw_code_simulates_continuation_semantics.

(* the same for the code produced the way parse.c and codegen.c produce it (state-passing parser,
   labelled code, assembler), together with uniqueness: every halting run of that code has the
   trace of the continuation semantics *)
Theorem C03_sw_parsed_code_simulates_continuation_semantics :
  forall body ctr c code o tr o',
  pfunction body ctr c = Some code -> swf_fn body = true -> cstar body (body, Kstop, o) tr (SSkip, Kstop, o') ->
  (forall r, exists r', sstar (passemble code) (0, o, r) tr (length (passemble code), o', r')) /\
  (forall r t2 st2, sstar (passemble code) (0, o, r) t2 st2 -> sstep (passemble code) st2 = None -> t2 = tr /\ snd (fst st2) = o').
Proof. exact sw_parsed_code_simulates_continuation_semantics. Qed.
Print Assumptions C03_sw_parsed_code_simulates_continuation_semantics.

(* Duff's device:  switch (V(1)) { case 0: do { M(2); case 3: M(3); case 2: M(4); case 1: M(5); } while (E(6)); }
   entered at case 2, one more round, then out *)
Definition sduff : sstmt :=
  SSwitch 1 (SCase 0 (SDo (SSeq (SMark 2) (SSeq (SCase 3 (SMark 3)) (SSeq (SCase 2 (SMark 4)) (SCase 1 (SMark 5))))) 6)).
Example C03_sw_duff_nonvacuous :
  swf_fn sduff = true /\ srun 30 None sduff [2; 1; 0] = Some ([1; 4; 5; 6; 2; 3; 4; 5; 6], []) /\
  sprogram sduff = [JSel 1; JCase 0 6; JCase 1 9; JCase 2 8; JCase 3 7; JJmp 11; JMark 2; JMark 3; JMark 4; JMark 5; JCondJt 6 6] /\
  fmap_trace (smrun 100 (sprogram sduff) (0, [2; 1; 0], 0)) = Some [1; 4; 5; 6; 2; 3; 4; 5; 6].
Proof. vm_compute. repeat split. Qed.

(* for (M(1); E(2); M(3)) switch (V(4)) { case 1: M(5); continue; case 2: M(6); break; default: M(7); l1: M(8); }
   if (E(9)) goto l1;
   continue through the switch, break out of the switch only, default with fall-through into a named
   label, and a goto from behind the loop back into the switch inside the loop body *)
Definition smix : sstmt :=
  SSeq (SFor [1] (Some 2) [3] (SSwitch 4 (SSeq (SCase 1 (SSeq (SMark 5) SContinue)) (SSeq (SCase 2 (SSeq (SMark 6) SBreak)) (SDefault (SSeq (SMark 7) (SLabel 1 (SMark 8))))))))
       (SIf 9 (SGoto 1) SSkip).
Example C03_sw_mix_nonvacuous :
  swf_fn smix = true /\
  srun 30 None smix [1; 1; 1; 2; 1; 7; 0; 1; 1; 2; 0; 0] = Some ([1; 2; 4; 5; 3; 2; 4; 6; 3; 2; 4; 7; 8; 3; 2; 9; 8; 3; 2; 4; 6; 3; 2; 9], []) /\
  fmap_trace (smrun 200 (sprogram smix) (0, [1; 1; 1; 2; 1; 7; 0; 1; 1; 2; 0; 0], 0)) = Some [1; 2; 4; 5; 3; 2; 4; 6; 3; 2; 4; 7; 8; 3; 2; 9; 8; 3; 2; 4; 6; 3; 2; 9].
Proof. vm_compute. repeat split. Qed.

(* seek mode itself: the body of sduff entered at case 1 runs M(5) and the loop condition only *)
Example C03_sw_seek_nonvacuous :
  sexec 30 (Some (TCase 1)) (SDo (SSeq (SMark 2) (SSeq (SCase 3 (SMark 3)) (SSeq (SCase 2 (SMark 4)) (SCase 1 (SMark 5))))) 6) [0] = Some ([5; 6], [], RNormal) /\
  sexec 30 (Some (TCase 4)) (SDo (SSeq (SMark 2) (SSeq (SCase 3 (SMark 3)) (SSeq (SCase 2 (SMark 4)) (SCase 1 (SMark 5))))) 6) [0] = Some ([], [0], RSeek).
Proof. vm_compute. repeat split. Qed.

(* the labelled code of smix with the counters at 13 and 4 (as in a file where f comes fifth):
   .L..13/.L..14 brk/cont of the for, .L..15 brk of the switch, .L..16-18 the case labels in the
   order they are met, .L..19 the named label; .L.begin.4, .L.else.5/.L.end.5 *)
Example C03_sw_parse_nonvacuous :
  pfunction smix 13 4 = Some
    [PI (QMark 1); PDef (LBegin 4); PI (QCondJf 2 (LU 13)); PI (QSel 4); PI (QCase 2 (LU 17)); PI (QCase 1 (LU 16));
     PI (QJmp (LU 18)); PI (QJmp (LU 15)); PDef (LU 16); PI (QMark 5); PI (QJmp (LU 14)); PDef (LU 17);
     PI (QMark 6); PI (QJmp (LU 15)); PDef (LU 18); PI (QMark 7); PDef (LU 19); PI (QMark 8);
     PDef (LU 15); PDef (LU 14); PI (QMark 3); PI (QJmp (LBegin 4)); PDef (LU 13); PI (QCondJf 9 (LElse 5));
     PI (QJmp (LU 19)); PI (QJmp (LEnd 5)); PDef (LElse 5); PDef (LEnd 5)].
Proof. vm_compute. reflexivity. Qed.

(* the continuation machine on the same two programs *)
Example C03_sw_cont_nonvacuous :
  crun 100 sduff (sduff, Kstop, [2; 1; 0]) = Some ([1; 4; 5; 6; 2; 3; 4; 5; 6], []) /\
  crun 300 smix (smix, Kstop, [1; 1; 1; 2; 1; 7; 0; 1; 1; 2; 0; 0]) = Some ([1; 2; 4; 5; 3; 2; 4; 6; 3; 2; 4; 7; 8; 3; 2; 9; 8; 3; 2; 4; 6; 3; 2; 9], []).
Proof. vm_compute. repeat split. Qed.
