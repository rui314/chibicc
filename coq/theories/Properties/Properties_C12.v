(* C12 - self-hosting fixpoint.  What proof contributes here is (1) that the only numbering state the
   compiler carries from one construct to the next gives labels that are a function of the tree
   shape and the counter's start, and (2) TRANSFER: every
   theorem of the other properties is about a model that the check ties, by correspondence, to the
   chibicc binary it is given; tools/check_c12.py gives them the self-compiled binary. *)
From Chibicc Require Import Base.Mach Model.Labels Proofs.LabelsProofs.

(* the labels handed out while traversing a program are exactly the consecutive numbers after the
   counter's start: they depend on the tree shape and nothing else, and never collide *)
Theorem C12_labels_consecutive : forall fuel t next ls n', number fuel t next = (ls, n') ->
  (next <= n')%nat /\ ls = seq (S next) (n' - next).
Proof.
  intros fuel t next ls n' H. destruct (number_seq fuel t next) as [k E]. rewrite E in H. injection H as <- <-.
  rewrite Nat.add_comm, Nat.add_sub. split; [apply Nat.le_add_l|reflexivity].
Qed.
Print Assumptions C12_labels_consecutive.

Theorem C12_labels_unique : forall fuel t next ls n', number fuel t next = (ls, n') -> NoDup ls.
Proof. intros fuel t next ls n' H. destruct (C12_labels_consecutive _ _ _ _ _ H) as [_ ->]. apply seq_NoDup. Qed.
Print Assumptions C12_labels_unique.

Example C12_nonvacuous : number 5 (Node [Node []; Node [Node []; Node []]; Node []]) 7 = ([8; 9; 10; 11; 12; 13], 13).
Proof. reflexivity. Qed.
Print Assumptions C12_nonvacuous.
