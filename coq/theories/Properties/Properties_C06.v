(* C06 - calls obey the System V x86-64 calling convention (the decisions that are logic). *)
From Coq Require Import List ZArith Bool Arith.
From Chibicc Require Import Model.Abi Spec.AbiSpec Gen.AbiConsts Proofs.AbiProofs.
Import ListNotations.
Local Open Scope Z_scope.

(* has_flonum over a type of any nesting (structs, unions, arrays) answers "no INTEGER-class
   field in this eightbyte", i.e. the psABI merge of the field classes is not INTEGER *)
Theorem C06_classifier : forall ty k,
  has_flonum ty (8 * k) (8 * k + 8) 0 = match eightbyte_class ty k with Integer => false | _ => true end.
Proof. exact has_flonum_is_class. Qed.
Print Assumptions C06_classifier.

(* count_struct_regs hands out one register per existing eightbyte, an SSE one exactly when
   the psABI class of that eightbyte is not INTEGER *)
Theorem C06_struct_registers : forall ty size, 0 < size <= 16 ->
  count_struct_regs ty size =
  let sse k := match eightbyte_class ty k with Integer => false | _ => true end in
  let fp := (b2n (sse 0%Z) + b2n ((8 <? size)%Z && sse 1%Z))%nat in
  (((if (8 <? size)%Z then 2 else 1) - fp)%nat, fp).
Proof.
  intros ty size _. unfold count_struct_regs, has_flonum1, has_flonum2. cbv zeta.
  rewrite <- !has_flonum_is_class. reflexivity.
Qed.
Print Assumptions C06_struct_registers.

(* for every argument list - any number and order of INTEGER, SSE, X87 (long double), small
   aggregate with any register needs and MEMORY arguments - the three places that decide where
   an argument lives (push_args' pass_by_stack marking, the pop loop of the call, the callee's
   parameter offsets and prologue) agree with each other and with the psABI algorithm
   (all-or-nothing roll-back included), with the register limits regenerated from codegen.c.  In Model/Abi.v the
   callee's side and the pop loop are the same function (AbiProofs.callee_is_caller holds by reflexivity), so the
   first two equations are one statement about the model *)
Theorem C06_three_sites_agree : forall args,
  callee_place GP_MAX FP_MAX 0 0 0 args = psabi_place 0 0 0 args /\
  caller_place GP_MAX FP_MAX 0 0 0 args = psabi_place 0 0 0 args /\
  caller_flags GP_MAX FP_MAX 0 0 args = map is_stack (psabi_place 0 0 0 args).
Proof.
  intros args. rewrite callee_is_caller, (flags_match_pops args 0 0 0).
  rewrite (caller_is_psabi args 0 0 0 (Nat.le_0_l 6) (Nat.le_0_l 8)). auto.
Qed.
Print Assumptions C06_three_sites_agree.

Example C06_nonvacuous :
  (* f(long x4, struct { long; double; }) : the struct still fits (1 GP + 1 SSE) *)
  psabi_place 0 0 0 [AInt; AInt; AInt; AInt; ASmall 1 1 2] =
    [InRegs 0 0; InRegs 1 0; InRegs 2 0; InRegs 3 0; InRegs 4 0] /\
  (* nine doubles then struct { long; }: the ninth double goes to the stack, the struct to %rdi *)
  psabi_place 0 0 0 [AFlt; AFlt; AFlt; AFlt; AFlt; AFlt; AFlt; AFlt; AFlt; ASmall 1 0 1] =
    [InRegs 0 0; InRegs 0 1; InRegs 0 2; InRegs 0 3; InRegs 0 4; InRegs 0 5; InRegs 0 6; InRegs 0 7; OnStack 0; InRegs 0 8] /\
  (* five longs then struct { long; long; }: no room for both eightbytes, whole struct on the stack, next long in %r9 *)
  psabi_place 0 0 0 [AInt; AInt; AInt; AInt; AInt; ASmall 2 0 2; AInt] =
    [InRegs 0 0; InRegs 1 0; InRegs 2 0; InRegs 3 0; InRegs 4 0; OnStack 0; InRegs 5 0] /\
  count_struct_regs (AAgg [(0, ASc false); (8, ASc true)]) 16 = (1%nat, 1%nat) /\
  count_struct_regs (AAgg [(0, ASc true); (4, ASc true)]) 8 = (0%nat, 1%nat).
Proof. vm_compute. repeat split; reflexivity. Qed.
Print Assumptions C06_nonvacuous.
