(* C15 - linkage, storage duration and symbol emission: the two list algorithms of Model/Linkage.v.  Proofs in
   Proofs/LinkageProofs.v and Proofs/LinkageComplete.v. *)
From Chibicc Require Import Base.Mach Model.Linkage Proofs.LinkageProofs Proofs.LinkageComplete.

(* tentative definitions (C11 6.9.2): for EVERY sequence of file-scope declarations of a unit and
   every identifier n: if the unit has a real definition of n, no tentative definition of n is
   emitted; otherwise exactly one is, however many there were (none if there were none) *)
Theorem C15_tentative_merged : forall gs n,
  cnt n (scan_globals gs) = if real gs n then 0%nat else if Nat.eqb (cnt n gs) 0 then 0%nat else 1%nat.
Proof. exact (gscan_merged g_name g_tent g_def Nat.eqb Nat.eqb_spec). Qed.
Print Assumptions C15_tentative_merged.

(* everything that is not a tentative definition (real definitions, extern declarations) passes
   through unchanged and in order *)
Theorem C15_real_definitions_kept : forall gs,
  filter (fun g => negb (g_tent g)) (scan_globals gs) = filter (fun g => negb (g_tent g)) gs.
Proof. intros gs. exact (gscan_nontent g_name g_tent g_def Nat.eqb gs gs []). Qed.
Print Assumptions C15_real_definitions_kept.

(* static inline functions: only functions reachable from an always-emitted function through
   recorded references are marked live, for any call graph (cycles included) *)
Theorem C15_live_only_if_reachable : forall fs m, In m (live_set fs) -> reach fs [] m.
Proof. exact live_set_sound. Qed.
Print Assumptions C15_live_only_if_reachable.

(* and conversely every function reachable from an always-emitted one IS marked (LinkageComplete.live_set_reach shows
   it without the two side hypotheses): together, the set of emitted static inline functions is exactly the reachable set *)
Theorem C15_live_if_reachable : forall fs, NoDup (map f_name fs) -> forall m, reach fs [] m -> defined fs m -> In m (live_set fs).
Proof. exact live_set_complete. Qed.
Print Assumptions C15_live_if_reachable.

Theorem C15_marking_monotone : forall fs fuel live n x, In x live -> In x (mark_live fuel fs live n).
Proof. exact mark_live_mono. Qed.
Print Assumptions C15_marking_monotone.

(* non-vacuity: int x; int x; int y; int y = 3; extern int z; int z;   and a cyclic call graph *)
Definition demo_gs := [ {| g_name := 1; g_def := true; g_tent := true |}; {| g_name := 1; g_def := true; g_tent := true |};
                        {| g_name := 2; g_def := true; g_tent := true |}; {| g_name := 2; g_def := true; g_tent := false |};
                        {| g_name := 3; g_def := false; g_tent := false |}; {| g_name := 3; g_def := true; g_tent := true |} ].
Definition demo_fs := [ {| f_name := 1; f_root := true; f_refs := [2] |}; {| f_name := 2; f_root := false; f_refs := [3; 9] |};
                        {| f_name := 3; f_root := false; f_refs := [2] |}; {| f_name := 4; f_root := false; f_refs := [5] |}; {| f_name := 5; f_root := false; f_refs := [4] |} ].
Example C15_nonvacuous : defined_names demo_gs = [1; 2; 3]%nat /\ live_set demo_fs = [3; 2; 1]%nat.
Proof. vm_compute. split; reflexivity. Qed.
Print Assumptions C15_nonvacuous.
