(* C01 - integer expressions have the C11 value and the C11 type. *)
From Coq Require Import ZArith Bool List.
From Chibicc Require Import Spec.C11Int Model.ConstFold Proofs.ConstFoldProofs
     Model.X86Int Model.CodegenInt Gen.CastTable Proofs.CastTableProofs Proofs.CodegenIntProofs
     Model.ExprGen Proofs.ExprGenProofs Model.ExprFlat Proofs.ExprFlatProofs.
Import ListNotations.
Local Open Scope Z_scope.

(* the size-based common type of type.c is the rank-based usual arithmetic conversion, and the
   type given to every expression tree is the C11 type (promotions of the operands of unary
   + - ~ and of shifts included) *)
Theorem C01_common_type : forall a b, m_common a b = uac a b.
Proof. exact m_common_is_uac. Qed.
Print Assumptions C01_common_type.
Theorem C01_typing : forall e, m_type e = type_of e.
Proof. exact m_type_is_c11. Qed.
Print Assumptions C01_typing.

(* every integer entry of the cast table regenerated from codegen.c (and the _Bool path),
   executed on a register holding any value of the source type, leaves the register
   representation of the C11-converted value: all 81 (from, to) pairs, all values *)
Theorem C01_cast_table : forall from to v s,
  in_range from v = true -> R from v (rax s) ->
  exists p s', gen_cast cast_table from to = Some p /\ exec p s = Some s' /\ R to (conv to v) (rax s').
Proof. exact cast_table_correct. Qed.
Print Assumptions C01_cast_table.

(* the instructions selected for + - * / % & | ^ compute the C11 result of the operands
   converted to the common type, for every operand value for which C11 defines it
   (no #DE, result in the representation of the result type) *)
Theorem C01_arith : forall o t a b s v,
  big t -> is_arith o = true -> in_range t a = true -> in_range t b = true ->
  R t a (rax s) -> R t b (rdi s) ->
  eval_bin_arith o t a b = Some v -> done s (gen_binop o t) t v.
Proof. exact arith_codegen_ok. Qed.
Print Assumptions C01_arith.

(* == != < <= (and > >= through the operand swap of the parser): signed/unsigned condition selection *)
Theorem C01_compare : forall t, big t -> forall a b s,
  in_range t a = true -> in_range t b = true -> R t a (rax s) -> R t b (rdi s) ->
  forall o, is_cmp o = true -> o <> OGt -> o <> OGe ->
  done s (gen_binop o t) I32 (eval_cmp o a b).
Proof. intros t _. exact (cmp_ok t). Qed.
Print Assumptions C01_compare.

(* << >>: promoted left operand, count of any integer type, shl / shr / sar selection *)
Theorem C01_shift : forall o t a tn nv s v,
  big t -> is_shift o = true -> in_range t a = true -> in_range tn nv = true ->
  R t a (rax s) -> R tn nv (rdi s) ->
  eval_shift o t a nv = Some v -> done s (gen_binop o t) t v.
Proof. intros o t a tn nv s v Hb _ Ra _. exact (shift_codegen_ok o t a tn nv s v Hb Ra). Qed.
Print Assumptions C01_shift.

Theorem C01_neg : forall t a s v, big t -> R t a (rax s) -> arith_result t (- a) = Some v -> done s (gen_unop Neg t) t v.
Proof. exact neg_codegen_ok. Qed.
Print Assumptions C01_neg.
Theorem C01_bitnot : forall t a s, big t -> R t a (rax s) -> done s (gen_unop BitNot t) t (conv t (Z.lnot a)).
Proof. exact not_codegen_ok. Qed.
Print Assumptions C01_bitnot.
Theorem C01_lognot : forall t a s, in_range t a = true -> R t a (rax s) -> done s (gen_unop LogNot t) I32 (b2z (a =? 0)).
Proof. exact lognot_codegen_ok. Qed.
Print Assumptions C01_lognot.

Example C01_nonvacuous :
  R U32 4294967295 4294967295 /\ in_range U32 4294967295 = true /\
  gen_cast cast_table U32 I64 = Some [IMovEaxEax] /\
  eval_bin_arith Div I32 (-7) 2 = Some (-3) /\ big I32 /\
  uac I8 U32 = U32 /\ uac I64 U32 = I64 /\ uac U64 I64 = U64.
Proof. unfold R, big. vm_compute. repeat split; auto; discriminate. Qed.
Print Assumptions C01_nonvacuous.

(* the whole tree: for EVERY integer expression - any nesting depth of unary + - ~ !, the ten
   arithmetic / bitwise / shift operators, the six comparisons, && || ?: , casts and commas over
   operands of the nine integer types - whose C11 value is defined, the code gen_expr composes
   (right operand first and pushed, left operand, pop into %rdi, the operator's instructions, the
   conversions add_type inserts, tests of %rax for && || ?:) started in ANY register state with ANY
   stack leaves the representation of exactly that C11 value (of the C11 type) in %rax and the
   stack as it found it *)
Theorem C01_expr_correct : forall e v, eval e = Some v ->
  forall s k, exists s', grun (compile e) (s, k) = Some (s', k) /\ R (type_of e) v (rax s').
Proof. exact compile_correct. Qed.
Print Assumptions C01_expr_correct.

(* non-vacuity: (1 + (-2L)) && (3u ? (signed char)300 : 18446744073709551615ul > 4) has the value 1, and its code runs *)
Definition demo_tree := Bin LAnd (Bin Add (Lit I32 1) (Un Neg (Lit I64 2)))
                                 (Cond (Lit U32 3) (Cast I8 (Lit I32 300)) (Bin OGt (Lit U64 18446744073709551615) (Lit I32 4))).
Example C01_expr_nonvacuous : eval demo_tree = Some 1 /\
  option_map (fun st => (rax (fst st), snd st)) (grun (compile demo_tree) ({| rax := 77; rdi := 78; rdx := 79; rcx := 80; f_zf := false; f_cf := true; f_lt := false |}, [5; 6])) = Some (1, [5; 6]).
Proof. split; vm_compute; reflexivity. Qed.
Print Assumptions C01_expr_nonvacuous.

(* the same of the jump-level code gen_expr actually prints (labels of && || ?: as positions), placed anywhere in a
   larger program: run from its first position it reaches its end with that value in %rax and the stack as it was *)
Theorem C01_expr_code_correct : forall e v, eval e = Some v ->
  forall P p, fembedded P p (gflatten (compile e) p) ->
  forall s k, exists s', fstar P (p, (s, k)) ((p + fsize (compile e))%nat, (s', k)) /\ R (type_of e) v (rax s').
Proof. exact expr_code_correct. Qed.
Print Assumptions C01_expr_code_correct.
