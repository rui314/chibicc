(* C04 - every lvalue designates exactly its object's bytes and bits. *)
From Chibicc Require Import Base.Mach Model.Bitfield Proofs.BitfieldProofs.
Local Open Scope Z_scope.

(* bit-fields of any width and position inside a storage unit of up to 64 bits: the instruction
   sequences of codegen.c, for ALL previous unit contents u and ALL stored values v *)
Theorem C04_bitfield_read_back_unsigned : forall u v off w, 0 <= off -> 0 < w -> off + w <= 64 ->
  bf_load_u (bf_store u v off w) off w = Z.land v (Z.ones w).
Proof. exact store_then_load_u. Qed.
Print Assumptions C04_bitfield_read_back_unsigned.

(* signed: bit i of the value read back is bit i of v below the width and the field's sign bit above *)
Theorem C04_bitfield_read_back_signed : forall u v off w i, 0 <= off -> 0 < w -> off + w <= 64 -> 0 <= i ->
  Z.testbit (bf_load_s (bf_store u v off w) off w) i = Z.testbit v (if i <? w then i else w - 1).
Proof.
  intros u v off w i Ho Hw Hs Hi. rewrite load_s_bits, store_field_bits by lia. f_equal. destruct (Z.ltb_spec i w); lia.
Qed.
Print Assumptions C04_bitfield_read_back_signed.

(* no other bit of the unit changes, so no neighbouring bit-field (signed or unsigned) is disturbed *)
Theorem C04_bitfield_other_bits_kept : forall u v off w i, 0 <= off -> 0 < w -> off + w <= 64 -> 0 <= i < 64 -> i < off \/ off + w <= i ->
  Z.testbit (bf_store u v off w) i = Z.testbit u i.
Proof. exact store_keeps_other_bits. Qed.
Print Assumptions C04_bitfield_other_bits_kept.

Theorem C04_bitfield_neighbours : forall u v off w off2 w2, 0 <= off -> 0 < w -> off + w <= 64 -> 0 <= off2 -> 0 < w2 -> off2 + w2 <= 64 ->
  off2 + w2 <= off \/ off + w <= off2 ->
  bf_load_u (bf_store u v off w) off2 w2 = bf_load_u u off2 w2 /\ bf_load_s (bf_store u v off w) off2 w2 = bf_load_s u off2 w2.
Proof. intros. apply load_depends_on_field; try assumption. intros i Hi. apply store_keeps_other_bits; lia. Qed.
Print Assumptions C04_bitfield_neighbours.

(* the store writes only the bytes of the unit *)
Theorem C04_unit_write : forall size reg i, 0 <= size -> 0 <= i -> Z.testbit (unit_write size reg) i = Z.testbit reg i && (i <? 8 * size).
Proof. intros. unfold unit_write. rewrite Z.land_spec, Z.testbit_ones_nonneg by lia. reflexivity. Qed.
Print Assumptions C04_unit_write.

(* element addresses are exact for every index inside an object (no 32-bit intermediate) *)
Theorem C04_element_address : forall base idx size, 0 <= base -> 0 <= idx -> 0 <= size -> base + idx * size < 2 ^ 63 ->
  elem_addr base idx size = base + idx * size.
Proof. exact elem_addr_exact. Qed.
Print Assumptions C04_element_address.

(* non-vacuity: a signed 5-bit field at bit 3 of a unit holding 0xFFFF *)
Example C04_nonvacuous : bf_store 65535 (-3) 3 5 = 65519 + 0 /\ bf_load_s (bf_store 65535 (-3) 3 5) 3 5 = -3 /\ bf_load_u (bf_store 65535 (-3) 3 5) 0 3 = 7.
Proof. vm_compute. repeat split. Qed.
Print Assumptions C04_nonvacuous.
