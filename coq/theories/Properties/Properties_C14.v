(* C14 - driver process discipline under failure and concurrency. *)
From Coq Require Import List Bool Arith.
From Chibicc Require Import Model.Driver Proofs.DriverProofs.
Import ListNotations.

(* For every mode (-E, -S, -c, link), with or without -o, every list of inputs of every kind and
   EVERY pattern of subprocess outcomes (any cc1 / as / ld failing, by exit status or signal):
   the driver terminates with status 0 or 1; every temporary it created is unlinked; status 0
   means every subprocess succeeded and exactly the requested outputs were written; status 1
   means either the -o/multiple-files usage error (nothing run) or exactly one subprocess
   failed, it was the last one started, and the outputs written are exactly those of the inputs
   handled before it - the failing translation unit's own output is untouched. *)
Theorem C14_driver_discipline : forall orc md has_o ks,
  exists c tr, driver orc md has_o ks = Exited c tr /\
    tmp_unlinked tr = tmp_created tr /\
    (c = 0 \/ c = 1) /\
    (c = 0 -> all_true (outcomes tr) /\
              vis tr = reqs md has_o 0 ks ++ (if (0 <? lds md ks) && links md then link_out has_o else [])) /\
    (c = 1 -> (usage_error md has_o ks = true /\ outcomes tr = [] /\ vis tr = []) \/
              ((exists pre, outcomes tr = pre ++ [false] /\ all_true pre) /\
               exists j, j <= length ks /\ vis tr = reqs md has_o 0 (firstn j ks) /\
                         (j < length ks \/ ((0 <? lds md ks) && links md) = true))).
Proof. exact driver_ok. Qed.
Print Assumptions C14_driver_discipline.

(* the outputs requested for the inputs from i on are stdout, the -o file, or derived from one of those inputs: hence the
   outputs of the inputs before j, [reqs md has_o 0 (firstn j ks)] above, never include the output [POut j] of input j or later *)
Theorem C14_failed_unit_output_untouched : forall md has_o ks i p, In p (reqs md has_o i ks) ->
  p = PStdout \/ (has_o = true /\ p = POpt) \/ (exists j, i <= j < i + length ks /\ p = POut j).
Proof. exact reqs_bound. Qed.
Print Assumptions C14_failed_unit_output_untouched.

(* concurrent invocations whose outputs and (fresh, mkstemp) temporaries are disjoint see, in
   ANY interleaving of their file-system events, exactly what they see when run alone *)
Theorem C14_noninterference : forall (P : Type) (eqb : P -> P -> bool),
  (forall a b, eqb a b = true <-> a = b) ->
  forall la lb l (inA : P -> Prop),
  interleaving P la lb l ->
  Forall (fun e => inA (touches P e)) la -> Forall (fun e => ~ inA (touches P e)) lb ->
  forall f q, inA q -> fold_left (apply P eqb) l f q = fold_left (apply P eqb) la f q.
Proof. exact (fun P eqb Heq la lb l inA H _ => untouched_paths_unaffected P eqb Heq la lb l inA H). Qed.
Print Assumptions C14_noninterference.

Example C14_nonvacuous :
  (* chibicc a.c b.c (link), the second cc1 fails: exit 1, four temporaries created and unlinked, nothing written *)
  final (driver (fun k => negb (Nat.eqb k 2)) MLink false [KC; KC]) =
    (1, [EMkTmp 0; EMkTmp 1; ESpawn (Cc1 0 (Some (PTmp 0))) true; ESpawn (As (inl (PTmp 0)) (PTmp 1)) true;
         EMkTmp 2; EMkTmp 3; ESpawn (Cc1 1 (Some (PTmp 2))) false; EUnlink 0; EUnlink 1; EUnlink 2; EUnlink 3]).
Proof. vm_compute. reflexivity. Qed.
Print Assumptions C14_nonvacuous.
