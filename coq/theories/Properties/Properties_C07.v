(* C07 - translation-time constant evaluation (integer expressions): the folder computes the C11 value, which by
   C01_expr_correct is also what the emitted code computes at run time. *)
From Coq Require Import ZArith Bool.
From Chibicc Require Import Spec.C11Int Model.ConstFold Proofs.ConstFoldProofs.
Local Open Scope Z_scope.

(* the type the compiler assigns (get_common_type by size, promotions inserted by add_type and
   unary()) is the C11 type (conversion rank, integer promotions, usual arithmetic conversions),
   for every expression: any operators, operand types, casts and depth *)
Theorem C07_type_is_c11 : forall e, m_type e = type_of e.
Proof. exact m_type_is_c11. Qed.
Print Assumptions C07_type_is_c11.

(* whenever C11 defines the value of an expression, the folder (int64_t arithmetic with the
   (uint64_t) paths, narrowing at every node, eval_div) yields exactly that value, as the
   int64_t bit pattern of it; operands not evaluated by C11 (the right one of && and ||, the branch of ?: not taken)
   are not folded *)
Theorem C07_fold_is_c11 : forall e v, eval e = Some v -> m_eval e = Val (wrap64 v).
Proof. exact fold_is_c11. Qed.
Print Assumptions C07_fold_is_c11.

(* hence a defined expression is never diagnosed as a division error and never reaches a
   host-undefined shift *)
Theorem C07_fold_never_host_undefined : forall e v, eval e = Some v ->
  m_eval e <> HostUB /\ m_eval e <> ErrDivZero /\ m_eval e <> ErrOverflow.
Proof. intros e v H. rewrite (fold_is_c11 e v H). repeat split; discriminate. Qed.
Print Assumptions C07_fold_never_host_undefined.

Example C07_nonvacuous :
  eval (Bin Add (Un Neg (Lit I32 1)) (Lit I32 0)) = Some (-1) /\
  eval (Bin Shr (Un BitNot (Lit U32 0)) (Lit I32 1)) = Some 2147483647 /\
  eval (Bin OLt (Un Neg (Lit I32 1)) (Lit U32 1)) = Some 0 /\
  eval (Bin Div (Lit I32 1) (Lit I32 0)) = None /\
  m_eval (Bin Div (Lit I32 1) (Lit I32 0)) = ErrDivZero /\
  m_eval (Bin Add (Lit U64 18446744073709551615) (Lit I8 (-1))) = Val (-2).
Proof. vm_compute. repeat split; reflexivity. Qed.
Print Assumptions C07_nonvacuous.
