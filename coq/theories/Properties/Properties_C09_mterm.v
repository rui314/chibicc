(* C09 - macro expansion terminates, for function-like macros too.  Model: Model/Macro.v (expand_macro / subst /
   read_macro_args / preprocess2 of preprocess.c with fuel).  [pp2] is the driver of a translation unit, [pp_args] the same loop as it is
   applied to a macro argument; the fuel only bounds the number of loop iterations of the model. *)
From Chibicc Require Import Base.Mach Model.Lexer Model.Macro Gen.PunctTable Spec.MacroTermSpec Proofs.MacroProofs Proofs.MacroTermProofs.

(* THE termination theorem.  Whatever macros are defined (object-like, function-like, variadic, with #, ##,
   __VA_OPT__, self-referential or mutually recursive in any shape) and whatever the text is (nested
   invocations, invocations inside arguments, invocations completed by the text that follows the
   replacement; the only condition: no token of the text begins a directive), preprocess2 comes to an end:
   with enough fuel the model returns the expanded token list or the error result (chibicc: error_tok and
   exit 1) - never Fuel, never Unsup - and every larger fuel gives the same result.
   Proved by well-founded induction (no numeric bound: the size of an expansion is not bounded by the sizes
   of the definitions in any simple way); the measure is described at [vec] in MacroTermProofs.v. *)
Theorem C09_mterm_expansion_terminates : forall e ts, Forall nodir ts ->
  exists f, ((exists out, pp2 punct_table f e ts = MOk out) \/ pp2 punct_table f e ts = MErr) /\
            forall f', (f <= f')%nat -> pp2 punct_table f' e ts = pp2 punct_table f e ts.
Proof. exact (macro_expansion_terminates punct_table). Qed.
Print Assumptions C09_mterm_expansion_terminates.

(* the complete driver of the model: the text may itself contain #define and #undef lines (so the macro
   set changes while the text is processed) - still, for EVERY initial macro set and EVERY token list
   there is a fuel with which preprocess2's model gives its final answer (token list, error, or Unsup =
   "a directive outside the model was met"), and more fuel does not change it.  No hypothesis at all. *)
Theorem C09_mterm_driver_terminates : forall e ts,
  exists f, pp2 punct_table f e ts <> MFuel /\ forall f', (f <= f')%nat -> pp2 punct_table f' e ts = pp2 punct_table f e ts.
Proof. exact (driver_terminates punct_table). Qed.
Print Assumptions C09_mterm_driver_terminates.

(* the same for the complete expansion of a macro argument (preprocess2 called from subst), for every
   token list whatsoever: it never needs unbounded fuel *)
Theorem C09_mterm_argument_expansion_terminates : forall e ts,
  exists f, pp_args punct_table f e ts <> MFuel /\ forall f', (f <= f')%nat -> pp_args punct_table f' e ts = pp_args punct_table f e ts.
Proof. exact (pp_args_terminates punct_table). Qed.
Print Assumptions C09_mterm_argument_expansion_terminates.

(* fuel monotonicity of the driver, for every text (directives included) and every environment: a result
   other than Fuel is final.  The correspondence check tools/tie_mterm.py, which runs the model with "enough"
   fuel, relies on this. *)
Theorem C09_mterm_fuel_monotone : forall f f' e ts, (f <= f')%nat -> pp2 punct_table f e ts <> MFuel ->
  pp2 punct_table f' e ts = pp2 punct_table f e ts.
Proof. exact (pp2_mono punct_table). Qed.
Print Assumptions C09_mterm_fuel_monotone.

Theorem C09_mterm_fuel_monotone_args : forall e f f' ts, (f <= f')%nat -> pp_args punct_table f e ts <> MFuel ->
  pp_args punct_table f' e ts = pp_args punct_table f e ts.
Proof. exact (pp_args_mono punct_table). Qed.
Print Assumptions C09_mterm_fuel_monotone_args.

(* the substitution loop: a Fuel (or Unsup) result of subst is the result of expanding one of the
   arguments OF THIS INVOCATION (sharper than C09_subst_own_fuel, which only says "of some token list") *)
Theorem C09_mterm_subst_fuel_from_argument : forall pp obj n body args acc r,
  subst punct_table pp obj n body args acc = r -> bad r -> (length body < n)%nat ->
  exists a, In a args /\ pp (a_toks a) = r.
Proof. exact (subst_stuck_arg punct_table). Qed.
Print Assumptions C09_mterm_subst_fuel_from_argument.

(* the step of the termination argument, in the terms of Prosser's algorithm.  The pending text is a stack
   of remainders of replacement lists; every token has a base (a subset of its hide set), bases shrink
   towards the bottom of the stack.  Replacing an invocation whose last token (the macro name for an
   object-like macro, the closing parenthesis for a function-like one) has base b yields tokens with base
   b + {name}, although the intersection rule may have removed other names of the macro token's hide set;
   the new stream is smaller in the lexicographic order on (tokens of level 0, of level 1, ...). *)
Theorem C09_mterm_rescan_decreases : forall U sfront x0 safter m body,
  valid (sfront ++ x0 :: safter) -> In m U -> hs_contains (snd x0) m = false ->
  Forall (fun tk => sub (snd x0 ++ [m]) (m_hs tk)) body ->
  valid (map (fun tk => (tk, snd x0 ++ [m])) body ++ safter) /\
  lexlt (vec U (map (fun tk => (tk, snd x0 ++ [m])) body ++ safter)) (vec U (sfront ++ x0 :: safter)).
Proof. intros U sfront x0 safter m body Hv. apply vec_rescan, (valid_app _ _ Hv). Qed.
Print Assumptions C09_mterm_rescan_decreases.

Theorem C09_mterm_order_wellfounded : well_founded lexlt.
Proof. exact lexlt_wf. Qed.
Print Assumptions C09_mterm_order_wellfounded.

(* it ends because nothing is left to replace (Spec/MacroTermSpec.v): in the result no name of an
   object-like macro is left except tokens that carry their own name in the hide set (6.10.3.4p2) *)
Theorem C09_mterm_result_settled : forall e ts, Forall nodir ts -> forall f out,
  pp2 punct_table f e ts = MOk out -> settled e out = true.
Proof.
  intros e ts Hts f out H. rewrite pp2_is_pp_args in H by (apply pp_args_no_unsup; exact Hts).
  exact (pp_args_settled _ _ _ _ _ H).
Qed.
Print Assumptions C09_mterm_result_settled.

(* non-vacuity.  Definitions:  #define f(a) a*g / #define g(a) f(a)  (6.10.3.4 EXAMPLE, completed by following text),
   #define H(x,...) x ## __VA_ARGS__ #x __VA_OPT__(H(x))  (self-reference, ##, #, __VA_OPT__),  #define O H(O,1) O.
   Text:  f(2)(9) H(O,O) O  *)
Definition mt_defs : list N := [35;100;101;102;105;110;101;32;102;40;97;41;32;97;42;103;10;35;100;101;102;105;110;101;32;103;40;97;41;32;102;40;97;41;10;35;100;101;102;105;110;101;32;72;40;120;44;46;46;46;41;32;120;32;35;35;32;95;95;86;65;95;65;82;71;83;95;95;32;35;120;32;95;95;86;65;95;79;80;84;95;95;40;72;40;120;41;41;10;35;100;101;102;105;110;101;32;79;32;72;40;79;44;49;41;32;79;10]%N.
Definition mt_text : list N := [102;40;50;41;40;57;41;32;72;40;79;44;79;41;32;79;10]%N.
Definition lexed (s : list N) : list mtok := match tokenize punct_table s with LexOk l => of_lex l | LexErr => [] end.
(* the environment as the driver builds it: read the four #define lines *)
Fixpoint env_of (n : nat) (e : env) (ts : list mtok) : env :=
  match n, ts with
  | S n', _h :: _d :: r => match read_definition e r with Some (e', rest) => env_of n' e' rest | None => e end
  | _, _ => e
  end.
Definition mt_env : env := Eval vm_compute in env_of 10 [] (lexed mt_defs).
Definition nodir_b (t : mtok) : bool := negb (m_bol t && is t HASH && from_source t).
Definition spell (r : mres (list mtok)) : option (list (list N)) := match r with MOk l => Some (map m_txt l) | _ => None end.

Example C09_mterm_nonvacuous :
  length mt_env = 4%nat /\ forallb nodir_b (lexed mt_text) = true /\
  pp2 punct_table 20 mt_env (lexed mt_text) = MFuel /\
  spell (pp2 punct_table 60 mt_env (lexed mt_text)) = Some [[50];[42];[57];[42];[103];[79;79];[34;79;34];[72];[40];[79;49];[34;79;34];[72];[40];[79];[41];[79];[41];[79;49];[34;79;34];[72];[40];[79];[41];[79]]%N /\
  pp2 punct_table 1000 mt_env (lexed mt_text) = pp2 punct_table 60 mt_env (lexed mt_text) /\
  terminated_at (fun f => pp2 punct_table f mt_env (lexed mt_text)) 60 = true /\
  match pp2 punct_table 60 mt_env (lexed mt_text) with MOk out => settled mt_env out | _ => false end = true.
Proof. vm_compute. repeat split. Qed.
Print Assumptions C09_mterm_nonvacuous.

(* an invocation that is an error also ends: unterminated argument list *)
Example C09_mterm_nonvacuous_err : pp2 punct_table 50 mt_env (lexed [102;40;49]%N) = MErr.     (* f(1 *)
Proof. vm_compute. reflexivity. Qed.
Print Assumptions C09_mterm_nonvacuous_err.

(* the driver reading the definitions itself gives the same token list *)
Example C09_mterm_nonvacuous_driver :
  spell (pp2 punct_table 70 [] (lexed (mt_defs ++ mt_text))) = spell (pp2 punct_table 60 mt_env (lexed mt_text)) /\
  decided (pp2 punct_table 70 [] (lexed (mt_defs ++ mt_text))) = true.
Proof. vm_compute. split; reflexivity. Qed.
Print Assumptions C09_mterm_nonvacuous_driver.
