(* C05, initializer lists - which initializer initializes which subobject (parse.c initializer2 & co. = C11 6.7.9).
   Statements; the closed examples are proved here, by evaluation. *)
From Coq Require Import List Arith Bool.
From Chibicc Require Import Spec.InitSyntax Spec.InitSpec Spec.InitValid Model.InitCursor Proofs.InitCursorProofs.
Import ListNotations.

(* For every object type built from scalars, arrays (known length anywhere, unknown length at the top), structs
   and unions, nested to any depth, and every initializer that obeys the constraints of 6.7.9 and does not trigger
   one of the two recorded deviations (`valid`): parse.c does not reject the input; the type it gives the variable
   is the C11 type (6.7.9p22: count_array_init_elements finds "largest index with an explicit initializer, plus
   one"); and the Initializer tree it builds (initializer2, designation, array_initializer1/2, struct_initializer1/2,
   union_initializer), read in the order create_lvar_init and write_gvar_data read it, gives every scalar of the
   object exactly the expression 6.7.9p17-p21 gives it and nothing (zero) to all others: full braces, brace elision
   at every depth, short lists, designators [i] and .m and paths of them, out of order, overriding, positional
   continuation after a designator path into the enclosing aggregates, first / designated union member, string
   literals for character arrays (bare, braced, reached by elision through structs, unions AND arrays, truncated when
   too long, overriding an earlier initializer of the array - the rest of the array is zero again -, sizing an array of
   unknown bound), and the GNU range designator as the LAST designator of a list (`[a ... b] = v`, `[1][2 ... 4] = v`,
   `.m[0 ... 1] = v`) with v an initializer for one element. *)
Theorem C05_initcur_model_is_6_7_9 : forall T v, valid T v = true -> model T v = Some (spec T v).
Proof. exact model_is_spec. Qed.
Print Assumptions C05_initcur_model_is_6_7_9.

(* the same for complete types, hypotheses spelled out *)
Theorem C05_initcur_complete_types : forall T v,
  wf T = true -> ok_init T [] v = true -> clean T (spec_events T v) = true ->
  model T v = Some (spec T v).
Proof. exact model_is_spec_complete. Qed.
Print Assumptions C05_initcur_complete_types.

(* before any reading of the tree: the tree itself is the replay of the standard's event log on the empty tree
   (no `clean` hypothesis: this part holds for the deviating inputs too, parse.c merging where C11 replaces) *)
Theorem C05_initcur_tree_is_replay : forall T v,
  wf T = true -> ok_init T [] v = true ->
  initializer T v = Some (Proofs.InitTree.replay (new_initializer T false) (spec_events T v)).
Proof. exact initializer_is_replay. Qed.
Print Assumptions C05_initcur_tree_is_replay.

(* the exclusion `clean` of `valid` is not gratuitous: a braced initializer for a subaggregate that an
   earlier item already touched is MERGED into the earlier values by parse.c; 6.7.9p19+p21 (and gcc, clang) replace:
   struct { struct { int a, b; } p; int c; } q = { 1, 2, 3, .p = { 5 } };  q.p.b is 2, must be 0 *)
Theorem C05_initcur_braced_override_refuted :
  exists T v, wf_top T = true /\ top_ok T v = true /\ ok_init T [] v = true /\ clean T (spec_events T v) = false /\
              model T v <> Some (spec T v).
Proof.
  exists ex_override_ty, ex_override_init. repeat split; try (vm_compute; reflexivity). vm_compute. discriminate.
Qed.
Print Assumptions C05_initcur_braced_override_refuted.

(* the second clause of `clean`: members of a union - when the initialized member of a union changes and
   later changes back, what parse.c stored for the member the first time is still there:
   struct { union { struct { int x, y; } s; long l; } u; int c; } v = { .u.s.x = 1, .u.l = 2, .u.s.y = 3 };  v.u.s.x is 1, must be 0 *)
Theorem C05_initcur_union_switch_refuted :
  exists T v, wf_top T = true /\ top_ok T v = true /\ ok_init T [] v = true /\ clean T (spec_events T v) = false /\
              model T v <> Some (spec T v).
Proof.
  exists ex_switch_ty, ex_switch_init. repeat split; try (vm_compute; reflexivity). vm_compute. discriminate.
Qed.
Print Assumptions C05_initcur_union_switch_refuted.

(* after a range in second or later position of a designator list the list goes on after the END of the range
   (parse.c since /repo 43bd8ea):  int x[2][6] = { [1][2 ... 4] = 7, 8 };  x[1][5] is 8.
   Designator lists that END in a range are inside `valid` *)
Example C05_initcur_nested_range_example :
  valid ex_range_ty ex_range_init = true /\
  model ex_range_ty ex_range_init = Some (spec ex_range_ty ex_range_init) /\
  nth_error (snd (spec ex_range_ty ex_range_init)) 11 = Some ([1; 5], Some (VExpr 8)).
Proof. vm_compute. repeat split. Qed.
Print Assumptions C05_initcur_nested_range_example.

(* a string literal that reaches its character array by brace elision through an ARRAY (6.7.9p20; parse.c since
   /repo 50fe612):  struct { char s[2][3]; } x = { "ab" };  is inside `valid` *)
Example C05_initcur_string_elision_example :
  valid ex_strarr_ty ex_strarr_init = true /\
  model ex_strarr_ty ex_strarr_init
  = Some (ex_strarr_ty, [([0; 0; 0], Some (VChar 97)); ([0; 0; 1], Some (VChar 98)); ([0; 0; 2], Some (VChar 0));
                         ([0; 1; 0], None); ([0; 1; 1], None); ([0; 1; 2], None)]).
Proof. vm_compute. split; reflexivity. Qed.
Print Assumptions C05_initcur_string_elision_example.

(* a string literal initializes the WHOLE character array, also when it overrides an earlier one (/repo 2e393ab):
   struct R { char name[8]; } r = { "default", .name = "ab" };  is inside `valid`; the bytes behind "ab" are zero *)
Example C05_initcur_string_override_example :
  valid ex_stroverride_ty ex_stroverride_init = true /\
  model ex_stroverride_ty ex_stroverride_init
  = Some (ex_stroverride_ty, [([0; 0], Some (VChar 97)); ([0; 1], Some (VChar 98)); ([0; 2], Some (VChar 0));
                              ([0; 3], None); ([0; 4], None); ([0; 5], None); ([0; 6], None); ([0; 7], None)]).
Proof. vm_compute. split; reflexivity. Qed.
Print Assumptions C05_initcur_string_override_example.

(* the hypotheses are satisfiable on a non-trivial input: an array of unknown bound of structs holding an array of
   structs, a union and an int; elision, a 5-step designator path, continuation, a union member, nested braces with
   designators, an out-of-order designator: 24 leaves *)
Example C05_initcur_nonvacuous :
  valid ex_valid_ty ex_valid_init = true /\
  option_map (fun r => length (snd r)) (model ex_valid_ty ex_valid_init) = Some 24 /\
  model ex_valid_ty ex_valid_init = Some (spec ex_valid_ty ex_valid_init).
Proof. vm_compute. repeat split. Qed.
Print Assumptions C05_initcur_nonvacuous.

(* ... and with string literals: elided, braced, too long for the array (no terminating null), designated, and sizing *)
Example C05_initcur_nonvacuous_strings :
  valid ex_str_ty ex_str_init = true /\
  option_map (fun r => length (snd r)) (model ex_str_ty ex_str_init) = Some 20 /\
  valid (TArray None (TScalar 1)) (IStr [104; 105; 0]) = true /\
  option_map fst (model (TArray None (TScalar 1)) (IStr [104; 105; 0])) = Some (TArray (Some 3) (TScalar 1)).
Proof. vm_compute. repeat split. Qed.
Print Assumptions C05_initcur_nonvacuous_strings.

(* ... and with a range: int a[][2] = { [1 ... 2] = { 1, 2 }, 3 }; has 4 elements *)
Example C05_initcur_nonvacuous_range :
  valid ex_rng_ty ex_rng_init = true /\
  model ex_rng_ty ex_rng_init
  = Some (TArray (Some 4) (TArray (Some 2) (TScalar 0)),
          [([0; 0], None); ([0; 1], None); ([1; 0], Some (VExpr 1)); ([1; 1], Some (VExpr 2));
           ([2; 0], Some (VExpr 1)); ([2; 1], Some (VExpr 2)); ([3; 0], Some (VExpr 3)); ([3; 1], None)]).
Proof. vm_compute. split; reflexivity. Qed.
Print Assumptions C05_initcur_nonvacuous_range.
