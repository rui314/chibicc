(* C19 - preprocessed output is a faithful program (the lexical core). *)
From Coq Require Import List NArith Bool.
From Chibicc Require Import Model.Lexer Gen.PunctTable Proofs.LexerProofs Proofs.EPrintProofs.
Import ListNotations.
Local Open Scope N_scope.

(* A space or a new-line always separates: with the punctuator table regenerated from
   tokenize.c, the token found in front of a separator - of ANY kind: identifier, pp-number,
   punctuator, string or character literal with any prefix - does not depend on what follows
   the separator. *)
Theorem C19_separator_separates : forall x c1 r1 c2 r2 k,
  x <> [] -> is_sep c1 = true -> is_sep c2 = true ->
  first_token punct_table (x ++ c1 :: r1) = Some (k, length x) ->
  first_token punct_table (x ++ c2 :: r2) = Some (k, length x).
Proof. intros x c1 r1 c2 r2 k _ _. exact (first_token_stable punct_table punct_table_nosep x c1 r1 c2 r2 k). Qed.
Print Assumptions C19_separator_separates.

(* Hence any sequence of token spellings, of any length, printed with a separator after each
   one, is read back by the lexer as exactly that sequence: what print_tokens does for every
   pair of tokens that were not adjacent in the source. *)
Theorem C19_relex_spaced : forall ts f bol sp,
  Forall (tok_ok punct_table) ts -> (length (spaced ts) < f)%nat ->
  exists toks, lex punct_table f (spaced ts) bol sp = LexOk toks /\ map t_text toks = ts.
Proof. exact (relex_spaced punct_table punct_table_nosep punct_table_nospace). Qed.
Print Assumptions C19_relex_spaced.

(* For the finite set of punctuators of the regenerated table, every ordered pair either reads
   back as itself when printed adjacent, or is in the computed list of fusing pairs (which
   print_tokens separates). *)
Theorem C19_punctuator_pairs : forall a b, In a all_puncts -> In b all_puncts ->
  pair_safe a b = true \/ In (a, b) fusing_pairs.
Proof.
  intros a b Ha Hb. destruct (pair_safe a b) eqn:E; [left; reflexivity|right; exact (fusing_intro a b Ha Hb E)].
Qed.
Print Assumptions C19_punctuator_pairs.

Example C19_nonvacuous :
  (In ([45], [45]) fusing_pairs /\ In ([43], [43]) fusing_pairs /\ In ([47], [42]) fusing_pairs /\
   In ([60; 60], [61]) fusing_pairs /\ pair_safe [45] [43] = true) /\
  (tok_ok punct_table [45; 45] /\ tok_ok punct_table [48; 120; 49; 112; 43; 51] /\ tok_ok punct_table [117; 56; 34; 97; 32; 98; 34]).
Proof. exact (conj fusing_examples tok_ok_examples). Qed.
Print Assumptions C19_nonvacuous.
