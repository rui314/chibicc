(* C09 - macro expansion follows C11 6.10.3 and terminates. *)
From Chibicc Require Import Base.Mach Model.Lexer Model.Macro Gen.PunctTable Proofs.MacroProofs Proofs.MacroTermProofs.

(* 6.10.3.4p2: a token carrying its own name in its hide set ("painted blue") is never replaced *)
Theorem C09_painted_not_replaced : forall pp e t rest,
  hs_contains (m_hs t) (m_txt t) = true -> expand_macro punct_table pp e t rest = NoExp.
Proof. intros pp e t rest H. rewrite expand_macro_eq. unfold invocation. rewrite H. reflexivity. Qed.
Print Assumptions C09_painted_not_replaced.

(* every token that replaces an invocation of M (object-like or function-like, whatever the
   arguments) carries M in its hide set, and the text after the invocation is passed on untouched *)
Theorem C09_replacement_painted : forall pp e t rest ts, expand_macro punct_table pp e t rest = Exp ts ->
  exists body after, ts = body ++ after /\ Forall (painted (m_txt t)) body /\ suffix after rest.
Proof. exact (replacement_painted punct_table). Qed.
Print Assumptions C09_replacement_painted.

(* 6.10.3p10: a function-like macro name not followed by ( is not an invocation *)
Theorem C09_funlike_needs_paren : forall pp e t rest m, find_macro e t = Some m -> mc_obj m = false ->
  match rest with lp :: _ => is lp LP = false | [] => True end -> expand_macro punct_table pp e t rest = NoExp.
Proof.
  intros pp e t rest m Hm Ho Hr. rewrite expand_macro_eq. unfold invocation. destruct (hs_contains _ _); [reflexivity|].
  rewrite Hm, Ho. destruct rest as [|lp r]; [reflexivity|]. rewrite Hr. reflexivity.
Qed.
Print Assumptions C09_funlike_needs_paren.

(* the substitution loop itself always terminates: with the counter the model passes
   (length of the replacement list + 1) a Fuel result can only come from expanding an argument *)
Theorem C09_subst_own_fuel : forall pp obj n body args acc,
  subst punct_table pp obj n body args acc = MFuel -> (length body < n)%nat -> exists x, pp x = MFuel.
Proof. exact (subst_own_fuel punct_table). Qed.
Print Assumptions C09_subst_own_fuel.

(* termination: for ANY set of object-like macros (self-referential, mutually recursive in any
   shape) whose bodies hold no #, ## or __VA_OPT__, and ANY text without a # token, preprocessing ends
   within the explicit bound mu, and with a result.  (Function-like macros, without a numeric bound:
   Properties_C09_mterm.v.) *)
Theorem C09_objlike_terminates : forall e B, obj_env e B -> forall f ts,
  Forall (fun t => is t HASH = false) ts -> (mu e B ts < f)%nat -> exists out, pp2 punct_table f e ts = MOk out.
Proof. exact (objlike_terminates punct_table). Qed.
Print Assumptions C09_objlike_terminates.

(* non-vacuity: two object-like macros that refer to each other *)
Definition demo_src : list N :=   (* #define A B x\n#define B A y\nA B\n *)
  [35;100;101;102;105;110;101;32;65;32;66;32;120;10; 35;100;101;102;105;110;101;32;66;32;65;32;121;10; 65;32;66;10]%N.
Definition demo_out := Eval vm_compute in
  match tokenize punct_table demo_src with
  | LexOk l => match pp2 punct_table 100 [] (of_lex l) with MOk ts => Some (map m_txt ts) | _ => None end
  | LexErr => None end.
Example C09_nonvacuous : demo_out = Some [[65]; [121]; [120]; [66]; [120]; [121]]%N.     (* A y x B x y *)
Proof. reflexivity. Qed.
Print Assumptions C09_nonvacuous.
