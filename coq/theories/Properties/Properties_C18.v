(* C18 - source positions survive preprocessing. *)
From Chibicc Require Import Base.Mach Model.Lexer Model.Phases Model.SourcePos Model.LineDir Gen.PunctTable
     Proofs.PhasesProofs Proofs.SourcePosProofs Proofs.LineDirProofs.

(* phase 1: every byte of the canonical text comes from a byte of the file, and the number of LF
   before it is the number of physical line ends (LF, CR LF, lone CR) before its origin *)
Theorem C18_canon_preserves_lines : forall s j b i, nth_error (canon_idx 0 s) j = Some (b, i) ->
  (exists c, nth_error s i = Some c /\ canon_byte c b) /\ line_at (canon s) j = phys_line s i.
Proof. exact canon_lines. Qed.
Print Assumptions C18_canon_preserves_lines.

Theorem C18_canon_erasure : forall s, map fst (canon_idx 0 s) = canon s.
Proof. intros s. apply canon_erase. Qed.
Print Assumptions C18_canon_erasure.

(* phase 2: splicing neither adds nor removes a line end (later lines keep their numbers) ... *)
Theorem C18_splice_preserves_count : forall t, count_lf (splice 0 t) = count_lf t.
Proof. intros t. apply (splice_count t 0). Qed.
Print Assumptions C18_splice_preserves_count.

(* ... and for every copied byte: computed line + splices pending there = line of its origin *)
Theorem C18_splice_lines : forall t j b i k, nth_error (splice_idx 0 0 t) j = Some (b, Some (i, k)) ->
  nth_error t i = Some b /\ (line_at (splice 0 t) j + k = line_at t i)%nat.
Proof. exact splice_lines. Qed.
Print Assumptions C18_splice_lines.

Theorem C18_splice_erasure : forall t, map fst (splice_idx 0 0 t) = splice 0 t.
Proof. intros t. apply splice_erase. Qed.
Print Assumptions C18_splice_erasure.

(* tokenize_file as a whole: a token whose first byte has no splice pending gets the physical
   line of that byte in the file as stored ... *)
Theorem C18_line_no_physical : forall file l tp, token_lines punct_table file = Some l -> In tp l ->
  tp_pending tp = 0%nat -> tp_line tp = tp_phys tp.
Proof. intros file l tp H Hin Hk. pose proof (token_lines_sound punct_table file l H tp Hin). lia. Qed.
Print Assumptions C18_line_no_physical.

(* ... in general it is short by the number of pending splices; the full statement
   ("regardless of line splicing") is refuted: known finding C18-after-splice *)
Theorem C18_line_no_lag : forall file l tp, token_lines punct_table file = Some l -> In tp l ->
  (tp_line tp + tp_pending tp = tp_phys tp)%nat.
Proof. intros file l tp H Hin. exact (token_lines_sound punct_table file l H tp Hin). Qed.
Print Assumptions C18_line_no_lag.

Theorem C18_after_splice_refuted :
  exists j, nth_error (phases12 refute_src) j = Some 98%N /\ line_at (phases12 refute_src) j = 1%nat /\ phys_line refute_src 4 = 2%nat.
Proof. exists 2%nat. vm_compute. repeat split. Qed.
Print Assumptions C18_after_splice_refuted.

(* the tokens are those of the C19 lexer model on the processed buffer *)
Theorem C18_tokens : forall file l, token_lines punct_table file = Some l ->
  tokenize punct_table (phases12 (load file)) = LexOk (map tp_tok l).
Proof. exact (token_lines_tokens punct_table). Qed.
Print Assumptions C18_tokens.

(* loading (final new-line, BOM) moves no line *)
Theorem C18_load_lines : (forall s i, (i < length s)%nat -> phys_line (terminate s) i = phys_line s i) /\
  (forall r i, phys_line (239 :: 187 :: 191 :: r)%N (3 + i) = phys_line r i).
Proof. split; [exact terminate_lines|reflexivity]. Qed.
Print Assumptions C18_load_lines.

(* #line: without a directive the implementation agrees with C11 6.10.4p3 (and reports physical lines:
   LineDirProofs.no_directive_physical); after one it is exactly one ahead (refuted part: known finding
   C18-line-directive, enshrined by test/line.c) *)
Theorem C18_no_directive : forall f d l, has_dir f = false -> impl_lines d l f = spec_lines d l f.
Proof. exact no_directive_spec. Qed.
Print Assumptions C18_no_directive.

Theorem C18_directive_off_by_one : forall f d l n k v,
  nth_error (impl_lines d l (Dir n :: f)) (S k) = Some (Some v) ->
  nth_error (spec_lines d l (Dir n :: f)) (S k) = Some (Some (v - 1)%Z).
Proof. exact directive_off_by_one. Qed.
Print Assumptions C18_directive_off_by_one.

(* non-vacuity: a file with CR LF, a lone CR, a splice and a comment *)
Definition demo_file : list N := [97; 13; 10; 98; 13; 47; 47; 32; 92; 10; 99; 10; 100]%N.   (* a CRLF b CR // \ LF c LF d *)
Definition demo_lines := Eval vm_compute in
  option_map (map (fun tp => (tp_line tp, tp_phys tp, tp_pending tp))) (token_lines punct_table demo_file).
Example C18_nonvacuous : demo_lines = Some [(1, 1, 0); (2, 2, 0); (5, 5, 0)]%nat.
Proof. reflexivity. Qed.
Print Assumptions C18_nonvacuous.
