(* C08 - type sizes, alignments and layouts equal the psABI. *)
From Coq Require Import List NArith Bool Permutation.
From Chibicc Require Import Model.Layout Spec.LayoutSpec Proofs.LayoutProofs
     Model.Declspec Gen.DeclspecTable Spec.DeclspecSpec Proofs.DeclspecProofs.
Import ListNotations.
Local Open Scope N_scope.

(* every member of every struct (any number and mix of members, bit-fields, zero-width and
   unnamed bit-fields, _Alignas / aligned(n) / packed; not: _Alignas on a member of a packed struct, which parse.c
   honours and a member's summary [minfo] cannot say) is placed at the least position the
   psABI conditions allow, the struct alignment is the least upper bound of the counted member
   alignments and its size the least multiple of it that holds all members.  Excluded by the
   decidable [no_bad] only: a bit-field that would cross a unit boundary inside a packed struct. *)
Theorem C08_struct_layout_is_psabi : forall packed align0 ms,
  Forall wf_member ms -> 0 < align0 ->
  no_bad packed {| ls_bits := 0; ls_align := align0 |} ms = true ->
  let L := struct_layout packed align0 ms in
  let pos := positions packed {| ls_bits := 0; ls_align := align0 |} ms in
  exists e,
    psabi_members packed 0 ms pos e /\
    psabi_align packed align0 ms (l_align L) /\
    psabi_size e (l_align L) (l_size L) /\
    Forall2 (fun mp p => m_bf (fst mp) <> Some 0 -> start_bit (snd mp) = p) (combine ms (l_places L)) pos.
Proof. exact struct_layout_psabi. Qed.
Print Assumptions C08_struct_layout_is_psabi.

(* psABI placements never overlap: members appear in declaration order, each starting at or
   after the end of every earlier one, all inside the struct *)
Theorem C08_members_disjoint : forall packed ms cur ps e,
  psabi_members packed cur ms ps e ->
  cur <= e /\ Forall (fun p => cur <= p) ps /\
  (forall i j pi pj mi, (i < j)%nat -> nth_error ps i = Some pi -> nth_error ps j = Some pj ->
     nth_error ms i = Some mi -> pi + bit_len mi <= pj) /\
  (forall i pi mi, nth_error ps i = Some pi -> nth_error ms i = Some mi -> pi + bit_len mi <= e).
Proof. exact psabi_members_ordered. Qed.
Print Assumptions C08_members_disjoint.

(* a bit-field's storage unit is aligned for its type and contains the whole field (in packed structs too: the proof
   never takes the second alternative of the conclusion) *)
Theorem C08_bitfield_in_unit : forall packed st m,
  wf_member m -> known_bad packed (ls_bits st) m = false ->
  forall w, m_bf m = Some w -> 0 < w ->
    N.divide (m_size m) (p_off (fst (struct_step packed st m))) /\
    p_bit (fst (struct_step packed st m)) + w <= 8 * m_size m \/ packed = true.
Proof.
  intros packed st m Hwf Hkb w E Hw.
  destruct (struct_step_psabi packed st m Hwf Hkb) as [p [_ [_ [_ H]]]]. exact (H w E Hw).
Qed.
Print Assumptions C08_bitfield_in_unit.

(* the excluded construct really differs (so the exclusion is not gratuitous) *)
Theorem C08_known_bad_is_real :
  let ms := [ {| m_size := 1; m_align := 1; m_bf := None; m_named := true |};
              {| m_size := 4; m_align := 4; m_bf := Some 30; m_named := true |} ] in
  no_bad true {| ls_bits := 0; ls_align := 1 |} ms = false /\
  l_size (struct_layout true 1 ms) = 8 /\ psabi_members true 0 ms [0; 8] 38.
Proof. exact known_bad_is_real. Qed.
Print Assumptions C08_known_bad_is_real.

(* every 6.7.2p2 multiset of type specifiers, in every order, interleaved with any other
   declaration specifiers, is accepted by the regenerated switch of declspec() with the C11 type *)
Theorem C08_declspec_any_order : forall ts m t,
  In (m, t) c11_type_specifiers -> Permutation (kws ts) m ->
  declspec kw_op ds_table ts = Some t.
Proof. exact declspec_any_order. Qed.
Print Assumptions C08_declspec_any_order.

Example C08_nonvacuous :
  declspec kw_op ds_table [TOther; TKw KLong; TOther; TKw KUnsigned; TKw KInt; TKw KLong] = Some BULong /\
  struct_layout false 1 [ {| m_size := 1; m_align := 1; m_bf := None; m_named := true |};
                          {| m_size := 8; m_align := 8; m_bf := Some 0; m_named := false |};
                          {| m_size := 1; m_align := 1; m_bf := None; m_named := true |} ]
  = {| l_size := 9; l_align := 1; l_places := [ {| p_off := 0; p_bit := 0 |}; {| p_off := 0; p_bit := 0 |}; {| p_off := 8; p_bit := 0 |} ] |}.
Proof. vm_compute. split; reflexivity. Qed.
Print Assumptions C08_nonvacuous.
