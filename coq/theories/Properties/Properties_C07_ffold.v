(* C07 - translation-time evaluation of floating constant expressions (parse.c eval_double / eval_double2 and
   the floating branches of eval2) against C11.  Node-level theorems and whole float / double trees; all other trees are
   compared with chibicc's output by the correspondence check tools/tie_ffold.py ("the tie"). *)
From Coq Require Import ZArith Bool List.
From Flocq Require Import Core Binary Bits.
From Chibicc Require Import Spec.C11Int Spec.C11Float Spec.C11LDouble Model.ConstFold Model.FloatGen Model.FloatFold
     Proofs.FloatGenProofs Proofs.FloatFoldConv Proofs.FloatFoldProofs Proofs.FloatFoldTree.
Local Open Scope Z_scope.

(* A constant + - * / node of type float (double): chibicc computes (float)l + (float)r on the host and keeps the result in a
   long double; if the operands hold the C11 values of the operand expressions, the node's folded value is the C11 value of the
   node (one rounding to 24 / 53 bits, no rounding in the long double carrier), up to the choice of NaN. *)
Theorem C07_ffold_arith_node_partial : forall t o x y w hx hy, is_fp t = true -> is_arith o = true ->
  hmatch x (HF hx) -> hmatch y (HF hy) -> val_ok t x = true -> val_ok t y = true ->
  eval_common o t x y = Some w ->
  exists r, h_arith t o hx hy = Some r /\ hmatch w (HF (round_to t r)).
Proof. exact arith_node_correct. Qed.
Print Assumptions C07_ffold_arith_node_partial.

(* Unary minus of a constant float / double operand, computed as a long double negation, is the C11 negation. *)
Theorem C07_ffold_neg_node_partial : forall t x w hx, is_fp t = true -> hmatch x (HF hx) -> val_ok t x = true ->
  eval_unary Neg t x = Some w -> hmatch w (HF (round_to t (opp_l hx))).
Proof. exact neg_node_correct. Qed.
Print Assumptions C07_ffold_neg_node_partial.

(* A constant cast (explicit or inserted by the usual arithmetic conversions) to float / double of a value of any integer type,
   float or double, evaluated through long double ((unsigned long) route for unsigned types), is the C11 conversion:
   the value is rounded once. *)
Theorem C07_ffold_cast_to_fp_partial : forall from t v w h, is_fp t = true -> val_ok from v = true -> hmatch v h ->
  convert t v = Some w -> exists h', h_cast from t h = Some h' /\ hmatch w h'.
Proof. exact cast_to_fp_correct. Qed.
Print Assumptions C07_ffold_cast_to_fp_partial.

(* eval_truth of a floating constant (&&, ||, !, ?:) is C11's "compares unequal to 0" (a NaN is true, -0.0 is false). *)
Theorem C07_ffold_truth_partial : forall v h, (exists t, is_fp t = true /\ val_ok t v = true) -> hmatch v h -> h_truth h = truth v.
Proof. exact truth_correct. Qed.
Print Assumptions C07_ffold_truth_partial.

(* `static unsigned long x = 1.8e19;` : C11 6.7.9p11 demands 18000000000000000000.  write_gvar_data converts a floating initializer
   to the integer object's type (/repo commit 3687651; without that cast the stored value would be 0x8000000000000000); the model
   has the cast and agrees with C11. *)
Example C07_ffold_static_u64_witness :
  feval (fun _ => VI 0) (FLitD d_1_8e19) = Some (VD d_1_8e19) /\
  convert (TI U64) (VD d_1_8e19) = Some (VI 18000000000000000000) /\
  static_bits (TI U64) (FLitD d_1_8e19) = Some 18000000000000000000.
Proof. exact static_u64_witness. Qed.

(* non-vacuity: 0x1.000002p0f * 0x1.000002p0f + (float)(1 / 3.0) rounds at every node; the folder and C11 agree on the whole tree *)
Definition f_a : binary32 := b32_of_bits 1065353217.   (* 0x1.000002p0f *)
Definition f_b : binary32 := b32_of_bits 855638016.    (* 0x1p-25f *)
Definition ex_tree : fexpr := FBin Add (FBin Mul (FLitS f_a) (FLitS f_a)) (FCast TF32 (FBin Div (FLit I32 1) (FLitD (b64_of_bits 4613937818241073152)))).
Example C07_ffold_tree_nonvacuous :
  match feval (fun _ => VI 0) ex_tree, fold ex_tree with
  | Some (VS x), Some (HF y) => Some (bits_of_b32 x) = Some (bits_of_b32 (s_of_l y))
  | _, _ => False
  end.
Proof. vm_compute. reflexivity. Qed.
Example C07_ffold_cmp_nonvacuous :
  fold (FBin OLt (FLitD (b64_of_bits 4609434218613702656)) (FLitS f_a)) = Some (HI 0) /\
  fold_int (FCast (TI I32) (FLitD (b64_of_bits 4613937818241073152))) = Some 3.
Proof. vm_compute. split; reflexivity. Qed.

(* Whole trees: every constant expression built from float / double constants with + - * /, unary minus and casts to
   float / double (any depth) is folded by chibicc to a long double that carries exactly its C11 value (up to the choice of NaN).
   Integer operands, comparisons, ! && || ?: and casts to integer types are outside fp_tree (the tie covers them). *)
Theorem C07_ffold_tree_partial : forall rho e v, fp_tree e = true -> feval rho e = Some v -> exists h, fold e = Some h /\ hmatch v h.
Proof. exact fold_fp_tree. Qed.
Print Assumptions C07_ffold_tree_partial.

(* ... and `static float/double s = e;` holds the very bits the code chibicc emits for e computes at run time
   (FloatGen.run_expr), unless the value is a NaN, whose sign and payload C leaves open. *)
Theorem C07_ffold_equals_runtime_partial : forall rho e v, fp_tree e = true -> feval rho e = Some v ->
  exists sb b, static_bits (ftype_of e) e = Some sb /\ run_expr rho e = Some b /\
    match v with
    | VS x => ftype_of e = TF32 /\ (is_nan 24 128 x = false -> sb = b /\ b = bits_of_b32 x)
    | VD x => ftype_of e = TF64 /\ (is_nan 53 1024 x = false -> sb = b /\ b = bits_of_b64 x)
    | VI _ => False
    end.
Proof. exact static_bits_equal_runtime. Qed.
Print Assumptions C07_ffold_equals_runtime_partial.

(* non-vacuity: 1.0 + 0x1.0000000000001p-53 (rounds differently at 64 and at 53 bits) times a float, cast to float, negated *)
Definition ex_fp : fexpr :=
  FUn Neg (FCast TF32 (FBin Mul (FBin Add (FLitD (b64_of_bits 4607182418800017408)) (FLitD (b64_of_bits 4368491638549381121))) (FLitS f_a))).
Example C07_ffold_fp_tree_nonvacuous :
  fp_tree ex_fp = true /\
  match feval (fun _ => VI 0) ex_fp with Some (VS x) => is_nan 24 128 x = false /\ static_bits TF32 ex_fp = Some (bits_of_b32 x) | _ => False end.
Proof. vm_compute. repeat split; reflexivity. Qed.
