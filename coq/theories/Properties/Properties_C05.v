(* C05 - initializers produce exactly the object value of C11 6.7.9. *)
From Chibicc Require Import Base.Mach Model.Bitfield Model.InitMerge Proofs.BitfieldProofs Proofs.InitMergeProofs.
Local Open Scope Z_scope.

(* static = automatic for bit-fields: for ANY set of pairwise disjoint bit-fields of a storage unit,
   any subset of them initialized with ANY values in ANY order, the unit image write_gvar_data
   builds (OR into a zeroed buffer) equals what zero fill plus the bit-field assignments of the
   automatic path leave *)
Theorem C05_static_equals_automatic_bitfields : forall fs, Forall wf_field fs -> ForallOrdPairs disjoint fs -> static_unit fs = auto_unit fs.
Proof. exact static_equals_auto. Qed.
Print Assumptions C05_static_equals_automatic_bitfields.

(* per-field read-back: whatever the unit held, a bit-field read right after its own initializing store is the value
   cut to the width (nothing is stated here of later stores into the unit or of its other bits; C04_bitfield_neighbours
   and C04_bitfield_other_bits_kept say that of bf_store) *)
Theorem C05_field_value : forall u v off w, 0 <= off -> 0 < w -> off + w <= 64 -> bf_load_u (auto_merge u (v, off, w)) off w = Z.land v (Z.ones w).
Proof. intros. apply store_then_load_u; assumption. Qed.
Print Assumptions C05_field_value.

(* the zero fill is essential to the OR-merge (why write_gvar_data may not be reused on a dirty buffer) *)
Theorem C05_or_merge_needs_clear_bits : static_merge 255 (0, 0, 4) <> auto_merge 255 (0, 0, 4).
Proof. vm_compute. discriminate. Qed.
Print Assumptions C05_or_merge_needs_clear_bits.

Example C05_nonvacuous : static_unit [(5, 0, 3); (-1, 8, 4); (1, 31, 1)] = 2147487493 /\ auto_unit [(5, 0, 3); (-1, 8, 4); (1, 31, 1)] = 2147487493.
Proof. vm_compute. split; reflexivity. Qed.
Print Assumptions C05_nonvacuous.
