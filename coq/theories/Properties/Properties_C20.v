(* C20 - evaluation leaves no residue on the machine stack or the x87 stack. *)
From Chibicc Require Import Base.Mach Model.StackDisc Proofs.StackDiscProofs.
Local Open Scope Z_scope.

(* every well-typed scalar expression (any nesting of arithmetic, comparisons, casts between the
   three register classes, assignment, ?:, && ||, comma, (void), calls with any argument list and
   any pass-by-stack marking and alignment pad): started with d slots on the machine stack and x
   x87 registers in use, the emitted code never pops more than it has pushed (d may be 0, where
   srun refuses to pop), never exceeds 8 x87 registers as long as x + need e <= 8, rejoins every
   branch in the same state, and ends with the machine stack where it was and exactly one value:
   on the x87 stack iff the value is a long double *)
Theorem C20_expression_balanced : forall e, wt e = true -> forall d x, 0 <= d -> 0 <= x -> x + need e <= 8 ->
  srun (gen e) (d, x) = Some (d, x + xv (cls_of e)).
Proof. exact (fun e Hw => eff_run (gen_eff e Hw)). Qed.
Print Assumptions C20_expression_balanced.

(* statements (expression statements, if, for, do, blocks, return) leave both stacks exactly as
   they found them, so a loop body may run any number of times *)
Theorem C20_statement_balanced : forall s, wts s = true -> forall d x, 0 <= d -> 0 <= x -> x + sneed s <= 8 ->
  srun (gs s) (d, x) = Some (d, x).
Proof. intros s Hw d x Hd Hx Hn. rewrite (eff_run (gs_eff s Hw) d x Hd Hx Hn), Z.add_0_r. reflexivity. Qed.
Print Assumptions C20_statement_balanced.

Theorem C20_need_covers_value : forall e, wt e = true -> xv (cls_of e) <= need e.
Proof. exact xv_le_need. Qed.
Print Assumptions C20_need_covers_value.

(* the capacity hypothesis is real: a right-nested long double expression of depth 8 needs nine
   x87 registers and overflows (known finding C20-x87-depth); left-nested chains need two *)
Theorem C20_deep_right_nesting_overflows : wt (right_nested 8) = true /\ need (right_nested 8) = 9 /\ srun (gen (right_nested 8)) (0, 0) = None.
Proof. vm_compute. repeat split. Qed.
Print Assumptions C20_deep_right_nesting_overflows.

Theorem C20_left_nesting_is_flat : forall n, need ((fix l (n : nat) : expr := match n with O => XVar CX | S k => XBin CX (l k) (XVar CX) end) n) <= 2.
Proof. induction n as [|n IH]; cbn [need xv] in *; lia. Qed.
Print Assumptions C20_left_nesting_is_flat.

(* non-vacuity: a long double assignment inside a call inside a loop *)
Definition demo : stmt :=
  SFor (SExpr CX (XAssign CX (XNum CI) (XNum CX))) CI (XCmp CX (XVar CX) (XNum CX)) CX (XAssign CX (XNum CI) (XBin CX (XVar CX) (XNum CX)))
    (SExpr CI (XCall CI true [(CX, true, XCond CI CX (XVar CI) (XVar CX) (XCast CF CX (XVar CF))); (CI, false, XLNot CX (XVar CX)); (CF, false, XCast CX CF (XVar CX))])).
Example C20_nonvacuous : wts demo = true /\ sneed demo = 2 /\ srun (gs demo) (0, 0) = Some (0, 0).
Proof. vm_compute. repeat split. Qed.
Print Assumptions C20_nonvacuous.
