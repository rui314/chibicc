(* C03 - control flow and lexical scoping. *)
From Chibicc Require Import Base.Mach Model.Control Proofs.ControlProofs Model.Lowering Proofs.LoweringProofs Model.X86Int Model.ExprGen Model.ExprFlat Proofs.ExprFlatProofs.
Local Open Scope Z_scope.

(* switch: for a controlling value v of the promoted controlling type (signed or unsigned, 32 or 64
   bits) and ANY list of cases (single values and GNU ranges, any order, any values incl. negative
   and beyond 32 bits) in which no range is empty once its bounds are converted (wf_case; parse.c
   tests end < begin before it converts, so `case 1 ... 0x100000000:` under an int passes there and
   is not covered here), the emitted compare-and-branch chain jumps to the first case in list order
   whose converted value equals v (whose converted bounds enclose v) - with pairwise distinct case
   values, as C11 6.8.4.2p3 requires, THE matching case - otherwise to default, otherwise past the switch *)
Theorem C03_switch_dispatch : forall w sgn v cs dflt brk, (w = 32 \/ w = 64) -> in_ty w sgn v -> Forall (wf_case w sgn) cs ->
  (exists pre c post, cs = pre ++ c :: post /\ matches w sgn v c /\ Forall (fun c' => ~ matches w sgn v c') pre /\ dispatch w v cs dflt brk = c_label c)
  \/ (Forall (fun c' => ~ matches w sgn v c') cs /\ dispatch w v cs dflt brk = match dflt with Some l => l | None => brk end).
Proof. exact dispatch_first_match. Qed.
Print Assumptions C03_switch_dispatch.

(* the value parse.c stores for a case (an int when the comparison is 32-bit) denotes the same case value *)
Theorem C03_case_value_stored : forall w sgn v, (w = 32 \/ w = 64) -> conv w sgn (stored w v) = conv w sgn v.
Proof. intros w sgn v [-> | ->]; [|reflexivity]. apply conv_wrap. exact (conv_cong 32 true v). Qed.
Print Assumptions C03_case_value_stored.

(* scoping: innermost declaration wins; a block's declarations vanish with it; tags and ordinary
   identifiers do not hide each other *)
Theorem C03_innermost_binding : forall (K V T : Type) keq (f : frame K V T) s k,
  find_var K V T keq (f :: s) k = match assoc K keq (f_vars K V T f) k with Some v => Some v | None => find_var K V T keq s k end.
Proof. reflexivity. Qed.
Print Assumptions C03_innermost_binding.

Theorem C03_latest_declaration : forall (K V T : Type) keq (s : scopes K V T) k v k', s <> [] ->
  find_var K V T keq (push_var K V T s k v) k' = if keq k k' then Some v else find_var K V T keq s k'.
Proof. intros K V T keq [|f r] k v k' H; [congruence|]. cbn. destruct (keq k k'); reflexivity. Qed.
Print Assumptions C03_latest_declaration.

Theorem C03_block_scope_restores : forall (K V T : Type) (s : scopes K V T) ds,
  leave_scope K V T (declare K V T (enter_scope K V T s) ds) = s.
Proof. intros K V T s ds. apply declare_top. Qed.
Print Assumptions C03_block_scope_restores.

Theorem C03_name_spaces_separate : forall (K V T : Type) keq (s : scopes K V T) k t v k',
  find_var K V T keq (push_tag K V T s k t) k' = find_var K V T keq s k' /\ find_tag K V T keq (push_var K V T s k v) k' = find_tag K V T keq s k'.
Proof. intros K V T keq [|f r]; split; reflexivity. Qed.
Print Assumptions C03_name_spaces_separate.

(* non-vacuity: a long switch with a value beyond 32 bits, a negative range and a default *)
Definition demo_cases := [ {| c_begin := 4294967297; c_end := 4294967297; c_label := 1 |}; {| c_begin := -5; c_end := -2; c_label := 2 |}; {| c_begin := 1; c_end := 1; c_label := 3 |} ].
Example C03_nonvacuous : map (fun v => dispatch 64 v demo_cases (Some 9%nat) 0%nat) [4294967297; 1; -3; -6; 7] = [1; 3; 2; 9; 9]%nat.
Proof. reflexivity. Qed.
Print Assumptions C03_nonvacuous.

(* lowering of if / for / while / do / break / continue to labels and jumps (gen_stmt): whenever the
   structured program, run on ANY sequence of condition outcomes, produces a trace of markers and
   condition evaluations, the emitted jump code - placed anywhere inside a larger program - produces
   exactly that trace, consumes exactly those outcomes, and leaves control at the end of the
   statement, at the enclosing break target, or at the enclosing continue target respectively.
   No bound on nesting depth, on the number of iterations or on the size of the program. *)
Local Close Scope Z_scope.
Theorem C03_lowering_simulation : forall fuel s o tr o' out, lexec fuel s o = Some (tr, o', out) ->
  forall P p b c, embedded P p (lgen s p b c) -> lstar P (p, o) tr (ltarget out p s b c, o').
Proof. exact lowering_simulates. Qed.
Print Assumptions C03_lowering_simulation.

Theorem C03_lowered_program : forall fuel s o tr o', lexec fuel s o = Some (tr, o', ONormal) ->
  forall b c, lstar (lgen s 0 b c) (0, o) tr (lsize s, o').
Proof. exact program_simulates. Qed.
Print Assumptions C03_lowered_program.

(* the jump machine has one run per state, so the run above is the only one *)
Theorem C03_target_deterministic : forall P s t1 s1, lstar P s t1 s1 -> forall t2 s2, lstar P s t2 s2 ->
  (exists t, lstar P s1 t s2 /\ t2 = t1 ++ t) \/ (exists t, lstar P s2 t s1 /\ t1 = t2 ++ t).
Proof. exact lstar_det. Qed.
Print Assumptions C03_target_deterministic.

(* non-vacuity: for (M1; E2; M3) { if (E4) continue; else M5; do { M6; break; } while (E7); }  on outcomes T T T F F *)
Definition demo_loop := LFor (LMark 1) (Some 2) (LMark 3) (LSeq (LIf 4 LContinue (LMark 5)) (LDo (LSeq (LMark 6) LBreak) 7)).
Example C03_lowering_nonvacuous : lexec 20 demo_loop [true; true; true; false; false] = Some ([1; 2; 4; 3; 2; 4; 5; 6; 3; 2], [], ONormal).
Proof. reflexivity. Qed.
Print Assumptions C03_lowering_nonvacuous.

(* lowering of && || ?: (ND_LOGAND, ND_LOGOR, ND_COND of gen_expr) to compares, conditional jumps and
   labels: whenever the code tree (whose && || ?: nodes evaluate their operands as C11 6.5.13-15
   prescribe: left operand, test, then at most one of the others) runs from a state to a state, the
   emitted jump code, embedded anywhere, runs from the one to the other and ends at its own end *)
Theorem C03_shortcircuit_lowering : forall c st st', grun c st = Some st' ->
  forall P p, fembedded P p (gflatten c p) -> fstar P (p, st) ((p + fsize c)%nat, st').
Proof. exact gflatten_simulates. Qed.
Print Assumptions C03_shortcircuit_lowering.
