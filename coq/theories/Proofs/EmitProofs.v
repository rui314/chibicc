(* C15 (symbol emission): the symbol table of the object file equals the one C11 6.2.2 / 6.9.2 / 6.7.4
   and the ELF conventions prescribe, for every valid translation unit.  On the way: consequences of
   `valid`, the flags of function objects read against 6.2.2 / 6.7.4p7, and liveness - the functions chibicc
   marks live are exactly the ones the specification calls emitted (through the soundness and completeness
   theorems of mark_live in LinkageProofs / LinkageComplete). *)
From Coq Require Import List Bool Arith ZArith Lia.
From Chibicc Require Import Base.ListFacts Model.Linkage Proofs.LinkageProofs Proofs.LinkageComplete.
From Chibicc Require Import Spec.LinkSpec Model.Emit Proofs.EmitAsm Proofs.EmitParse Proofs.EmitAnon.
Import ListNotations.

Definition to_result (e : option entry) : lookup_result := match e with Some e => Present e | None => Absent end.

Lemma filter_andb {A} (P Q : A -> bool) l : filter (fun x => P x && Q x) l = filter P (filter Q l).
Proof. induction l as [|x r IH]; [reflexivity|]. cbn [filter]. destruct (Q x), (P x) eqn:E; cbn [andb filter]; rewrite ?E, IH; reflexivity. Qed.
Lemma filter_ext_in_len {A} (P Q : A -> bool) l : (forall x, In x l -> P x = Q x) -> filter P l = filter Q l.
Proof. apply filter_ext_in. Qed.
Lemma existsb_all_eq (b : bool) l : (forall t, In t l -> t = b) -> l <> [] -> existsb (fun t => t) l = b.
Proof.
  induction l as [|t r IH]; intros H Hn; [contradiction|]. cbn [existsb]. rewrite (H t (or_introl eq_refl)).
  destruct b; [reflexivity|]. destruct r; [reflexivity|]. apply IH; [intros u Hu; apply H; right; exact Hu|discriminate].
Qed.
Lemma length_filter_rev_map {A B} (P : B -> bool) (f : A -> B) l : length (filter P (rev (map f l))) = length (filter (fun x => P (f x)) l).
Proof.
  induction l as [|x r IH]; [reflexivity|]. cbn [map rev filter]. rewrite filter_app, app_length, IH. cbn [filter].
  destruct (P (f x)); cbn [length]; lia.
Qed.

Lemma length_filter_le1 {A} (P : A -> bool) l : (length (filter P l) <= 1)%nat -> length (filter P l) = if existsb P l then 1%nat else 0%nat.
Proof. intros H. rewrite existsb_filter_length. destruct (length (filter P l)) as [|[|k]]; [reflexivity|reflexivity|lia]. Qed.

Lemma funseq_flat_map g ds :
  funseq g ds = flat_map (fun d => match d with DFun m sc il _ b => if Nat.eqb m g then [mkFD sc il b] else [] | _ => [] end) ds.
Proof.
  induction ds as [|[m od|m sc il fz b] r IH]; cbn [funseq flat_map]; [reflexivity|exact IH|].
  destruct (Nat.eqb m g); cbn [app]; rewrite IH; reflexivity.
Qed.
Lemma funseq_In ds g sc il b : In (mkFD sc il b) (funseq g ds) <-> exists fsz, In (DFun g sc il fsz b) ds.
Proof.
  rewrite funseq_flat_map, in_flat_map. split.
  - intros ([m od|m sc' il' fz b'] & Hd & H); [contradiction|]. destruct (Nat.eqb_spec m g) as [->|]; [|contradiction].
    destruct H as [H|[]]. injection H as -> -> ->. exists fz. exact Hd.
  - intros (fsz & Hd). exists (DFun g sc il fsz b). split; [exact Hd|]. rewrite Nat.eqb_refl. left. reflexivity.
Qed.
Lemma declared_cases (l : list decl) n : In n (map decl_name l) -> objseq n l <> [] \/ funseq n l <> [].
Proof.
  intros H. apply in_map_iff in H as ([m od|m sc il fz b] & <- & Hd); [left|right]; cbn [decl_name]; intros E.
  - apply objseq_In in Hd. rewrite E in Hd. exact Hd.
  - assert (H : In (mkFD sc il b) (funseq m l)) by (apply funseq_In; exists fz; exact Hd). rewrite E in H. exact H.
Qed.

Lemma addr_taken_iff l n : addr_taken_at_file_scope l n = true <-> exists m od, In (DObj m od) l /\ o_init od = IAddr n.
Proof.
  unfold addr_taken_at_file_scope. rewrite existsb_exists. split.
  - intros ([m od|] & Hd & H); [|discriminate]. destruct (o_init od) as [| |t] eqn:Ei; try discriminate. apply Nat.eqb_eq in H. subst t. exists m, od. auto.
  - intros (m & od & Hd & Ei). exists (DObj m od). split; [exact Hd|]. rewrite Ei. apply Nat.eqb_refl.
Qed.

Lemma link_fold_consistent {A} (step : option linkage -> A -> linkage) l : forall k,
  link_consistent step (Some k) l = true -> link_fold step (Some k) l = Some k /\ forall x, In x l -> step (Some k) x = k.
Proof.
  induction l as [|a r IH]; intros k H; [split; [reflexivity|intros x []]|].
  cbn [link_consistent] in H. apply andb_true_iff in H as [H1 H2].
  assert (E : step (Some k) a = k) by (destruct k, (step (Some L_external) a), (step (Some L_internal) a); cbn in H1; congruence).
  rewrite E in H2. destruct (IH k H2) as [F1 F2]. cbn [link_fold]. rewrite E. split; [exact F1|].
  intros x [<-|Hx]; [exact E|apply F2; exact Hx].
Qed.
Lemma link_first {A} (step : option linkage -> A -> linkage) a r :
  link_consistent step None (a :: r) = true ->
  link_fold step None (a :: r) = Some (step None a) /\ forall x, In x r -> step (Some (step None a)) x = step None a.
Proof. cbn [link_consistent link_fold andb]. apply link_fold_consistent. Qed.

Definition is_internal (s : list fundecl) : bool := match fun_linkage s with Some L_internal => true | _ => false end.

Lemma clears_all r : (forall x, In x r -> fun_link_step (Some L_external) (fd_sc x) = L_external) ->
  negb (existsb clears r) = forallb inline_no_extern r.
Proof.
  induction r as [|x r IH]; intros Hall; [reflexivity|]. cbn [existsb forallb].
  assert (Hx : clears x = negb (inline_no_extern x)).
  { specialize (Hall x (or_introl eq_refl)). unfold clears, clears_inline_def, inline_no_extern.
    destruct (fd_sc x), (fd_inl x); cbn in *; try reflexivity; discriminate. }
  rewrite Hx, <- IH by (intros y Hy; apply Hall; right; exact Hy). destruct (inline_no_extern x), (existsb clears r); reflexivity.
Qed.
(* is_static after all declarations = internal linkage or a mere inline definition, for every valid sequence (is_inline_def,
   /repo 85373f4) *)
Lemma static_model d1 s' : valid_funseq (d1 :: s') = true ->
  static_of (d1 :: s') = is_internal (d1 :: s') || inline_definition_only (d1 :: s').
Proof.
  intros V. unfold valid_funseq in V. apply andb_true_iff in V as [V _]. destruct (link_first _ d1 s' V) as [E Hall]. cbn beta in E, Hall.
  unfold is_internal, inline_definition_only, fun_linkage. rewrite E. unfold static_of, idef0, first_static. cbn [forallb].
  unfold inline_no_extern at 1.
  destruct (fd_sc d1) eqn:Esc, (fd_inl d1) eqn:Ei; cbn; [|reflexivity..].
  (* `inline` without a storage class first: an inline definition as long as no later declaration clears it *)
  apply clears_all. intros x Hx. specialize (Hall x Hx). cbn in Hall. exact Hall.
Qed.
Lemma skippable_model d1 s' : valid_funseq (d1 :: s') = true -> skippable (d1 :: s') = static_of (d1 :: s') && inline_of (d1 :: s').
Proof.
  intros V. rewrite (static_model d1 s' V). unfold skippable, is_internal, inline_of. rewrite andb_comm. reflexivity.
Qed.

(* a function with at most one body: what is said of the bodies is said of that one *)
Lemma body_of_filter s : body_of (filter has_body s) = body_of s.
Proof. unfold body_of. apply fold_left_filter. intros a d H. unfold has_body in H. destruct (fd_body d); [discriminate|reflexivity]. Qed.
Lemma one_body_of s : (length (filter has_body s) <= 1)%nat -> forall d b, In d s -> fd_body d = Some b -> body_of s = b.
Proof.
  intros H d b Hd Hb. rewrite <- body_of_filter.
  assert (Hin : In d (filter has_body s)) by (apply filter_In; split; [exact Hd|unfold has_body; rewrite Hb; reflexivity]).
  destruct (filter has_body s) as [|x [|y r]]; [contradiction| |cbn in H; lia].
  destruct Hin as [->|[]]. unfold body_of. cbn. rewrite Hb. reflexivity.
Qed.
Lemma all_funrefs_one ds s : (length (filter has_body s) <= 1)%nat -> all_funrefs ds s = funrefs (isf ds) (body_of s).
Proof.
  intros H. rewrite <- body_of_filter. unfold all_funrefs. rewrite (flat_map_filter _ has_body s).
  - destruct (filter has_body s) as [|x [|y r]]; [reflexivity| |cbn in H; lia].
    unfold body_of. cbn. destruct (fd_body x); [apply app_nil_r|reflexivity].
  - intros x _ Hx. unfold has_body in Hx. destruct (fd_body x); [discriminate|reflexivity].
Qed.

Lemma valid_objseq_cons d s : valid_objseq (d :: s) = true ->
  (forall x, In x (d :: s) -> o_tls x = o_tls d /\ o_size x = o_size d /\ o_align x = o_align d /\ o_array x = o_array d)
  /\ link_consistent (fun p x => obj_link_step p (o_sc x)) None (d :: s) = true
  /\ (length (filter is_real_def (d :: s)) <= 1)%nat
  /\ align_ok (d :: s) = true.
Proof.
  unfold valid_objseq. intros V. apply andb_true_iff in V as [V A]. apply andb_true_iff in V as [V _]. apply andb_true_iff in V as [V R].
  apply andb_true_iff in V as [T L]. apply Nat.leb_le in R. split; [|auto]. intros x Hx.
  apply (proj1 (forallb_forall _ _) T) in Hx. unfold od_same_type in Hx.
  apply andb_true_iff in Hx as [Hx T4]. apply andb_true_iff in Hx as [Hx T3]. apply andb_true_iff in Hx as [T1 T2].
  apply Bool.eqb_prop in T1, T4. apply Z.eqb_eq in T2, T3. auto.
Qed.
Lemma valid_funseq_parts s : valid_funseq s = true ->
  link_consistent (fun p x => fun_link_step p (fd_sc x)) None s = true /\ (length (filter has_body s) <= 1)%nat.
Proof. unfold valid_funseq. rewrite andb_true_iff, Nat.leb_le. tauto. Qed.

Lemma fold_max_attained l : forall i a0, (i <= a0)%Z -> (forall v, In v l -> (v <= a0)%Z) -> i = a0 \/ In a0 l -> fold_left Z.max l i = a0.
Proof.
  induction l as [|v r IH]; intros i a0 Hi Hl Hex; cbn [fold_left]; [destruct Hex as [H|[]]; exact H|].
  pose proof (Hl v (or_introl eq_refl)). apply IH; [lia|intros w Hw; apply Hl; right; exact Hw|].
  destruct Hex as [->|[->|H']]; [left; lia|left; lia|right; exact H'].
Qed.

(* alignment: what chibicc carries forward is the object's alignment at every defining declaration.
   ta: the type's alignment; a0: the one value all specifiers of a valid sequence have (ta when there is none);
   seen: a specifier stands further left.  What is carried is ta before the first specifier and a0 from there on;
   a declaration that defines the object does not stand before the first specifier (spec_positions), so it gets a0. *)
Lemma acc_objs_carried n ta a0 : (ta <= a0)%Z -> forall r,
  (forall x, In x r -> o_align x = ta /\ match o_alignas x with Some a => a = a0 | None => True end) ->
  forall seen prev, spec_positions seen r = true \/ a0 = ta ->
  (if seen then prev = Some a0 else prev = None \/ prev = Some ta) ->
  forall x, In x (acc_objs n prev r) -> exists od a, In od r /\ x = obj_of_decl n od a /\ (is_defining od = true -> a = a0).
Proof.
  intros Hle. induction r as [|d r IH]; intros Hr seen prev Hpos Hprev x Hx; [contradiction|].
  cbn [acc_objs] in Hx. destruct (Hr d (or_introl eq_refl)) as [Hta Hsp].
  set (seen' := seen || has_spec d).
  assert (Hnew : (if seen' then new_align d prev = a0 else new_align d prev = ta)).
  { unfold seen', has_spec, new_align. destruct (o_alignas d) as [a|].
    - rewrite orb_true_r. exact Hsp.
    - rewrite orb_false_r, Hta. destruct seen; [rewrite Hprev; lia|destruct Hprev as [-> | ->]; lia]. }
  destruct Hx as [<-|Hx].
  - exists d, (new_align d prev). split; [left; reflexivity|]. split; [reflexivity|]. intros He.
    destruct Hpos as [Hpos| ->].
    + cbn [spec_positions] in Hpos. fold seen' in Hpos. rewrite He in Hpos. cbn [negb orb] in Hpos. apply andb_true_iff in Hpos as [Hs _]. rewrite Hs in Hnew. exact Hnew.
    + destruct seen'; exact Hnew.
  - destruct (IH (fun y Hy => Hr y (or_intror Hy)) seen' (Some (new_align d prev))) with (x := x) as (od & a & Hin & E & Ha); [| |exact Hx|].
    + destruct Hpos as [Hpos|E]; [left|right; exact E]. cbn [spec_positions] in Hpos. fold seen' in Hpos. apply andb_true_iff in Hpos as [_ Hpos]. exact Hpos.
    + destruct seen'; [rewrite Hnew; reflexivity|right; rewrite Hnew; reflexivity].
    + exists od, a. split; [right; exact Hin|]. split; assumption.
Qed.

Lemma first_spec_cases s : match first_spec s with
                           | Some a0 => exists x, In x s /\ o_alignas x = Some a0
                           | None => forall x, In x s -> o_alignas x = None
                           end.
Proof.
  induction s as [|d r IH]; [intros x []|]. cbn [first_spec fold_right]. fold (first_spec r). destruct (o_alignas d) eqn:E.
  - exists d. split; [left; reflexivity|exact E].
  - destruct (first_spec r) as [a0|]; [destruct IH as (x & Hx & Ex); exists x; split; [right; exact Hx|exact Ex]|].
    intros x [<-|Hx]; [exact E|apply IH; exact Hx].
Qed.

Lemma acc_align_valid n d1 s' : valid_objseq (d1 :: s') = true ->
  forall x, In x (acc_objs n None (d1 :: s')) ->
  exists od a, In od (d1 :: s') /\ x = obj_of_decl n od a /\ (is_defining od = true -> a = obj_align (d1 :: s')).
Proof.
  intros V. destruct (valid_objseq_cons _ _ V) as (T & _ & _ & Va).
  assert (Hta : forall x, In x (d1 :: s') -> o_align x = o_align d1) by (intros x Hx; apply (T x Hx)).
  set (ta := o_align d1) in *. set (a0 := match first_spec (d1 :: s') with Some a => a | None => ta end).
  assert (H : (ta <= a0)%Z
              /\ (forall x, In x (d1 :: s') -> o_align x = ta /\ match o_alignas x with Some a => a = a0 | None => True end)
              /\ (spec_positions false (d1 :: s') = true \/ a0 = ta) /\ exists w, In w (d1 :: s') /\ decl_align w = a0).
  { unfold align_ok in Va. pose proof (first_spec_cases (d1 :: s')) as F. unfold a0. destruct (first_spec (d1 :: s')) as [a1|].
    - apply andb_true_iff in Va as [Vs Vp]. rewrite forallb_forall in Vs. destruct F as (w & Hw & Ew).
      pose proof (Vs w Hw) as Vw. rewrite Ew, (Hta w Hw) in Vw. apply andb_true_iff in Vw as [_ Vw]. apply Z.leb_le in Vw.
      split; [exact Vw|]. split; [|split; [left; exact Vp|exists w; split; [exact Hw|unfold decl_align; rewrite Ew; reflexivity]]].
      intros x Hx. split; [apply Hta; exact Hx|]. specialize (Vs x Hx). destruct (o_alignas x); [|exact I].
      apply andb_true_iff in Vs as [Vs _]. apply Z.eqb_eq. exact Vs.
    - split; [apply Z.le_refl|]. split; [|split; [right; reflexivity|exists d1; split; [left; reflexivity|unfold decl_align; rewrite (F d1 (or_introl eq_refl)); reflexivity]]].
      intros x Hx. split; [apply Hta; exact Hx|]. rewrite (F x Hx). exact I. }
  destruct H as (Hle & Hall & Hpos & w & Hw & Ew).
  assert (Hda : forall x, In x (d1 :: s') -> (decl_align x <= a0)%Z).
  { intros x Hx. destruct (Hall x Hx) as [H1 H2]. unfold decl_align. destruct (o_alignas x); lia. }
  assert (HA : obj_align (d1 :: s') = a0).
  { unfold obj_align. apply fold_max_attained; [apply Hda; left; reflexivity|intros v Hv; apply in_map_iff in Hv as (y & <- & Hy); apply Hda; right; exact Hy|].
    destruct Hw as [<-|Hw]; [left; exact Ew|right; rewrite <- Ew; apply in_map; exact Hw]. }
  rewrite HA. intros x Hx. apply (acc_objs_carried n ta a0 Hle (d1 :: s') Hall false None Hpos); [left; reflexivity|exact Hx].
Qed.

Definition to_func (g : nat) (o : obj) : func := {| f_name := g; f_root := ob_root o; f_refs := ob_refs o |}.
Lemma find_func_graph gs g : find_func (graph gs) g = option_map (to_func g) (find_fun g gs).
Proof.
  induction gs as [|o r IH]; [reflexivity|]. unfold graph in *. cbn [flat_map find_fun]. unfold is_fun_named at 1.
  destruct (ob_name o) as [m|k] eqn:En; cbn [ident_eqb].
  - destruct (ob_function o); cbn [andb app find_func f_name]; [|exact IH].
    rewrite (Nat.eqb_sym g m). destruct (Nat.eqb_spec m g) as [->|Hne]; [reflexivity|exact IH].
  - rewrite andb_false_r. exact IH.
Qed.
Lemma graph_In gs f : In f (graph gs) -> exists o, In o gs /\ is_fun_named (f_name f) o = true /\ f = to_func (f_name f) o.
Proof.
  unfold graph. rewrite in_flat_map. intros (o & Ho & Hf). exists o. split; [exact Ho|]. unfold is_fun_named.
  destruct (ob_name o) as [m|k]; [|contradiction]. destruct (ob_function o); [|contradiction]. destruct Hf as [<-|[]]. cbn. rewrite Nat.eqb_refl. auto.
Qed.

Section Main.
Variable ds : list decl.
Hypothesis Hvalid : valid ds = true.
Hypothesis HkbS : kb_extern_init_static ds = false.

Lemma V_parts : declared_before_use [] ds = true /\ kinds_exclusive ds = true
  /\ forallb (fun n => valid_objseq (objseq n ds) && valid_funseq (funseq n ds)) (map decl_name ds) = true.
Proof.
  unfold valid in Hvalid. apply andb_true_iff in Hvalid as [H _]. apply andb_true_iff in H as [H H3]. apply andb_true_iff in H as [H1 H2]. auto.
Qed.
Lemma V_seqs n : valid_objseq (objseq n ds) = true /\ valid_funseq (funseq n ds) = true.
Proof.
  destruct V_parts as (_ & _ & H). rewrite forallb_forall in H.
  destruct (in_dec Nat.eq_dec n (map decl_name ds)) as [Hn|Hn]; [apply andb_true_iff, H, Hn|].
  destruct (objseq n ds) eqn:Eo; [|exfalso; apply Hn, objseq_declared; rewrite Eo; discriminate].
  destruct (funseq n ds) eqn:Ef; [split; reflexivity|exfalso; apply Hn, funseq_declared; rewrite Ef; discriminate].
Qed.
Definition V_objseq n := proj1 (V_seqs n).
Definition V_funseq n := proj2 (V_seqs n).
Lemma V_kind n : funseq n ds <> [] -> objseq n ds = [].
Proof.
  intros Hf. destruct V_parts as (_ & H & _). unfold kinds_exclusive in H. rewrite forallb_forall in H.
  specialize (H n (funseq_declared n ds Hf)). destruct (funseq n ds); [contradiction|]. destruct (objseq n ds); [reflexivity|discriminate].
Qed.
Lemma V_kbS n od : In od (objseq n ds) -> sc_eqb (o_sc od) SC_extern = true -> has_init (o_init od) = true ->
  obj_linkage (objseq n ds) <> Some L_internal.
Proof.
  intros Hin He Hi El. assert (Hx : kb_extern_init_static ds = true).
  { apply existsb_exists. exists n. split; [apply objseq_declared; intros E; rewrite E in Hin; contradiction|].
    unfold kb_extern_init_static_seq. rewrite El. rewrite andb_true_r. apply existsb_exists. exists od. split; [exact Hin|rewrite He, Hi; reflexivity]. }
  rewrite Hx in HkbS. discriminate.
Qed.

Lemma is_fun_name_iff n : is_fun_name ds n = true <-> funseq n ds <> [].
Proof. unfold is_fun_name. destruct (funseq n ds); split; intros H; try discriminate; try contradiction; reflexivity. Qed.

Lemma V_same_type n d1 s' od : objseq n ds = d1 :: s' -> In od (d1 :: s') ->
  o_tls od = o_tls d1 /\ o_size od = o_size d1 /\ o_align od = o_align d1 /\ o_array od = o_array d1.
Proof. intros E. pose proof (V_objseq n) as V. rewrite E in V. apply (valid_objseq_cons _ _ V). Qed.
Lemma V_one_body g : (length (filter has_body (funseq g ds)) <= 1)%nat.
Proof. apply valid_funseq_parts, V_funseq. Qed.

Lemma V_declared d t : In d ds -> uses d t -> In t (map decl_name ds).
Proof. intros Hd Ht. destruct (dbu_declared ds [] d t (proj1 V_parts) Hd Ht) as [H|[]]. exact H. Qed.

(* 6.6p9: the address of a thread-local object is not an address constant *)
Lemma kt_addr n : addr_taken_at_file_scope ds n = true -> snd (kt ds n) = false.
Proof.
  intros H. unfold kt. destruct (is_fun_name ds n); [reflexivity|]. cbn [snd]. apply addr_taken_iff in H as (m & od & Hd & Hi).
  pose proof Hvalid as V. unfold valid in V. apply andb_true_iff in V as [_ V]. rewrite forallb_forall in V. specialize (V _ Hd). cbn in V.
  rewrite Hi in V. apply negb_true_iff. exact V.
Qed.

Lemma decl_body g sc il fsz b : In (DFun g sc il fsz (Some b)) ds ->
  funseq g ds <> [] /\ body_of (funseq g ds) = b /\ existsb has_body (funseq g ds) = true.
Proof.
  intros Hin. assert (Hs : In (mkFD sc il (Some b)) (funseq g ds)) by (apply funseq_In; exists fsz; exact Hin).
  split; [intros E; rewrite E in Hs; contradiction|]. split.
  - apply (one_body_of _ (V_one_body g) _ b Hs). reflexivity.
  - apply existsb_exists. exists (mkFD sc il (Some b)). split; [exact Hs|reflexivity].
Qed.
Lemma body_decl g : existsb has_body (funseq g ds) = true ->
  exists sc il fsz b, In (DFun g sc il fsz (Some b)) ds /\ body_of (funseq g ds) = b.
Proof.
  intros H. apply existsb_exists in H as ([sc il [b|]] & Hd & Hb); [|discriminate].
  apply funseq_In in Hd as (fsz & Hd). exists sc, il, fsz, b. split; [exact Hd|]. apply (decl_body g sc il fsz b Hd).
Qed.

Lemma V_dok : Forall (dok ds) ds.
Proof.
  apply Forall_forall. intros d Hd. destruct d as [n od|n sc il fsz b]; cbn [dok].
  - assert (Hos : In od (objseq n ds)) by (apply objseq_In; exact Hd).
    assert (Hnf : is_fun_name ds n = false).
    { destruct (is_fun_name ds n) eqn:Ef; [|reflexivity]. apply is_fun_name_iff in Ef. rewrite (V_kind n Ef) in Hos. contradiction. }
    split; [exact Hnf|]. unfold obj_tls_of. destruct (objseq n ds) as [|d1 s'] eqn:Es; [contradiction|]. apply (V_same_type n d1 s' od Es Hos).
  - apply is_fun_name_iff. intros E. assert (H : In (mkFD sc il b) (funseq n ds)) by (apply funseq_In; exists fsz; exact Hd). rewrite E in H. exact H.
Qed.

Definition G : list obj := ps_globals (parse ds).
Lemma G_fun g : fun_view ds (addr_taken_at_file_scope ds g) g (funseq g ds) (view (KFun g) G).
Proof. exact (parse_fun ds g V_dok (proj1 V_parts)). Qed.

Lemma fun_obj g d1 s' : funseq g ds = d1 :: s' ->
  exists b, view (KFun g) G = [fobj g (d1 :: s') (addr_taken_at_file_scope ds g) (all_funrefs ds (d1 :: s')) b] /\ body_ok (kt ds) (body_of (d1 :: s')) b.
Proof. intros E. pose proof (G_fun g) as H. rewrite E in H. exact H. Qed.
Lemma no_fun_obj g : funseq g ds = [] -> view (KFun g) G = [].
Proof. intros E. pose proof (G_fun g) as H. rewrite E in H. exact H. Qed.

(* mark_live runs on `graph G`; the node of g in that graph, in terms of the declarations *)
Definition spec_func (g : nat) : func :=
  {| f_name := g; f_root := negb (skippable (funseq g ds)) || addr_taken_at_file_scope ds g; f_refs := funrefs (isf ds) (body_of (funseq g ds)) |}.
Lemma to_func_spec g d1 s' b : funseq g ds = d1 :: s' -> to_func g (fobj g (d1 :: s') (addr_taken_at_file_scope ds g) (all_funrefs ds (d1 :: s')) b) = spec_func g.
Proof.
  intros E. unfold to_func, spec_func, fobj. cbn [ob_root ob_refs]. pose proof (V_funseq g) as V. rewrite E in V |- *.
  rewrite all_funrefs_one, <- (skippable_model d1 s' V) by apply (valid_funseq_parts _ V). reflexivity.
Qed.
Lemma find_func_G g : find_func (graph G) g = if is_fun_name ds g then Some (spec_func g) else None.
Proof.
  rewrite find_func_graph, find_fun_filter. unfold is_fun_name.
  destruct (funseq g ds) as [|d1 s'] eqn:E; [rewrite (no_fun_obj g E); reflexivity|].
  destruct (fun_obj g d1 s' E) as (b & -> & _). cbn [hd_error option_map]. rewrite (to_func_spec g d1 s' b E). reflexivity.
Qed.
(* and every node of the graph is such a node: `globals` has one function object per declared function *)
Lemma graph_node f : In f (graph G) -> is_fun_name ds (f_name f) = true /\ f = spec_func (f_name f).
Proof.
  intros Hf. apply graph_In in Hf as (o & Ho & Hn & ->). cbn [to_func f_name].
  assert (Hin : In o (view (KFun (f_name f)) G)) by (apply filter_In; split; assumption). unfold is_fun_name.
  destruct (funseq (f_name f) ds) as [|d1 s'] eqn:E; [rewrite (no_fun_obj _ E) in Hin; contradiction|].
  destruct (fun_obj _ d1 s' E) as (b & Efo & _). rewrite Efo in Hin. destruct Hin as [<-|[]]. split; [reflexivity|]. exact (to_func_spec _ d1 s' b E).
Qed.

Lemma funrefs_In m items : In m (funrefs (isf ds) items) <-> existsb (refs_item m) items = true /\ is_fun_name ds m = true.
Proof.
  unfold funrefs. rewrite in_flat_map, existsb_exists. split.
  - intros (i & Hi & Hm). destruct i as [x| |]; try contradiction. unfold isf, kt in Hm. destruct (is_fun_name ds x) eqn:Ef; cbn in Hm; [|contradiction].
    destruct Hm as [<-|[]]. split; [exists (BRef x); split; [exact Hi|apply Nat.eqb_refl]|exact Ef].
  - intros ((i & Hi & Hm) & Ef). destruct i as [x| |]; try discriminate. cbn in Hm. apply Nat.eqb_eq in Hm. subst x.
    exists (BRef m). split; [exact Hi|]. unfold isf, kt. rewrite Ef. left. reflexivity.
Qed.

Lemma emitted_is_fun n : emitted_fun ds n -> is_fun_name ds n = true.
Proof. intros H. destruct H; assumption. Qed.

Lemma root_reach n : is_fun_name ds n = true -> skippable (funseq n ds) = false \/ addr_taken_at_file_scope ds n = true -> reach (graph G) [] n.
Proof.
  intros Hf Hs. pose proof (find_func_G n) as Hfind. rewrite Hf in Hfind. apply find_func_in in Hfind as [Hin _].
  apply (reach_root _ _ _ Hin). cbn [spec_func f_root]. destruct Hs as [-> | ->]; [reflexivity|apply orb_true_r].
Qed.

Theorem reach_iff_emitted m : reach (graph G) [] m <-> emitted_fun ds m.
Proof.
  split.
  - intros H. induction H as [n []|f Hf Hr|n f u Hn IH Hfind Hu (g & Hg)].
    + destruct (graph_node f Hf) as [Hfn Ef]. rewrite Ef in Hr. cbn [spec_func f_root] in Hr.
      apply orb_true_iff in Hr as [Hr|Hr]; [apply em_always; [exact Hfn|apply negb_true_iff; exact Hr]|apply em_addr; assumption].
    + rewrite find_func_G, (emitted_is_fun n IH) in Hfind. injection Hfind as <-. cbn [spec_func f_refs] in Hu.
      apply funrefs_In in Hu as [Hu Hfu]. apply (em_ref ds n u IH Hu Hfu).
  - intros H. induction H as [n Hf Hs|n Hf Ha|g n Hg IH Hb Hf].
    + apply root_reach; [exact Hf|left; exact Hs].
    + apply root_reach; [exact Hf|right; exact Ha].
    + eapply reach_ref; [exact IH|rewrite find_func_G, (emitted_is_fun g Hg); reflexivity| |rewrite find_func_G, Hf; eexists; reflexivity].
      cbn [spec_func f_refs]. apply funrefs_In. split; assumption.
Qed.

Theorem model_live_iff m : model_live G m = true <-> emitted_fun ds m.
Proof.
  unfold model_live. rewrite existsb_nat_In. split.
  - intros H. apply reach_iff_emitted. apply live_set_sound. exact H.
  - intros H. apply live_set_reach, reach_iff_emitted, H.
Qed.

Lemma model_live_eq live m : live_ok ds live -> model_live G m = live m.
Proof.
  intros L. destruct (live m) eqn:E.
  - apply model_live_iff. apply L. exact E.
  - destruct (model_live G m) eqn:E2; [|reflexivity]. apply model_live_iff in E2. apply L in E2. congruence.
Qed.

(* from here on `live` is any decision procedure for emitted_fun *)
Variable live : nat -> bool.
Hypothesis Hlive : live_ok ds live.
Variable o : opts.

(* `referenced`, read on the declaration sequences (a valid unit gives a function one body) *)
Lemma referenced_iff n : referenced live ds n = true <->
  addr_taken_at_file_scope ds n = true
  \/ exists g, live g = true /\ existsb has_body (funseq g ds) = true /\ existsb (refs_item n) (body_of (funseq g ds)) = true.
Proof.
  unfold referenced, addr_taken_at_file_scope. rewrite (existsb_exists _ ds), (existsb_exists _ ds). split.
  - intros ([m od|g sc il fsz [b|]] & Hd & H); [left; exists (DObj m od); auto|right|discriminate].
    apply andb_true_iff in H as [Hl Hb]. destruct (decl_body g sc il fsz b Hd) as (_ & Eb & Hhb). exists g. rewrite Eb. auto.
  - intros [([m od|] & Hd & H)|(g & Hl & Hhb & Hb)]; [exists (DObj m od); auto|discriminate|].
    destruct (body_decl g Hhb) as (sc & il & fsz & b & Hd & Eb). exists (DFun g sc il fsz (Some b)). split; [exact Hd|]. rewrite Hl, <- Eb. exact Hb.
Qed.

Lemma referenced_declared n : referenced live ds n = true -> In n (map decl_name ds).
Proof.
  intros H. apply referenced_iff in H as [H|(g & _ & Hhb & Hb)].
  - apply addr_taken_iff in H as (m & od & Hd & Ei). apply (V_declared (DObj m od) n Hd Ei).
  - destruct (body_decl g Hhb) as (sc & il & fsz & b & Hd & Eb). rewrite Eb in Hb. apply existsb_exists in Hb as ([m| |] & Hi & Hm); try discriminate.
    apply Nat.eqb_eq in Hm. subst m. apply (V_declared _ n Hd). exists b. auto.
Qed.

Lemma referenced_fun_live n : is_fun_name ds n = true -> referenced live ds n = true -> live n = true.
Proof.
  intros Hf H. apply Hlive. apply referenced_iff in H as [H|(g & Hl & _ & Hb)]; [apply em_addr; assumption|].
  apply Hlive in Hl. apply (em_ref ds g n Hl Hb Hf).
Qed.

Let M := mark G.
Let prog := parse_flags ds.

Lemma prog_M x : In x prog -> In x M. Proof. apply scan_globals_In. Qed.

Lemma M_obj n : view (KObj n) M = rev (acc_objs n None (objseq n ds)).
Proof. unfold M. rewrite view_mark. exact (parse_obj ds n V_dok). Qed.

Lemma prog_nt : filter nt prog = filter nt M. Proof. apply real_definitions_kept. Qed.
Lemma nt_in_prog x : In x M -> ob_tentative x = false -> In x prog.
Proof.
  intros Hx Ht. assert (H : In x (filter nt M)) by (apply filter_In; split; [exact Hx|unfold nt; rewrite Ht; reflexivity]).
  rewrite <- prog_nt in H. apply filter_In in H as [H _]. exact H.
Qed.

Lemma prog_funs g : view (KFun g) prog = map (set_live (live g)) (view (KFun g) G).
Proof.
  unfold prog, parse_flags. fold G. rewrite view_scan, view_mark; [rewrite (model_live_eq live g Hlive); reflexivity|].
  intros x Hx. rewrite view_mark in Hx. apply in_map_iff in Hx as (fo & <- & Hfo). cbn [set_live ob_tentative].
  destruct (funseq g ds) as [|d1 s'] eqn:E; [rewrite (no_fun_obj g E) in Hfo; contradiction|].
  destruct (fun_obj g d1 s' E) as (b & E' & _). rewrite E' in Hfo. destruct Hfo as [<-|[]]. reflexivity.
Qed.
Lemma prog_fun_obj g d1 s' : funseq g ds = d1 :: s' ->
  exists b, view (KFun g) prog = [set_live (live g) (fobj g (d1 :: s') (addr_taken_at_file_scope ds g) (all_funrefs ds (d1 :: s')) b)] /\ body_ok (kt ds) (body_of (d1 :: s')) b.
Proof. intros E. destruct (fun_obj g d1 s' E) as (b & Ef & FB). exists b. rewrite prog_funs, Ef. split; [reflexivity|exact FB]. Qed.
Lemma prog_no_fun g : funseq g ds = [] -> view (KFun g) prog = [].
Proof. intros E. rewrite prog_funs, (no_fun_obj g E). reflexivity. Qed.

(* what is handed to codegen, by kind: an object made by an object declaration, the marked function object of a declared
   function, an anonymous object *)
Lemma prog_cases x : In x prog ->
  match kind_of x with
  | KObj n => exists od a, In (DObj n od) ds /\ x = obj_of_decl n od a
  | KFun g => exists d1 s' b, funseq g ds = d1 :: s' /\ x = set_live (live g) (fobj g (d1 :: s') (addr_taken_at_file_scope ds g) (all_funrefs ds (d1 :: s')) b) /\ body_ok (kt ds) (body_of (d1 :: s')) b
  | KAnon => anon_def x
  end.
Proof.
  intros Hx. apply In_view in Hx. destruct (kind_of x) as [n|g|].
  - apply filter_In in Hx as [Hx Hk]. assert (H : In x (view (KObj n) M)) by (apply filter_In; split; [apply prog_M; exact Hx|exact Hk]).
    rewrite M_obj in H. apply in_rev in H. destruct (acc_objs_In n _ _ x H) as (od & a & Hin & E). exists od, a. split; [apply objseq_In; exact Hin|exact E].
  - destruct (funseq g ds) as [|d1 s'] eqn:E; [rewrite (prog_no_fun g E) in Hx; contradiction|].
    destruct (prog_fun_obj g d1 s' E) as (b & Efo & FB). rewrite Efo in Hx. destruct Hx as [<-|[]]. exists d1, s', b. auto.
  - unfold prog in Hx. rewrite anon_prog in Hx. apply in_rev in Hx. apply (unit_anons_def ds 0 x Hx).
Qed.

(* the references to n in the output, by their tls flag: the second argument of `look` in symtab_closed_form *)
Definition rs (n : nat) : list bool := flat_map (data_refs (fcommon o) prog (User n)) prog ++ flat_map (text_refs (User n)) prog.

Lemma refs_sound n t : In t (rs n) -> t = snd (kt ds n) /\ referenced live ds n = true.
Proof.
  unfold rs. intros H. apply in_app_or in H as [H|H]; apply in_flat_map in H as (x & Hx & Ht).
  - (* data: only an object declaration leaves a relocation *)
    unfold data_refs in Ht. destruct (emits_data prog x && negb (fcommon o && ob_tentative x && negb (ob_tls x)) && ob_init x); [|contradiction].
    destruct (ob_rel x) as [t'|] eqn:Er; [|contradiction]. cbn [ident_eqb] in Ht. destruct (Nat.eqb_spec n t') as [<-|]; [|contradiction].
    destruct Ht as [<-|[]].
    pose proof (prog_cases x Hx) as C. destruct (kind_of x) as [m|g|].
    2: destruct C as (d1 & s' & b & _ & -> & _); discriminate Er.
    2: destruct C as (_ & _ & _ & _ & Hr); congruence.
    destruct C as (od & a & Hin & ->).
    cbn in Er. destruct (o_init od) as [| |t'] eqn:Ei; try discriminate. injection Er as ->.
    assert (Ha : addr_taken_at_file_scope ds n = true) by (apply addr_taken_iff; exists m, od; auto).
    split; [symmetry; apply kt_addr; exact Ha|apply referenced_iff; left; exact Ha].
  - unfold text_refs in Ht. destruct (emits_text x) eqn:Ee; [|contradiction]. unfold emits_text in Ee.
    apply andb_true_iff in Ee as [Ee El]. apply andb_true_iff in Ee as [Ef Ed].
    pose proof (prog_cases x Hx) as C. unfold kind_of in C. destruct (ob_name x) as [g|k]; [rewrite Ef in C|destruct C as (_ & Hf & _); congruence].
    destruct C as (d1 & s' & b & E & -> & FB).
    cbn [set_live fobj ob_body ob_definition ob_live] in *.
    apply FB in Ht as [-> Hb]. split; [reflexivity|].
    apply referenced_iff. right. exists g. rewrite E. auto.
Qed.

Lemma decl_obj_in_M m od : In (DObj m od) ds -> exists a, In (obj_of_decl m od a) M.
Proof.
  intros Hd. destruct (acc_objs_In_conv m (objseq m ds) od None (proj2 (objseq_In m ds od) Hd)) as (a & Ha). exists a.
  assert (H : In (obj_of_decl m od a) (view (KObj m) M)) by (rewrite M_obj, <- in_rev; exact Ha).
  apply filter_In in H as [H _]. exact H.
Qed.

Lemma refs_complete n : referenced live ds n = true -> rs n <> [].
Proof.
  intros H. assert (Hne : forall t, In t (rs n) -> rs n <> []) by (intros t Ht E; rewrite E in Ht; contradiction).
  apply referenced_iff in H as [H|(g & Hl & Hhb & Hb)].
  - apply addr_taken_iff in H as (m & od & Hd & Ei). destruct (decl_obj_in_M m od Hd) as (a & HM).
    apply (Hne false). unfold rs. apply in_or_app. left. apply in_flat_map. exists (obj_of_decl m od a).
    split; [apply nt_in_prog; [exact HM|cbn; rewrite Ei; reflexivity]|].
    unfold data_refs, emits_data, owner_live. cbn [obj_of_decl ob_function ob_definition ob_tentative ob_tls ob_init ob_rel ob_owner].
    rewrite Ei. cbn [has_init negb andb]. rewrite orb_true_r. cbn [negb andb].
    rewrite andb_false_r. cbn [negb andb ident_eqb]. rewrite Nat.eqb_refl. left. reflexivity.
  - destruct (funseq g ds) as [|d1 s'] eqn:E; [discriminate|].
    destruct (prog_fun_obj g d1 s' E) as (b & Efo & FB). set (fo := fobj _ _ _ _ _) in Efo.
    apply (Hne (snd (kt ds n))). unfold rs. apply in_or_app. right. apply in_flat_map. exists (set_live (live g) fo). split.
    + assert (Hin : In (set_live (live g) fo) (view (KFun g) prog)) by (rewrite Efo; left; reflexivity). apply filter_In in Hin as [Hin _]. exact Hin.
    + unfold text_refs, emits_text, fo. cbn [set_live fobj ob_function ob_definition ob_live ob_body].
      rewrite Hhb, Hl. cbn [andb]. apply FB. split; [reflexivity|exact Hb].
Qed.

Definition Dc (n : nat) : list event := flat_map (fun x => if same_name (User n) x then data_core (fcommon o) prog x else []) prog.
Definition Tc (n : nat) : list event := flat_map (fun x => if same_name (User n) x then text_core x else []) prog.

Lemma lookup_form n : symtab_of (emit o prog) n = look (User n) (Dc n ++ Tc n) (rs n).
Proof. unfold symtab_of. apply symtab_closed_form. Qed.

Lemma look_nodef n :
  look (User n) [] (rs n) =
  if referenced live ds n then Present (mkEntry B_global (if snd (kt ds n) then T_tls else T_notype) P_undef None None) else Absent.
Proof.
  unfold look. cbn [ev_defs filter]. destruct (rs n) as [|t l] eqn:E.
  - destruct (referenced live ds n) eqn:R; [|reflexivity]. exfalso. apply (refs_complete n R). exact E.
  - assert (Ht : In t (rs n)) by (rewrite E; left; reflexivity). destruct (refs_sound n t Ht) as [_ R]. rewrite R.
    rewrite (existsb_all_eq (snd (kt ds n)) (t :: l)); [reflexivity| |discriminate].
    intros u Hu. rewrite <- E in Hu. apply (refs_sound n u Hu).
Qed.

Lemma Dc_fun n : objseq n ds = [] -> Dc n = [].
Proof.
  intros E. unfold Dc. apply flat_map_nil. intros x Hx. destruct (same_name (User n) x) eqn:Hn; [|reflexivity].
  unfold data_core, emits_data. destruct (ob_function x) eqn:Hf; [reflexivity|]. exfalso.
  assert (H : In x (view (KObj n) M)) by (apply filter_In; split; [apply prog_M; exact Hx|cbn [has_kind]; unfold objP; rewrite Hn, Hf; reflexivity]).
  rewrite M_obj, E in H. exact H.
Qed.
Lemma Tc_filter n : Tc n = flat_map (fun x => if same_name (User n) x then text_core x else []) (view (KFun n) prog).
Proof.
  apply flat_map_filter. intros x _ Hn. destruct (same_name (User n) x) eqn:Hs; [|reflexivity]. unfold same_name in Hs.
  cbn [has_kind] in Hn. unfold is_fun_named in Hn. rewrite Hs, andb_true_r in Hn. unfold text_core, emits_text. rewrite Hn. reflexivity.
Qed.
Lemma Tc_obj n : funseq n ds = [] -> Tc n = [].
Proof. intros E. rewrite Tc_filter, (prog_no_fun n E). reflexivity. Qed.
Lemma Tc_fun n d1 s' : funseq n ds = d1 :: s' ->
  exists b, Tc n = text_core (set_live (live n) (fobj n (d1 :: s') (addr_taken_at_file_scope ds n) (all_funrefs ds (d1 :: s')) b)).
Proof.
  intros E. destruct (prog_fun_obj n d1 s' E) as (b & Efo & _). exists b.
  rewrite Tc_filter, Efo. cbn [flat_map]. rewrite app_nil_r. unfold same_name. cbn [set_live fobj ob_name]. rewrite ident_eqb_refl. reflexivity.
Qed.

Lemma look_text n b l : look (User n) [EBind (User n) b; EType (User n) T_func; EDef (User n) P_text None] l = Present (mkEntry b T_func P_text None None).
Proof. unfold look, ev_defs, ev_stype, ev_binding, ev_size. cbn. rewrite Nat.eqb_refl. reflexivity. Qed.

Theorem entry_of_function n d1 s' : funseq n ds = d1 :: s' -> symtab_of (emit o prog) n = to_result (spec_entry live ds o n).
Proof.
  intros E. assert (Eo : objseq n ds = []) by (apply V_kind; rewrite E; discriminate).
  assert (Hfn : is_fun_name ds n = true) by (unfold is_fun_name; rewrite E; reflexivity).
  assert (Hkt : snd (kt ds n) = false) by (unfold kt; rewrite Hfn; reflexivity).
  rewrite lookup_form, (Dc_fun n Eo). cbn [app]. destruct (Tc_fun n d1 s' E) as (b & ->).
  unfold spec_entry. rewrite E. cbn [fun_entry]. change (has_body d1 || existsb has_body s') with (existsb has_body (d1 :: s')).
  pose proof (V_funseq n) as V. rewrite E in V.
  pose proof (static_model d1 s' V) as SM. destruct (link_first _ d1 s' (proj1 (valid_funseq_parts _ V))) as [LF _]. cbn beta in LF. fold (fun_linkage (d1 :: s')) in LF.
  unfold text_core, emits_text. cbn [set_live fobj ob_function ob_definition ob_live ob_name ob_static andb].
  destruct (existsb has_body (d1 :: s')) eqn:Hb; cbn [andb].
  - destruct (live n) eqn:Hl.
    + rewrite look_text. rewrite SM. unfold is_internal. rewrite LF. destruct (fun_link_step None (fd_sc d1)); cbn [orb]; [|reflexivity].
      destruct (inline_definition_only (d1 :: s')); reflexivity.
    + rewrite look_nodef. destruct (referenced live ds n) eqn:R; [rewrite (referenced_fun_live n Hfn R) in Hl; discriminate|].
      rewrite LF. destruct (fun_link_step None (fd_sc d1)) eqn:Ek; [|reflexivity]. destruct (inline_definition_only (d1 :: s')) eqn:Ei; [reflexivity|].
      exfalso. assert (Hem : emitted_fun ds n).
      { apply em_always; [exact Hfn|]. rewrite E. unfold skippable. rewrite LF, Ei. apply andb_false_r. }
      apply Hlive in Hem. congruence.
  - rewrite look_nodef, Hkt. destruct (referenced live ds n); reflexivity.
Qed.

Theorem entry_of_undeclared n : funseq n ds = [] -> objseq n ds = [] -> symtab_of (emit o prog) n = to_result (spec_entry live ds o n).
Proof.
  intros Ef Eo. rewrite lookup_form, (Dc_fun n Eo), (Tc_obj n Ef). cbn [app]. rewrite look_nodef.
  unfold spec_entry. rewrite Ef, Eo. cbn [obj_entry to_result]. destruct (referenced live ds n) eqn:R; [|reflexivity].
  exfalso. destruct (declared_cases ds n (referenced_declared n R)) as [H|H]; contradiction.
Qed.

Section Obj.
Variable n : nat.
Variable od1 : objdecl.
Variable os' : list objdecl.
Hypothesis Eo : objseq n ds = od1 :: os'.
Hypothesis Ef : funseq n ds = [].

Let k := obj_link_step None (o_sc od1).
Let A := obj_align (od1 :: os').
Let al := abi_align (o_array od1) (o_size od1) A.
Let hasreal := existsb is_real_def (od1 :: os').
Let hastent := existsb is_tentative_def (od1 :: os').

Lemma Vseq : valid_objseq (od1 :: os') = true.
Proof. rewrite <- Eo. apply V_objseq. Qed.

Lemma obj_link : obj_linkage (od1 :: os') = Some k /\ forall x, In x os' -> obj_link_step (Some k) (o_sc x) = k.
Proof. destruct (valid_objseq_cons _ _ Vseq) as (_ & V & _). apply (link_first _ od1 os' V). Qed.
Lemma sc_static od : In od (od1 :: os') -> is_defining od = true -> sc_eqb (o_sc od) SC_static = lk_eqb k L_internal.
Proof.
  intros Hin Hd. destruct (sc_eqb (o_sc od) SC_extern) eqn:He.
  - (* `extern` with an initializer: global; the linkage is not internal (kb_extern_init_static) *)
    unfold is_defining in Hd. rewrite He in Hd. cbn in Hd.
    pose proof (V_kbS n od) as K. rewrite Eo in K. specialize (K Hin He Hd). destruct obj_link as [L1 _]. rewrite L1 in K.
    destruct (o_sc od); try discriminate. destruct k; [reflexivity|contradiction K; reflexivity].
  - destruct Hin as [<-|Hin].
    + unfold k. destruct (o_sc od1); try discriminate; reflexivity.
    + destruct obj_link as [_ L2]. specialize (L2 od Hin). destruct (o_sc od); try discriminate; cbn in L2; rewrite <- L2; reflexivity.
Qed.

(* data_core of an object that a defining declaration of n made; hi: the declaration has an initializer *)
Definition dc (hi : bool) : list event :=
  EBind (User n) (if lk_eqb k L_internal then B_local else B_global) ::
  if fcommon o && negb hi && negb (o_tls od1) then [EComm (User n) (o_size od1) al]
  else [EType (User n) T_object; ESize (User n) (o_size od1);
        EDef (User n) (if hi then (if o_tls od1 then P_tdata else P_data) else (if o_tls od1 then P_tbss else P_bss)) (Some al)].

Lemma data_core_decl od : In od (od1 :: os') -> is_defining od = true ->
  data_core (fcommon o) prog (obj_of_decl n od A) = dc (has_init (o_init od)).
Proof.
  intros Hin Hd. destruct (V_same_type n od1 os' od Eo Hin) as (T1 & T2 & T3 & T4).
  unfold data_core, emits_data, owner_live, data_place, eff_align, dc, al, abi_align.
  cbn [obj_of_decl ob_name ob_function ob_definition ob_static ob_tentative ob_tls ob_init ob_size ob_align ob_array ob_owner].
  unfold is_defining in Hd. rewrite Hd, (sc_static od Hin Hd), T1, T2, T4. cbn [negb andb].
  destruct (has_init (o_init od)) eqn:Hi; cbn [negb andb]; [reflexivity|].
  rewrite orb_false_r in Hd. apply negb_true_iff in Hd. rewrite Hd. reflexivity.
Qed.

Lemma decl_in od : In od (od1 :: os') -> In (DObj n od) ds.
Proof. intros H. apply objseq_In. rewrite Eo. exact H. Qed.

(* no function is called n, so what carries the name n in M is the list of objects made by the declarations of n *)
Lemma named_is_obj x : In x M -> same_name (User n) x = true -> objP n x = true.
Proof.
  intros Hx Hn. unfold objP. rewrite Hn. destruct (ob_function x) eqn:Hf; [|reflexivity]. exfalso.
  assert (H : In x (view (KFun n) M)) by (apply filter_In; split; [exact Hx|cbn [has_kind]; unfold is_fun_named; rewrite Hf; exact Hn]).
  unfold M in H. rewrite view_mark, (no_fun_obj n Ef) in H. contradiction.
Qed.
Lemma named_obj x : In x prog -> same_name (User n) x = true ->
  exists od a, In od (od1 :: os') /\ x = obj_of_decl n od a /\ (is_defining od = true -> a = A).
Proof.
  intros Hx Hn. apply prog_M in Hx.
  assert (H : In x (view (KObj n) M)) by (apply filter_In; split; [exact Hx|apply named_is_obj; assumption]).
  rewrite M_obj, Eo in H. apply in_rev in H. apply (acc_align_valid n od1 os' Vseq x H).
Qed.
(* so a property of objects named n is counted on the declarations *)
Lemma count_M (P : obj -> bool) (Q : objdecl -> bool) :
  (forall d a, P (obj_of_decl n d a) = Q d) -> (forall x, P x = true -> same_name (User n) x = true) ->
  length (filter P M) = length (filter Q (od1 :: os')).
Proof.
  intros H1 H2. rewrite (filter_filter_sub P (has_kind (KObj n)) M); [fold (view (KObj n) M); rewrite M_obj, Eo; apply acc_filter_len; exact H1|].
  intros x Hx Hp. apply named_is_obj; [exact Hx|apply H2; exact Hp].
Qed.

Lemma has_real_M : has_real M (User n) = hasreal.
Proof.
  unfold has_real, hasreal. rewrite !existsb_filter_length. do 2 f_equal. apply count_M.
  - intros d a. unfold realP, same_name, is_real_def. cbn [obj_of_decl ob_definition ob_tentative ob_name ident_eqb]. rewrite Nat.eqb_refl.
    destruct (has_init (o_init d)), (sc_eqb (o_sc d) SC_extern); reflexivity.
  - intros x H. apply andb_true_iff in H as [_ H]. exact H.
Qed.
Lemma cnt_M : tent_count (User n) M = length (filter is_tentative_def (od1 :: os')).
Proof.
  apply count_M.
  - intros d a. unfold tent_named, same_name, is_tentative_def. cbn [obj_of_decl ob_tentative ob_name ident_eqb]. rewrite Nat.eqb_refl. apply andb_true_r.
  - intros x H. apply andb_true_iff in H as [_ H]. exact H.
Qed.

Lemma cnt_prog : tent_count (User n) prog = if hasreal then 0%nat else if hastent then 1%nat else 0%nat.
Proof.
  change prog with (scan_globals M). rewrite tentative_merged, has_real_M, cnt_M. destruct hasreal; [reflexivity|]. unfold hastent. rewrite existsb_filter_length.
  destruct (Nat.eqb _ 0); reflexivity.
Qed.

Definition Dn (x : obj) : bool := same_name (User n) x && emits_data prog x.

Lemma count_defs : length (filter Dn prog) = if hasreal then 1%nat else if hastent then 1%nat else 0%nat.
Proof.
  rewrite (filter_length_split Dn ob_tentative prog).
  assert (E1 : length (filter (fun x => Dn x && negb (ob_tentative x)) prog) = if hasreal then 1%nat else 0%nat).
  { change (fun x => Dn x && negb (ob_tentative x)) with (fun x => Dn x && nt x). rewrite filter_andb, prog_nt, <- filter_andb.
    rewrite (count_M _ is_real_def).
    - apply length_filter_le1, (valid_objseq_cons _ _ Vseq).
    - intros od a. unfold Dn, nt, same_name, emits_data, owner_live, is_real_def. cbn [obj_of_decl ob_name ob_function ob_definition ob_tentative ob_owner ident_eqb].
      rewrite Nat.eqb_refl. cbn [negb andb]. destruct (has_init (o_init od)), (sc_eqb (o_sc od) SC_extern); reflexivity.
    - intros x H. apply andb_true_iff in H as [H _]. apply andb_true_iff in H as [H _]. exact H. }
  assert (E2 : length (filter (fun x => Dn x && ob_tentative x) prog) = tent_count (User n) prog).
  { unfold tent_count. f_equal. apply filter_ext_in. intros x Hx. unfold Dn, tent_named. destruct (same_name (User n) x) eqn:Hn; [|rewrite andb_false_r; reflexivity].
    destruct (ob_tentative x) eqn:Ht; [|rewrite andb_false_r; reflexivity]. cbn [andb]. rewrite andb_true_r.
    destruct (named_obj x Hx Hn) as (od & a & _ & -> & _). unfold emits_data, owner_live. cbn [obj_of_decl ob_function ob_definition ob_tentative ob_owner] in *.
    apply andb_true_iff in Ht as [_ Ht]. rewrite Ht. reflexivity. }
  rewrite E1, E2, cnt_prog. destruct hasreal; [reflexivity|]. destruct hastent; reflexivity.
Qed.

Lemma Dc_obj : Dc n = if hasreal then dc true else if hastent then dc false else [].
Proof.
  unfold Dc. rewrite (flat_map_filter _ Dn prog).
  2:{ intros x _ HD. unfold Dn in HD. destruct (same_name (User n) x); [|reflexivity]. cbn [andb] in HD. unfold data_core. rewrite HD. reflexivity. }
  pose proof count_defs as Hc. destruct (filter Dn prog) as [|x [|y r]] eqn:E; cbn [length] in Hc.
  - destruct hasreal; [discriminate|]. destruct hastent; [discriminate|reflexivity].
  - (* the one object that emits data for n *)
    assert (Hx : In x (filter Dn prog)) by (rewrite E; left; reflexivity). apply filter_In in Hx as [Hx HD].
    cbn [flat_map]. rewrite app_nil_r. unfold Dn in HD. apply andb_true_iff in HD as [Hn He]. rewrite Hn.
    destruct (named_obj x Hx Hn) as (od & a & Hin & -> & Ha).
    assert (Hext : is_defining od = true).
    { unfold emits_data, owner_live in He. cbn [obj_of_decl ob_function ob_definition ob_owner] in He. cbn [negb andb] in He. rewrite andb_true_r in He. exact He. }
    rewrite (Ha Hext), (data_core_decl od Hin Hext). destruct (has_init (o_init od)) eqn:Hi.
    + replace hasreal with true; [reflexivity|]. symmetry. apply existsb_exists. exists od. split; [exact Hin|exact Hi].
    + (* a tentative object survived, so there is no real definition *)
      assert (Ht : tent_named (User n) (obj_of_decl n od A) = true).
      { unfold tent_named, same_name. cbn [obj_of_decl ob_tentative ob_name ident_eqb]. unfold is_defining in Hext. rewrite Hi, orb_false_r in Hext. apply negb_true_iff in Hext. rewrite Hi, Hext, Nat.eqb_refl. reflexivity. }
      rewrite (Ha Hext) in Hx. pose proof (In_filter_length _ _ _ Hx Ht) as Hpos. fold (tent_count (User n) prog) in Hpos. rewrite cnt_prog in Hpos.
      destruct hasreal; [lia|]. destruct hastent; [reflexivity|discriminate].
  - destruct hasreal; [discriminate|]. destruct hastent; discriminate.
Qed.

Lemma look_dc hi l : look (User n) (dc hi) l =
  if fcommon o && negb hi && negb (o_tls od1) then
    (if lk_eqb k L_internal then Present (mkEntry B_local T_object P_bss (Some (o_size od1)) (Some al))
     else Present (mkEntry B_global T_object P_common (Some (o_size od1)) (Some al)))
  else Present (mkEntry (if lk_eqb k L_internal then B_local else B_global) (if o_tls od1 then T_tls else T_object)
                        (if hi then (if o_tls od1 then P_tdata else P_data) else (if o_tls od1 then P_tbss else P_bss))
                        (Some (o_size od1)) (Some al)).
Proof.
  unfold look, dc, ev_defs, ev_stype, ev_binding, ev_size.
  destruct (fcommon o && negb hi && negb (o_tls od1)); cbn; rewrite Nat.eqb_refl; cbn.
  - destruct (lk_eqb k L_internal); reflexivity.
  - destruct hi, (o_tls od1); reflexivity.
Qed.

Theorem entry_of_object : symtab_of (emit o prog) n = to_result (spec_entry live ds o n).
Proof.
  rewrite lookup_form, (Tc_obj n Ef), app_nil_r, Dc_obj.
  unfold spec_entry. rewrite Ef, Eo. unfold obj_entry. fold hasreal hastent. destruct obj_link as [-> _]. fold A. fold al.
  assert (Hkt : snd (kt ds n) = o_tls od1).
  { unfold kt, is_fun_name, obj_tls_of. rewrite Ef, Eo. reflexivity. }
  destruct hasreal.
  - rewrite look_dc. cbn [negb andb]. rewrite andb_false_r. cbn [to_result bind_of]. destruct k, (o_tls od1); reflexivity.
  - destruct hastent.
    + rewrite look_dc. cbn [negb]. rewrite andb_true_r. destruct (fcommon o), (o_tls od1), k; reflexivity.
    + rewrite look_nodef, Hkt. destruct (referenced live ds n); reflexivity.
Qed.
End Obj.

Theorem emit_symtab_correct n : symtab_of (emit o (parse_flags ds)) n = to_result (spec_entry live ds o n).
Proof.
  destruct (funseq n ds) as [|d1 s'] eqn:Ef.
  - destruct (objseq n ds) as [|od1 os'] eqn:Eo; [apply entry_of_undeclared; assumption|apply (entry_of_object n od1 os' Eo Ef)].
  - apply (entry_of_function n d1 s' Ef).
Qed.
End Main.
