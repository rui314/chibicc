(* The jump code gen_stmt emits for if / for / while / do / break / continue (Model/Lowering.v), embedded anywhere in a
   program, runs as the structured statement does: induction on the fuel of lexec, with one lemma per kind of loop
   (induction on the loop's own fuel). *)
From Chibicc Require Import Base.Mach Model.Lowering Proofs.FlatSim.

(* FlatSim's code_at at linstr: its lemmas (code_at_app, code_at_cons, code_at_one) apply to an `embedded` hypothesis by conversion *)
Definition embedded (P : list linstr) (p : nat) (code : list linstr) : Prop :=
  forall i ins, nth_error code i = Some ins -> nth_error P (p + i) = Some ins.

Lemma gen_length : forall s p b c, length (lgen s p b c) = lsize s.
Proof.
  induction s as [n| |a IHa b0 IHb|k a IHa b0 IHb|init IHi k inc IHinc body IHb|body IHb k| |]; intros p b c; cbn [lgen lsize length]; try reflexivity.
  - rewrite app_length, IHa, IHb. reflexivity.
  - rewrite !app_length, IHa, IHb. cbn [length]. lia.
  - rewrite !app_length, IHi, IHb, IHinc. destruct k; cbn [length]; lia.
  - rewrite app_length, IHb. cbn [length]. lia.
Qed.

Lemma star_trans P s1 t1 s2 t2 s3 : lstar P s1 t1 s2 -> lstar P s2 t2 s3 -> lstar P s1 (t1 ++ t2) s3.
Proof. induction 1 as [|st ev st' tr st'' Hs _ IH]; intros H2; [exact H2|]. rewrite <- app_assoc. eapply star_step; [exact Hs|apply IH; exact H2]. Qed.
Lemma star_one P s ev s' : lstep P s = Some (ev, s') -> lstar P s ev s'.
Proof. intros H. rewrite <- (app_nil_r ev). eapply star_step; [exact H|apply star_refl]. Qed.
Lemma star_to P a tr q q' o : lstar P a tr (q, o) -> q = q' -> lstar P a tr (q', o).
Proof. intros H <-. exact H. Qed.

Lemma step_mark P p n o : nth_error P p = Some (IMark n) -> lstar P (p, o) [n] (p + 1, o).
Proof. intros H. apply star_one. unfold lstep. rewrite H, Nat.add_1_r. reflexivity. Qed.
Lemma step_jmp P p t o : nth_error P p = Some (IJmp t) -> lstar P (p, o) [] (t, o).
Proof. intros H. apply star_one. unfold lstep. rewrite H. reflexivity. Qed.
Lemma step_jf P p k t v o : nth_error P p = Some (ICondJf k t) -> lstar P (p, v :: o) [k] ((if v then p + 1 else t), o).
Proof. intros H. apply star_one. unfold lstep. rewrite H, Nat.add_1_r. reflexivity. Qed.
Lemma step_jt P p k t v o : nth_error P p = Some (ICondJt k t) -> lstar P (p, v :: o) [k] ((if v then t else p + 1), o).
Proof. intros H. apply star_one. unfold lstep. rewrite H, Nat.add_1_r. reflexivity. Qed.

(* where control is after a statement at p, by its outcome: behind it, at the break target b or at the continue target c *)
Definition ltarget (out : loutcome) (p : nat) (s : lstmt) (b c : nat) : nat :=
  match out with ONormal => p + lsize s | OBreak => b | OCont => c end.

(* the theorem at fuel f; the loop lemmas take it as their hypothesis *)
Definition sim_at (f : nat) : Prop :=
  forall s o tr o' out, lexec f s o = Some (tr, o', out) ->
  forall P p b c, embedded P p (lgen s p b c) -> lstar P (p, o) tr (ltarget out p s b c, o').

(* inside a loop whose continue label follows the body at once, the body ends there unless it breaks *)
Lemma body_end out p s b : out <> OBreak -> ltarget out p s b (p + lsize s) = p + lsize s.
Proof. destruct out; cbn [ltarget]; congruence. Qed.

Lemma for_loop_sim f (IH : sim_at f) k inc body P begin :
  let pbody := begin + (match k with Some _ => 1 | None => 0 end) in
  let pcont := pbody + lsize body in
  let pbrk := pcont + lsize inc + 1 in
  embedded P begin ((match k with Some kk => [ICondJf kk pbrk] | None => [] end) ++ lgen body pbody pbrk pcont ++ lgen inc pcont pbrk pcont ++ [IJmp begin]) ->
  forall fuel o tr o', lfor_loop (lexec f) fuel k inc body o = Some (tr, o') -> lstar P (begin, o) tr (pbrk, o').
Proof.
  cbn zeta. intros Hemb. apply code_at_app in Hemb as [Hc Hrest].
  apply code_at_app in Hrest as [Hbody Hrest]. apply code_at_app in Hrest as [Hinc Hjmp].
  rewrite !gen_length in *. apply code_at_one in Hjmp.
  replace (begin + length _) with (begin + (match k with Some _ => 1 | None => 0 end)) in * by (destruct k; reflexivity).
  set (pbody := begin + _) in *. set (pcont := pbody + lsize body) in *. set (pbrk := pcont + lsize inc + 1) in *.
  induction fuel as [|fuel IHl]; intros o tr o' H; cbn [lfor_loop] in H; [discriminate|].
  (* once the condition has been passed: the body, then inc and the jump back *)
  assert (Hafter : forall t0 o0,
            match lexec f body o0 with
            | Some (t1, o1, OBreak) => Some (t0 ++ t1, o1)
            | Some (t1, o1, _) => match lexec f inc o1 with
                                  | Some (t2, o2, ONormal) => match lfor_loop (lexec f) fuel k inc body o2 with Some (t3, o3) => Some (t0 ++ t1 ++ t2 ++ t3, o3) | None => None end
                                  | _ => None end
            | None => None end = Some (tr, o') ->
            exists tr', tr = t0 ++ tr' /\ lstar P (pbody, o0) tr' (pbrk, o')).
  { clear H. intros t0 o0 H. destruct (lexec f body o0) as [[[t1 o1] out1]|] eqn:Eb; [|discriminate].
    pose proof (IH _ _ _ _ _ Eb P pbody pbrk pcont Hbody) as Sb.
    (* the body ended at the continue label, normally or by continue *)
    assert (Hgo : lstar P (pbody, o0) t1 (pcont, o1) ->
              match lexec f inc o1 with
              | Some (t2, o2, ONormal) => match lfor_loop (lexec f) fuel k inc body o2 with Some (t3, o3) => Some (t0 ++ t1 ++ t2 ++ t3, o3) | None => None end
              | _ => None end = Some (tr, o') ->
              exists tr', tr = t0 ++ tr' /\ lstar P (pbody, o0) tr' (pbrk, o')).
    { intros Sx Hx. destruct (lexec f inc o1) as [[[t2 o2] []]|] eqn:Ei; try discriminate Hx.
      destruct (lfor_loop (lexec f) fuel k inc body o2) as [[t3 o3]|] eqn:El; [|discriminate]. injection Hx as <- <-.
      pose proof (IH _ _ _ _ _ Ei P pcont pbrk pcont Hinc) as Si. cbn [ltarget] in Si.
      exists (t1 ++ t2 ++ t3). split; [reflexivity|]. eapply star_trans; [exact Sx|]. eapply star_trans; [exact Si|].
      apply (star_trans _ _ [] _ _ _ (step_jmp _ _ _ _ Hjmp)), IHl, El. }
    destruct out1; cbn [ltarget] in Sb.
    - exact (Hgo Sb H).
    - injection H as <- <-. exists t1. split; [reflexivity|exact Sb].
    - exact (Hgo Sb H). }
  destruct k as [kk|].
  - apply code_at_one in Hc. destruct o as [|[] o1]; [discriminate| |].
    + destruct (Hafter [kk] o1 H) as (tr' & -> & Sx). exact (star_trans _ _ _ _ _ _ (step_jf _ _ _ _ true _ Hc) Sx).
    + injection H as <- <-. exact (step_jf _ _ _ _ false _ Hc).
  - destruct (Hafter [] o H) as (tr' & -> & Sx). subst pbody. rewrite Nat.add_0_r in Sx. exact Sx.
Qed.

Lemma do_loop_sim f (IH : sim_at f) body k P p :
  let pcont := p + lsize body in
  embedded P p (lgen body p (pcont + 1) pcont ++ [ICondJt k p]) ->
  forall fuel o tr o', ldo_loop (lexec f) fuel body k o = Some (tr, o') -> lstar P (p, o) tr (pcont + 1, o').
Proof.
  cbn zeta. intros Hemb. apply code_at_app in Hemb as [Hbody Hc]. rewrite gen_length in Hc. apply code_at_one in Hc.
  induction fuel as [|fuel IHl]; intros o tr o' H; cbn [ldo_loop] in H; [discriminate|].
  destruct (lexec f body o) as [[[t1 o1] out1]|] eqn:Eb; [|discriminate].
  pose proof (IH _ _ _ _ _ Eb P p (p + lsize body + 1) (p + lsize body) Hbody) as Sb.
  assert (Hgo : lstar P (p, o) t1 (p + lsize body, o1) ->
            match o1 with
            | [] => None
            | v :: o2 => if v then match ldo_loop (lexec f) fuel body k o2 with Some (t3, o3) => Some (t1 ++ [k] ++ t3, o3) | None => None end
                         else Some (t1 ++ [k], o2)
            end = Some (tr, o') -> lstar P (p, o) tr (p + lsize body + 1, o')).
  { intros Sx Hx. destruct o1 as [|[] o2]; [discriminate| |].
    - destruct (ldo_loop (lexec f) fuel body k o2) as [[t3 o3]|] eqn:El; [|discriminate]. injection Hx as <- <-.
      eapply star_trans; [exact Sx|]. exact (star_trans _ _ _ _ _ _ (step_jt _ _ _ _ true _ Hc) (IHl _ _ _ El)).
    - injection Hx as <- <-. eapply star_trans; [exact Sx|]. exact (step_jt _ _ _ _ false _ Hc). }
  destruct out1; [|injection H as <- <-; exact Sb|]; rewrite body_end in Sb by discriminate; exact (Hgo Sb H).
Qed.

Theorem lowering_simulates : forall f, sim_at f.
Proof.
  induction f as [|f IH]; intros s o tr o' out H P p b c Hemb; [discriminate|]. cbn [lexec] in H.
  destruct s as [n| |a b0|k a b0|init k inc body|body k| |]; cbn [lgen] in Hemb.
  - injection H as <- <- <-. apply step_mark, code_at_one, Hemb.
  - injection H as <- <- <-. cbn [ltarget lsize]. rewrite Nat.add_0_r. apply star_refl.
  - apply code_at_app in Hemb as [Ha Hb]. rewrite gen_length in Hb.
    destruct (lexec f a o) as [[[t1 o1] out1]|] eqn:Ea; [|discriminate]. pose proof (IH _ _ _ _ _ Ea P p b c Ha) as Sa.
    destruct out1; [|injection H as <- <- <-; exact Sa..].
    destruct (lexec f b0 o1) as [[[t2 o2] out2]|] eqn:Eb; [|discriminate]. injection H as <- <- <-.
    eapply star_trans; [exact Sa|]. eapply star_to; [exact (IH _ _ _ _ _ Eb P _ b c Hb)|].
    destruct out2; cbn [ltarget lsize]; lia.
  - destruct o as [|v o1]; [discriminate|].
    apply code_at_app in Hemb as [Hc Hrest]. apply code_at_one in Hc.
    apply code_at_app in Hrest as [Ha Hrest]. rewrite gen_length in Hrest. apply code_at_app in Hrest as [Hj Hb]. apply code_at_one in Hj.
    destruct (lexec f (if v then a else b0) o1) as [[[t1 o2] out1]|] eqn:Ex; [|discriminate]. injection H as <- <- <-.
    apply (star_trans _ _ [k] _ _ _ (step_jf _ _ _ _ v _ Hc)). destruct v.
    + pose proof (IH _ _ _ _ _ Ex P _ b c Ha) as Sa.
      destruct out1; [|exact Sa..]. rewrite <- (app_nil_r t1). eapply star_trans; [exact Sa|].
      eapply star_to; [exact (step_jmp _ _ _ _ Hj)|]. cbn [ltarget lsize length]. lia.
    + eapply star_to; [exact (IH _ _ _ _ _ Ex P _ b c Hb)|]. destruct out1; cbn [ltarget lsize length]; lia.
  - destruct (lexec f init o) as [[[t0 o0] []]|] eqn:Ei; try discriminate.
    destruct (lfor_loop (lexec f) f k inc body o0) as [[t o1]|] eqn:El; [|discriminate]. injection H as <- <- <-.
    apply code_at_app in Hemb as [Hinit Hrest]. rewrite gen_length in Hrest.
    eapply star_trans; [exact (IH _ _ _ _ _ Ei P p b c Hinit)|].
    eapply star_to; [exact (for_loop_sim f IH k inc body P _ Hrest f o0 t o1 El)|]. cbn [ltarget lsize]. lia.
  - destruct (ldo_loop (lexec f) f body k o) as [[t o1]|] eqn:El; [|discriminate]. injection H as <- <- <-.
    eapply star_to; [exact (do_loop_sim f IH body k P p Hemb f o t o1 El)|]. cbn [ltarget lsize]. lia.
  - injection H as <- <- <-. apply step_jmp, code_at_one, Hemb.
  - injection H as <- <- <-. apply step_jmp, code_at_one, Hemb.
Qed.

Corollary program_simulates : forall fuel s o tr o', lexec fuel s o = Some (tr, o', ONormal) ->
  forall b c, lstar (lgen s 0 b c) (0, o) tr (lsize s, o').
Proof.
  intros fuel s o tr o' H b c. pose proof (lowering_simulates fuel s o tr o' ONormal H (lgen s 0 b c) 0 b c) as S.
  cbn [ltarget] in S. apply S. intros i ins Hi. exact Hi.
Qed.

(* the target machine is deterministic: two runs from one state are one a prefix of the other,
   so the run exhibited by the simulation is the run *)
Lemma lstar_det P s t1 s1 : lstar P s t1 s1 -> forall t2 s2, lstar P s t2 s2 ->
  (exists t, lstar P s1 t s2 /\ t2 = t1 ++ t) \/ (exists t, lstar P s2 t s1 /\ t1 = t2 ++ t).
Proof.
  induction 1 as [st|st ev st' tr st'' Hs Hr IH]; intros t2 s2 H2.
  - left. exists t2. split; [exact H2|reflexivity].
  - destruct H2 as [|st0 ev2 st2 tr2 st3 Hs2 Hr2].
    + right. exists (ev ++ tr). split; [eapply star_step; [exact Hs|exact Hr]|reflexivity].
    + rewrite Hs in Hs2. injection Hs2 as <- <-. destruct (IH _ _ Hr2) as [(t & Ht & ->)|(t & Ht & ->)].
      * left. exists t. split; [exact Ht|]. rewrite app_assoc. reflexivity.
      * right. exists t. split; [exact Ht|]. rewrite app_assoc. reflexivity.
Qed.
