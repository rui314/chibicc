(* The -E printer (Model/EPrint.v) against the tokenizer (Model/Lexer.v): tokenizing the printed text
   gives back the tokens that were printed, for every token list whose tokens are what the tokenizer
   cut from the texts they came from ([printable]) - and the token list of any text the tokenizer
   accepts is such a list.  The printer replaces what stood behind a token and the tokens glued to it
   by a space or a new-line, and by [first_token_cut] that never changes a token that ended before
   the cut.  Last ([eprint_survives]): the printed text holds no carriage return, no backslash before
   a new-line and no leading byte order mark, so phases 1 and 2 of a reader leave it as it is. *)
From Chibicc Require Import Base.Mach Model.Lexer Gen.PunctTable Model.Phases Proofs.PhasesProofs Proofs.LexerProofs Model.EPrint Spec.EPrintSpec.
Local Open Scope N_scope.

Lemma relex_tok_text first sp0 t : t_text (relex_tok first sp0 t) = e_text t.
Proof. unfold relex_tok. destruct (starts_line first t); reflexivity. Qed.
Lemma relex_tok_kind first sp0 t : t_kind (relex_tok first sp0 t) = e_kind t.
Proof. unfold relex_tok. destruct (starts_line first t); reflexivity. Qed.

Lemma glued_spec t : glued t = negb (starts_line false t || wants_space false t).
Proof. unfold glued, starts_line, wants_space. destruct (e_adj t), (e_space t), (e_bol t), (is_hash (e_text t)); reflexivity. Qed.

Lemma glued_no_sep pb t : glued t = true -> sep_before false pb t = [].
Proof. rewrite glued_spec. unfold sep_before. destruct (starts_line false t), (wants_space false t); (discriminate || reflexivity). Qed.
Lemma not_glued_sep pb t : glued t = false -> exists c more, is_sep c = true /\ sep_before false pb t = c :: more.
Proof.
  rewrite glued_spec. unfold sep_before, newline. destruct (starts_line false t), (wants_space false t), pb; try discriminate;
    intros _; eexists _, _; (split; [|reflexivity]); reflexivity.
Qed.

Lemma eprint_from_split : forall r pb, exists c more, is_sep c = true /\ eprint_from false pb r = glue_text r ++ c :: more.
Proof.
  induction r as [|t r IH]; intros pb; cbn [eprint_from glue_text].
  - unfold newline. destruct pb; eexists _, _; (split; [|reflexivity]); reflexivity.
  - destruct (glued t) eqn:G.
    + destruct (IH (is_bslash (e_text t))) as [c [more [Hc E]]]. exists c, more. split; [exact Hc|].
      rewrite (glued_no_sep pb t G), E. cbn [app]. rewrite app_assoc. reflexivity.
    + destruct (not_glued_sep pb t G) as [c [more [Hc E]]]. rewrite E. exists c. eexists. split; [exact Hc|]. reflexivity.
Qed.

Definition given (ts : list etok) : list pptoken := map (fun t => (e_kind t, e_text t)) ts.

Lemma given_of_lexed l : given (of_lexed l) = map pptoken_of l.
Proof. unfold given, of_lexed. rewrite map_map. reflexivity. Qed.

Lemma relex_from_given : forall ts first sp0, map pptoken_of (relex_from first sp0 ts) = given ts.
Proof.
  induction ts as [|t r IH]; intros first sp0; cbn [relex_from map given]; [reflexivity|].
  f_equal; [|apply IH]. unfold pptoken_of. rewrite relex_tok_kind, relex_tok_text. reflexivity.
Qed.

(* only a first token stands at the beginning of a line without a new-line printed for it, and a
   new-line is never printed for a `#` *)
Lemma relex_from_no_directive : forall ts first sp0,
  no_directive (relex_from first sp0 ts) = negb (first && leading_hash ts).
Proof.
  induction ts as [|t r IH]; intros first sp0; [destruct first; reflexivity|].
  cbn [relex_from no_directive forallb leading_hash]. fold (no_directive (relex_from false false r)).
  rewrite IH, andb_true_r. unfold relex_tok, starts_line, begins_directive, is_hash.
  destruct first; cbn [negb andb t_bol t_text]; [reflexivity|].
  destruct (e_bol t); [|reflexivity]. destruct (match e_text t with [c] => c =? 35 | _ => false end) eqn:E;
    cbn [negb andb t_bol t_text]; rewrite ?E; reflexivity.
Qed.

Theorem relex_no_directive ts : no_directive (relex ts) = negb (leading_hash ts).
Proof. apply relex_from_no_directive. Qed.

Lemma eprint_of_relex_from : forall ts pb,
  eprint_from false pb (of_lexed (relex_from false false ts)) = eprint_from false pb ts.
Proof.
  induction ts as [|t r IH]; intros pb; cbn [relex_from of_lexed map eprint_from]; [reflexivity|].
  fold (of_lexed (relex_from false false r)). cbn [e_text]. rewrite relex_tok_text, IH. f_equal.
  unfold relex_tok, sep_before. destruct (starts_line false t) eqn:SL.
  - unfold starts_line in *. cbn [e_bol e_text t_bol t_text t_space t_kind].
    apply andb_true_iff in SL as [_ H]. rewrite H. reflexivity.
  - unfold starts_line, wants_space in *. cbn [e_bol e_text e_space e_adj t_bol t_text t_space t_kind negb andb orb] in *.
    destruct (e_space t), (e_adj t); reflexivity.
Qed.

Theorem eprint_of_relex ts : eprint (of_lexed (relex ts)) = eprint ts.
Proof.
  destruct ts as [|t r]; [reflexivity|].
  unfold eprint, relex. cbn [relex_from of_lexed map eprint_from bom_guard].
  fold (of_lexed (relex_from false false r)). cbn [e_text e_space]. rewrite relex_tok_text, eprint_of_relex_from.
  unfold relex_tok, sep_before, starts_line, wants_space.
  cbn [negb andb orb e_bol e_text e_space e_adj t_bol t_text t_space t_kind].
  destruct (e_space t), (bom_start (e_text t)); reflexivity.
Qed.

Definition no_space_head (kw : list N) : bool := match kw with d :: _ => negb (is_space d) | [] => false end.

Lemma first_match_space : forall t c r, is_space c = true -> forallb no_space_head t = true ->
  first_match (c :: r) t = None.
Proof.
  induction t as [|kw t IH]; intros c r Hc Ht; cbn [first_match]; [reflexivity|].
  cbn [forallb] in Ht. apply andb_true_iff in Ht as [Hk Ht].
  destruct kw as [|d kw]; [discriminate|]. cbn [starts_with no_space_head] in *.
  destruct (d =? c) eqn:E.
  - apply N.eqb_eq in E. subst d. rewrite Hc in Hk. discriminate.
  - cbn [andb]. apply IH; assumption.
Qed.

Section Relex.
Variable tbl : list (list N).
Hypothesis tbl_nosep : forallb nosep tbl = true.
Hypothesis tbl_nospace : forallb no_space_head tbl = true.

Lemma first_token_space c r : is_space c = true -> first_token tbl (c :: r) = None.
Proof.
  intros Hc. pose proof (first_match_space tbl c r Hc tbl_nospace) as M.
  assert (E : c = 9 \/ c = 10 \/ c = 11 \/ c = 12 \/ c = 13 \/ c = 32) by (unfold is_space in Hc; lia).
  unfold first_token, read_punct. destruct E as [->|[->|[->|[->|[->| ->]]]]]; rewrite M; reflexivity.
Qed.

(* [a] is the token of kind [k] that tokenize() cuts when it stands in front of [a ++ ctx]:
   no comment opens there, and the scanners stop exactly behind [a] *)
Definition lexed_in (k : tkind) (a ctx : list N) : Prop :=
  first_token tbl (a ++ ctx) = Some (k, length a) /\
  starts_with (a ++ ctx) [47; 47] = false /\ starts_with (a ++ ctx) [47; 42] = false.

(* Every token was cut by the tokenizer from SOME text in which it was followed by the spellings
   of the tokens that are glued to it (adjacent, no has_space, not starting a line) and then by
   anything ([src]: the rest of that source text, different for every token).  This is what
   tokenize() guarantees for tokens whose `adjacent` test succeeds: they lie side by side in one
   buffer that one tokenizer run cut into exactly these tokens.  A token made by the preprocessor
   (pasted, stringized, __LINE__ ...) is alone in its buffer: nothing glued, src = []. *)
Fixpoint printable (ts : list etok) : Prop :=
  match ts with
  | [] => True
  | t :: r => (exists src, lexed_in (e_kind t) (e_text t) (glue_text r ++ src)) /\ printable r
  end.

Lemma kind_eqb_eq k k' : kind_eqb k k' = true <-> k = k'.
Proof. destruct k, k'; split; intros H; try reflexivity; try discriminate. Qed.

Lemma lexed_in_b_iff k a ctx : lexed_in_b tbl k a ctx = true <-> lexed_in k a ctx.
Proof.
  unfold lexed_in_b, lexed_in. split.
  - intros H. apply andb_true_iff in H as [H H3]. apply andb_true_iff in H as [H1 H2].
    apply negb_true_iff in H1. apply negb_true_iff in H2.
    destruct (first_token tbl (a ++ ctx)) as [[k' n]|]; [|discriminate].
    (* the match on the two kinds in [lexed_in_b] is [kind_eqb] written out *)
    apply andb_true_iff in H3 as [Hk Hn]. apply kind_eqb_eq in Hk. apply Nat.eqb_eq in Hn. subst. auto.
  - intros [H1 [H2 H3]]. rewrite H1, H2, H3. cbn [negb andb].
    apply andb_true_iff. split; [apply kind_eqb_eq; reflexivity|apply Nat.eqb_eq; reflexivity].
Qed.

(* cutting the source behind the glued spellings and putting a separator there changes nothing *)
Lemma lexed_in_cut k a g src c r2 : is_sep c = true ->
  lexed_in k a (g ++ src) -> lexed_in k a (g ++ c :: r2).
Proof.
  unfold lexed_in. intros Hc [H1 [H2 H3]]. rewrite app_assoc in *.
  repeat split.
  - apply (first_token_cut tbl tbl_nosep (a ++ g) src c r2 k (length a) Hc H1). rewrite app_length. lia.
  - apply (sw_cut_false [47; 47] (a ++ g) src c r2 Hc eq_refl H2).
  - apply (sw_cut_false [47; 42] (a ++ g) src c r2 Hc eq_refl H3).
Qed.

(* the hypothesis is decidable: it is enough to try the new-line as the rest of the source *)
Theorem printable_iff : forall ts, printable ts <-> printable_b tbl ts = true.
Proof.
  induction ts as [|t r IH]; cbn [printable printable_b]; [split; auto|].
  rewrite andb_true_iff, lexed_in_b_iff, <- IH. split.
  - intros [[src H] Hr]. split; [|exact Hr]. exact (lexed_in_cut _ _ _ src 10 [] eq_refl H).
  - intros [H Hr]. split; [exists [10]; exact H|exact Hr].
Qed.

Lemma lex_nl f r bol sp : lex tbl (S f) (10 :: r) bol sp = lex tbl f r true false.
Proof. reflexivity. Qed.

Lemma lexed_in_first_byte k a rest : lexed_in k a rest ->
  exists c a', a = c :: a' /\ (c =? 10) = false /\ is_space c = false.
Proof.
  intros [H1 _]. pose proof (proj1 (first_token_bounds tbl _ _ _ H1)) as Hpos.
  destruct a as [|c a]; [cbn [length] in Hpos; lia|]. exists c, a. split; [reflexivity|].
  destruct (is_space c) eqn:Hs; [cbn [app] in H1; rewrite (first_token_space c _ Hs) in H1; discriminate|].
  split; [unfold is_space in Hs; lia|reflexivity].
Qed.

Lemma lex_token f t' k a rest l : t_kind t' = k -> t_text t' = a -> lexed_in k a rest ->
  lex tbl f rest false false = LexOk l -> lex tbl (S f) (a ++ rest) (t_bol t') (t_space t') = LexOk (t' :: l).
Proof.
  intros <- <- L Hl. destruct (lexed_in_first_byte _ _ _ L) as (c & a' & E & Hn & Hs). destruct L as (H1 & H2 & H3).
  destruct t' as [k a sp bol]. cbn [t_kind t_text t_space t_bol] in *. subst a. cbn [app lex] in *.
  rewrite H2, H3, Hn, Hs, H1. change (c :: a' ++ rest) with ((c :: a') ++ rest). unfold mk.
  rewrite skipn_app, firstn_app, skipn_all, firstn_all, Nat.sub_diag, app_nil_r. cbn [app skipn]. rewrite Hl. reflexivity.
Qed.

(* what the printer writes in front of a token sets the flags [relex_tok] predicts *)
Lemma lex_sep_before first pb sp0 t f r :
  lex tbl (length (sep_before first pb t) + f) (sep_before first pb t ++ r) first sp0 =
  lex tbl f r (t_bol (relex_tok first sp0 t)) (t_space (relex_tok first sp0 t)).
Proof.
  unfold sep_before, relex_tok, newline. destruct (starts_line first t); [destruct pb; reflexivity|].
  destruct (wants_space first t); cbn [t_bol t_space]; [rewrite orb_true_r|rewrite orb_false_r]; reflexivity.
Qed.

Lemma lex_newline_end pb f bol sp : lex tbl (length (newline pb) + f) (newline pb) bol sp = LexOk [].
Proof. destruct pb, f; reflexivity. Qed.

Lemma printable_head t r pb : printable (t :: r) -> lexed_in (e_kind t) (e_text t) (eprint_from false pb r).
Proof.
  intros [[src Hsrc] _]. destruct (eprint_from_split r pb) as [c [more [Hc E]]].
  rewrite E. exact (lexed_in_cut _ _ _ src c more Hc Hsrc).
Qed.

Lemma relex_from_ok : forall ts first pb sp0 f, printable ts -> (length (eprint_from first pb ts) < f)%nat ->
  lex tbl f (eprint_from first pb ts) first sp0 = LexOk (relex_from first sp0 ts).
Proof.
  induction ts as [|t r IH]; intros first pb sp0 f Hp Hf; cbn [eprint_from relex_from] in *.
  - replace f with (length (newline pb) + (f - length (newline pb)))%nat by lia. apply lex_newline_end.
  - pose proof (printable_head t r (is_bslash (e_text t)) Hp) as L. destruct Hp as [_ Hr].
    pose proof (proj1 (first_token_bounds tbl _ _ _ (proj1 L))) as Hpos. rewrite !app_length in Hf.
    set (n := length (sep_before first pb t)) in *.
    replace f with (n + S (f - n - 1))%nat by lia. subst n. rewrite lex_sep_before.
    apply (lex_token _ _ _ _ _ _ (relex_tok_kind _ _ _) (relex_tok_text _ _ _) L). apply IH; [exact Hr|lia].
Qed.

Theorem eprint_relex : forall ts, printable ts -> tokenize tbl (eprint ts) = LexOk (relex ts).
Proof.
  intros ts Hp. unfold tokenize, eprint, relex. destruct (bom_guard ts).
  - cbn [app length]. rewrite lex_sp. apply relex_from_ok; [exact Hp|lia].
  - cbn [app]. apply relex_from_ok; [exact Hp|lia].
Qed.

(* the simplest printer - a space behind every spelling - is the case where nothing is glued *)
Theorem relex_spaced : forall ts f bol sp,
  Forall (tok_ok tbl) ts -> (length (spaced ts) < f)%nat ->
  exists toks, lex tbl f (spaced ts) bol sp = LexOk toks /\ map t_text toks = ts.
Proof.
  induction ts as [|a ts IH]; intros f bol sp Hok Hf.
  - exists []. destruct f; cbn; auto.
  - inversion Hok as [|? ? (Hne & [k Hk] & Hc1 & Hc2 & _) Hts]; subst. assert (1 <= length a)%nat by (destruct a; [congruence|cbn; lia]).
    rewrite spaced_cons in *. rewrite app_length in Hf. cbn [length] in Hf. destruct f as [|[|f]]; try lia.
    destruct (IH f false true Hts) as [toks [Hl Hm]]; [lia|].
    exists ({| t_kind := k; t_text := a; t_space := sp; t_bol := bol |} :: toks). split; [|cbn [map t_text]; rewrite Hm; reflexivity].
    apply (lex_token (S f) {| t_kind := k; t_text := a; t_space := sp; t_bol := bol |} k a _ _ eq_refl eq_refl); [|rewrite lex_sp; exact Hl].
    exact (lexed_in_cut k a [] [10] 32 (spaced ts) eq_refl (conj Hk (conj Hc1 Hc2))).
Qed.

(* what a successful run of the tokenizer guarantees: its tokens are printable; the text begins with
   the spellings glued to the first token; and a token read after white space, a comment or a
   new-line carries one of the two flags, so that nothing is glued to what stands before it *)
Lemma lex_run : forall f p bol sp l, lex tbl f p bol sp = LexOk l ->
  printable (of_lexed l) /\ (exists src, p = glue_text (of_lexed l) ++ src) /\
  (bol || sp = true -> glue_text (of_lexed l) = []).
Proof.
  induction f as [|f IH]; intros p bol sp l H.
  - cbn [lex] in H. destruct p; [|discriminate]. injection H as <-. split; [exact I|]. split; [exists []|]; reflexivity.
  - destruct p as [|c r]; [injection H as <-; split; [exact I|]; split; [exists []|]; reflexivity|].
    assert (Skip : forall p' bol' sp', bol' || sp' = true -> lex tbl f p' bol' sp' = LexOk l ->
      printable (of_lexed l) /\ (exists src, c :: r = glue_text (of_lexed l) ++ src) /\ (bol || sp = true -> glue_text (of_lexed l) = [])).
    { intros p' bol' sp' Hb Hl. destruct (IH _ _ _ _ Hl) as (A & _ & C). rewrite (C Hb). split; [exact A|]. split; [exists (c :: r)|]; reflexivity. }
    cbn [lex] in H.
    destruct (starts_with (c :: r) [47; 47]) eqn:C1; [exact (Skip _ _ _ (orb_true_r _) H)|].
    destruct (starts_with (c :: r) [47; 42]) eqn:C2.
    { destruct (skip_block_comment _); [exact (Skip _ _ _ (orb_true_r _) H)|discriminate]. }
    destruct (c =? 10); [exact (Skip _ true false eq_refl H)|]. destruct (is_space c); [exact (Skip _ _ _ (orb_true_r _) H)|].
    destruct (first_token tbl (c :: r)) as [[k n]|] eqn:Ft; [|discriminate].
    destruct (lex tbl f (skipn n (c :: r)) false false) as [l'|] eqn:E; [|discriminate]. injection H as <-.
    destruct (IH _ _ _ _ E) as (A & [src Hs] & _). set (p := c :: r) in *.
    cbn [of_lexed map printable glue_text]. fold (of_lexed l'). split; [split; [|exact A]|split].
    + (* the rest of the text is the context the token was cut in *)
      exists src. cbn [e_kind e_text mk t_kind t_text]. unfold lexed_in.
      rewrite <- Hs, firstn_skipn, firstn_length_le by exact (proj2 (first_token_bounds tbl _ _ _ Ft)). auto.
    + destruct (glued _); [|exists p; reflexivity]. exists src. cbn [e_text mk t_text]. rewrite <- app_assoc, <- Hs. symmetry. apply firstn_skipn.
    + unfold glued. cbn [e_adj e_space e_bol mk t_space t_bol]. destruct bol, sp; (discriminate || reflexivity).
Qed.

Theorem lex_printable f p bol sp l : lex tbl f p bol sp = LexOk l -> printable (of_lexed l).
Proof. intros H. exact (proj1 (lex_run _ _ _ _ _ H)). Qed.

Definition starts_nl (p : list N) : bool := match p with d :: _ => d =? 10 | [] => false end.

(* the printer's model and the specification spell the same function *)
Lemma has_bs_nl_spec : forall p, has_bs_nl p = has_splice p.
Proof. reflexivity. Qed.

Lemma has_splice_cons2 c d r : has_splice (c :: d :: r) = ((c =? 92) && (d =? 10)) || has_splice (d :: r).
Proof. reflexivity. Qed.
Lemma ends_cons2 c d r : ends_in_bslash (c :: d :: r) = ends_in_bslash (d :: r).
Proof. reflexivity. Qed.

Lemma has_splice_app : forall a b,
  has_splice (a ++ b) = has_splice a || (ends_in_bslash a && starts_nl b) || has_splice b.
Proof.
  induction a as [|c a IH]; intros b; [reflexivity|]. destruct a as [|d a].
  - cbn [app has_splice ends_in_bslash]. change (match b with d :: _ => d =? 10 | [] => false end) with (starts_nl b).
    destruct (c =? 92), (starts_nl b), (has_splice b); reflexivity.
  - change ((c :: d :: a) ++ b) with (c :: d :: (a ++ b)). rewrite !has_splice_cons2, ends_cons2.
    change (d :: a ++ b) with ((d :: a) ++ b). rewrite IH, !orb_assoc. reflexivity.
Qed.

Lemma sep_before_clean first pb t :
  has_splice (sep_before first pb t) = false /\ ends_in_bslash (sep_before first pb t) = false /\
  has_cr (sep_before first pb t) = false.
Proof.
  unfold sep_before, newline. destruct (starts_line first t), (wants_space first t), pb; repeat split; reflexivity.
Qed.

Lemma clean_text_facts a : clean_text a = true ->
  has_cr a = false /\ has_splice a = false /\ (ends_in_bslash a = true -> is_bslash a = true).
Proof.
  unfold clean_text, has_cr. rewrite !andb_true_iff, !negb_true_iff, has_bs_nl_spec. intros [[H1 H2] H3].
  split; [exact H1|]. split; [exact H2|]. intros E. rewrite E in H3. exact H3.
Qed.

Lemma bom_head_neq c x : (c =? 239) = false -> begins_with_bom (c :: x) = false.
Proof. intros H. destruct x as [|b [|d x]]; cbn [begins_with_bom]; try reflexivity. rewrite H. reflexivity. Qed.

Lemma begins_with_bom_inv p : begins_with_bom p = true -> exists r, p = 239 :: 187 :: 191 :: r.
Proof.
  destruct p as [|a [|b [|c r]]]; try discriminate. cbn [begins_with_bom]. rewrite !andb_true_iff, !N.eqb_eq.
  intros [[-> ->] ->]. exists r. reflexivity.
Qed.

(* behind a `\` token the printer never continues with a new-line byte *)
Lemma starts_nl_after_bslash r : printable r -> starts_nl (eprint_from false true r) = false.
Proof.
  destruct r as [|t r]; intros Hp; [reflexivity|]. cbn [eprint_from]. unfold sep_before, newline.
  destruct (starts_line false t); [reflexivity|]. destruct (wants_space false t); [reflexivity|]. cbn [app].
  destruct (lexed_in_first_byte _ _ _ (printable_head t r (is_bslash (e_text t)) Hp)) as [c [a' [E [Hn _]]]].
  rewrite E. cbn [app starts_nl]. exact Hn.
Qed.

Lemma no_splice_from : forall ts first pb, printable ts -> clean_tokens ts = true ->
  has_splice (eprint_from first pb ts) = false.
Proof.
  induction ts as [|t r IH]; intros first pb Hp Hc; cbn [eprint_from].
  - unfold newline. destruct pb; reflexivity.
  - cbn [clean_tokens forallb] in Hc. apply andb_true_iff in Hc as [Ht Hc]. fold (clean_tokens r) in Hc.
    destruct (clean_text_facts _ Ht) as [_ [Hs He]]. destruct (sep_before_clean first pb t) as [S1 [S2 _]].
    rewrite has_splice_app, S1, S2. cbn [andb orb].
    rewrite has_splice_app, Hs, (IH false (is_bslash (e_text t)) (proj2 Hp) Hc). cbn [orb]. rewrite orb_false_r.
    destruct (ends_in_bslash (e_text t)) eqn:E; [|reflexivity]. rewrite (He eq_refl). cbn [andb].
    exact (starts_nl_after_bslash r (proj2 Hp)).
Qed.

Lemma no_cr_from : forall ts first pb, clean_tokens ts = true -> has_cr (eprint_from first pb ts) = false.
Proof.
  induction ts as [|t r IH]; intros first pb Hc; cbn [eprint_from].
  - unfold newline. destruct pb; reflexivity.
  - cbn [clean_tokens forallb] in Hc. apply andb_true_iff in Hc as [Ht Hc]. fold (clean_tokens r) in Hc.
    destruct (clean_text_facts _ Ht) as [Hr _]. destruct (sep_before_clean first pb t) as [_ [_ S3]].
    unfold has_cr in *. rewrite !existsb_app, S3, Hr, (IH false _ Hc). reflexivity.
Qed.

Lemma first_token_bom r : first_token tbl (239 :: 187 :: 191 :: r) = Some (LIdent, S (S (S (scan_ident2 r)))).
Proof. reflexivity. Qed.

(* a text that begins EF BB BF begins with an identifier of three bytes at least: a token in front of
   it holds the three bytes itself *)
Lemma no_bom_head k a rest : lexed_in k a rest -> bom_start a = false -> begins_with_bom (a ++ rest) = false.
Proof.
  intros [H1 _] Hb. destruct (begins_with_bom (a ++ rest)) eqn:B; [exfalso|reflexivity].
  apply begins_with_bom_inv in B as [r B]. rewrite B, first_token_bom in H1. injection H1 as _ Hn.
  destruct a as [|c1 [|c2 [|c3 a]]]; try discriminate Hn. injection B as -> -> -> _. discriminate Hb.
Qed.

Theorem eprint_survives : forall ts, printable ts -> clean_tokens ts = true ->
  survives_phases_1_2 (eprint ts) = true.
Proof.
  intros ts Hp Hc. unfold survives_phases_1_2, eprint. rewrite !andb_true_iff, !negb_true_iff. repeat split.
  - (* the text begins with the first token's own space, or with the guard's, or with a first token that does not
       begin with the mark *)
    destruct ts as [|t r]; [reflexivity|]. cbn [bom_guard eprint_from]. unfold sep_before, starts_line, wants_space.
    cbn [negb andb orb]. destruct (e_space t); cbn [negb andb orb app]; [apply bom_head_neq; reflexivity|].
    destruct (bom_start (e_text t)) eqn:B; cbn [app]; [apply bom_head_neq; reflexivity|].
    exact (no_bom_head _ _ _ (printable_head t r (is_bslash (e_text t)) Hp) B).
  - pose proof (no_splice_from ts true false Hp Hc) as H. destruct (bom_guard ts); exact H.
  - pose proof (no_cr_from ts true false Hc) as H. destruct (bom_guard ts); exact H.
Qed.
End Relex.

Lemma punct_table_nospace : forallb no_space_head punct_table = true.
Proof. vm_compute. reflexivity. Qed.

Definition printable_src := printable punct_table.

Lemma printable_src_b ts : printable_b punct_table ts = true -> printable_src ts.
Proof. apply printable_iff. exact punct_table_nosep. Qed.

Theorem glued_pair_sound : forall a b rest pb, printable_src (a :: b :: rest) -> glued b = true ->
  exists more, eprint_from false pb (a :: b :: rest) = sep_before false pb a ++ e_text a ++ e_text b ++ more /\
               first_token punct_table (e_text a ++ e_text b ++ more) = Some (e_kind a, length (e_text a)).
Proof.
  intros a b rest pb Hp G. pose proof (proj1 (printable_head punct_table punct_table_nosep a (b :: rest) (is_bslash (e_text a)) Hp)) as H.
  cbn [eprint_from] in *. rewrite (glued_no_sep _ b G) in *. eexists. split; [reflexivity|exact H].
Qed.

Theorem eprint_roundtrip : forall ts, printable_src ts ->
  tokenize punct_table (eprint ts) = LexOk (relex ts).
Proof. exact (eprint_relex punct_table punct_table_nosep punct_table_nospace). Qed.

Theorem eprint_same_tokens : forall ts, printable_src ts ->
  same_tokens (tokenize punct_table) (eprint ts) (given ts).
Proof.
  intros ts Hp. exists (relex ts). split; [apply eprint_roundtrip; exact Hp|apply relex_from_given].
Qed.

Theorem eprint_survives_phases_1_2 : forall ts, printable_src ts -> clean_tokens ts = true ->
  survives_phases_1_2 (eprint ts) = true.
Proof. exact (eprint_survives punct_table punct_table_nosep punct_table_nospace). Qed.

Theorem eprint_faithful : forall ts, printable_src ts -> clean_tokens ts = true -> leading_hash ts = false ->
  faithful (tokenize punct_table) (eprint ts) (given ts).
Proof.
  intros ts Hp Hc Hl. exists (relex ts). split; [apply eprint_roundtrip; exact Hp|]. split; [apply relex_from_given|].
  split; [rewrite relex_no_directive, Hl; reflexivity|]. exact (eprint_survives_phases_1_2 ts Hp Hc).
Qed.

Theorem leading_hash_always_refuted : forall ts, printable_src ts -> leading_hash ts = true ->
  ~ faithful (tokenize punct_table) (eprint ts) (given ts).
Proof.
  intros ts Hp Hl [l [Hlex [_ [Hnd _]]]]. rewrite (eprint_roundtrip ts Hp) in Hlex. injection Hlex as <-.
  rewrite relex_no_directive, Hl in Hnd. discriminate.
Qed.

(* clause (3) of the spec against the model of tokenize_file's own phases 1-2 (Model/Phases.v:
   canonicalize_newline, remove_backslash_newline) and its byte-order-mark test: a text that
   [survives_phases_1_2] is what these functions return for it *)
Definition strip_bom (text : list N) : list N := if begins_with_bom text then skipn 3 text else text.

Lemma canon_id : forall p, has_cr p = false -> canon p = p.
Proof.
  induction p as [|c r IH]; intros H; [reflexivity|]. unfold has_cr in *. cbn [existsb canon] in *.
  apply orb_false_iff in H as [H1 H2]. rewrite H1, (IH H2). reflexivity.
Qed.

Lemma splice_id : forall p, has_splice p = false -> splice 0 p = p.
Proof.
  induction p as [|c r IH]; intros H; [reflexivity|]. change (spliced_here c r || has_splice r = false) in H.
  apply orb_false_iff in H as [H1 H2]. rewrite splice_cons, H1, (IH H2). destruct (c =? 10); reflexivity.
Qed.

Theorem survives_is_identity text : survives_phases_1_2 text = true -> phases12 (strip_bom text) = text.
Proof.
  unfold survives_phases_1_2, strip_bom, phases12. rewrite !andb_true_iff, !negb_true_iff. intros [[H1 H2] H3].
  rewrite H1, (canon_id _ H3). apply splice_id. exact H2.
Qed.

(* the witness of the open finding C19-leading-hash:  #define H #  /  H define X 1  /  X   *)
Definition leading_hash_witness : list etok :=
  [ {| e_kind := LPunct; e_text := [35]; e_space := false; e_bol := true; e_adj := false |};
    {| e_kind := LIdent; e_text := [100; 101; 102; 105; 110; 101]; e_space := true; e_bol := false; e_adj := false |};
    {| e_kind := LIdent; e_text := [88]; e_space := true; e_bol := false; e_adj := false |};
    {| e_kind := LNum; e_text := [49]; e_space := true; e_bol := false; e_adj := false |};
    {| e_kind := LIdent; e_text := [88]; e_space := false; e_bol := true; e_adj := false |} ].

Definition T (k : tkind) (s : list N) (sp bol adj : bool) : etok :=
  {| e_kind := k; e_text := s; e_space := sp; e_bol := bol; e_adj := adj |}.

(* `x=-N;` with `#define N -1`: x = - are adjacent in the source line, the - and the 1 of N are
   adjacent in the definition, the two - are not adjacent, neither are 1 and ; *)
Definition ex_minus : list etok :=
  [T LIdent [120] false true false; T LPunct [61] false false true; T LPunct [45] false false true;
   T LPunct [45] false false false; T LNum [49] false false true; T LPunct [59] false false false].
(* u8 (from a macro) in front of "a"; 1e in front of +; / in front of *; . in front of 5; L in front of 'c';
   then, on a new line, a `#` that is not a directive, and %: as two tokens *)
Definition ex_mixed : list etok :=
  [T LIdent [117; 56] false true false; T LStr [34; 97; 34] false false false;
   T LNum [49; 101] true false false; T LPunct [43] false false false;
   T LPunct [47] false false false; T LPunct [42] false false false;
   T LPunct [46] false false false; T LNum [53] false false false;
   T LIdent [76] false false false; T LChr [39; 99; 39] false false false;
   T LPunct [35] false true false; T LIdent [100] false false true;
   T LPunct [37] false true false; T LPunct [58] false false true].

(* `a \ ` / `x\` (glued) / `b \ ` at the very end: every `\` token is followed by a space *)
Definition ex_bslash : list etok :=
  [T LIdent [97] false true false; T LPunct [92] true false false;
   T LIdent [120] false true false; T LPunct [92] false false true;
   T LIdent [98] false true false; T LPunct [92] true false false].
(* an identifier beginning with U+FEFF as the very first token, no has_space *)
Definition ex_bom : list etok :=
  [T LIdent [239; 187; 191; 120] false true false; T LPunct [61] true false false; T LNum [49] true false false].
