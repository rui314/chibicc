(* prefix ++ and --: the parser's rewrites  ++x => x += 1,  --x => x -= 1  (desugar) keep the C11 meaning,
   the type, the footprint and the number of temporaries of every expression, and their result fits the frame
   that holds the temporaries of the expression as written (fits_desugar). *)
From Coq Require Import ZArith Bool List Lia.
From Chibicc Require Import Base.Mach Spec.C11Int Spec.C11IntMem Model.X86Int Model.CodegenInt Gen.CastTable
     Model.ConstFold Proofs.ConstFoldProofs Proofs.CastTableProofs Proofs.CodegenIntProofs Model.ExprGen
     Model.ExprMem Proofs.ExprMemProofs Proofs.ExprMemCorrect.
Import ListNotations.
Local Open Scope Z_scope.

Lemma desugar_keeps G : forall e,
  ntemps (desugar G e) = ntemps e /\ reads (desugar G e) = reads e /\ writes (desugar G e) = writes e.
Proof.
  induction e as [t v0|x|o a IHa|o a IHa b IHb|t a IHa|c IHc a IHa b IHb|a IHa b IHb|x a IHa|o x a IHa|post inc x];
    cbn [desugar ntemps reads writes];
    try destruct IHa as (-> & -> & ->); try destruct IHb as (-> & -> & ->); try destruct IHc as (-> & -> & ->); auto.
  destruct post; auto.
Qed.

(* what the parser hands to gen_expr fits the frame that holds the variables and the temporaries of e *)
Lemma fits_desugar F : forall e n, vars_in (nvars F) e = true -> kinds_at F n (temps_of (ftys F) e) -> fits F n (desugar (ftys F) e).
Proof.
  pose proof (fun e => proj1 (desugar_keeps (ftys F) e)) as Dn.
  induction e as [t v0|x|o a IHa|o a IHa b IHb|t a IHa|c IHc a IHa b IHb|a IHa b IHb|x a IHa|o x a IHa|post inc x];
    intros n Hv Hk; cbn [desugar fits vars_in temps_of] in *.
  - exact I.
  - apply Nat.ltb_lt, Hv.
  - auto.
  - apply andb_true_iff in Hv as [Hva Hvb].
    apply kinds_at_app in Hk as [Hka Hkb]. rewrite temps_of_length in Hkb. rewrite Dn. auto.
  - auto.
  - apply andb_true_iff in Hv as [Hv Hvb]. apply andb_true_iff in Hv as [Hvc Hva].
    apply kinds_at_app in Hk as [Hkc Hk]. rewrite temps_of_length in Hk.
    apply kinds_at_app in Hk as [Hka Hkb]. rewrite temps_of_length in Hkb. rewrite !Dn. auto 6.
  - apply andb_true_iff in Hv as [Hva Hvb].
    apply kinds_at_app in Hk as [Hka Hkb]. rewrite temps_of_length in Hkb. rewrite Dn. auto.
  - apply andb_true_iff in Hv as [Hvx Hva]. apply Nat.ltb_lt in Hvx. auto.
  - apply andb_true_iff in Hv as [Hvx Hva]. apply Nat.ltb_lt in Hvx.
    apply kinds_at_app in Hk as [Hka Hkp]. rewrite temps_of_length in Hkp.
    destruct (Hkp 0%nat TPtr eq_refl) as [Hlt Hptr]. rewrite Nat.add_0_r in Hlt, Hptr. rewrite Dn. auto.
  - (* ++x / --x have become x += 1 / x -= 1, whose pointer is the one temporary *)
    apply Nat.ltb_lt in Hv. destruct post; cbn [fits ntemps].
    + destruct (Hk 0%nat _ eq_refl) as [_ Hs]. destruct (Hk 1%nat _ eq_refl) as [Hlt Hp].
      rewrite Nat.add_0_r in Hs. rewrite Nat.add_1_r in Hlt, Hp. auto 6.
    + destruct (Hk 0%nat _ eq_refl) as [Hlt Hp]. auto.
Qed.

Lemma desugar_type G : forall e, mtype G (desugar G e) = mtype G e.
Proof.
  induction e as [t v0|x|o a IHa|o a IHa b IHb|t a IHa|c IHc a IHa b IHb|a IHa b IHb|x a IHa|o x a IHa|post inc x];
    cbn [desugar mtype]; rewrite ?IHa, ?IHb, ?IHc; try reflexivity.
  destruct post; reflexivity.
Qed.

Lemma norace_desugar G a b : norace (desugar G a) (desugar G b) = norace a b.
Proof.
  unfold norace. destruct (desugar_keeps G a) as (_ & -> & ->). destruct (desugar_keeps G b) as (_ & -> & ->).
  reflexivity.
Qed.

Theorem desugar_meval G : forall e env, meval G env (desugar G e) = meval G env e.
Proof.
  induction e as [t v0|x|o a IHa|o a IHa b IHb|t a IHa|c IHc a IHa b IHb|a IHa b IHb|x a IHa|o x a IHa|post inc x];
    intros env.
  - reflexivity.
  - reflexivity.
  - cbn [desugar meval]. rewrite IHa, desugar_type. reflexivity.
  - cbn [desugar]. destruct (is_logical o) eqn:L.
    + destruct o; try discriminate L; cbn [meval]; rewrite IHa;
        (destruct (meval G env a) as [[xv env1]|]; [|reflexivity]); rewrite IHb; reflexivity.
    + rewrite !(meval_bin _ _ _ _ _ L), norace_desugar, !desugar_type.
      destruct (norace a b); [|reflexivity]. destruct (lhs_first o).
      * rewrite IHa. destruct (meval G env a) as [[xv env1]|]; [|reflexivity]. rewrite IHb. reflexivity.
      * rewrite IHb. destruct (meval G env b) as [[yv env1]|]; [|reflexivity]. rewrite IHa. reflexivity.
  - cbn [desugar meval]. rewrite IHa. reflexivity.
  - cbn [desugar meval]. rewrite IHc, !desugar_type. destruct (meval G env c) as [[xv env1]|]; [|reflexivity].
    destruct (negb (xv =? 0)); [rewrite IHa|rewrite IHb]; reflexivity.
  - cbn [desugar meval]. rewrite IHa. destruct (meval G env a) as [[xv env1]|]; [|reflexivity]. apply IHb.
  - cbn [desugar meval]. destruct (desugar_keeps G a) as (_ & _ & ->). rewrite IHa. reflexivity.
  - cbn [desugar meval]. destruct (desugar_keeps G a) as (_ & _ & ->). rewrite IHa, desugar_type. reflexivity.
  - destruct post; [reflexivity|]. cbn [desugar]. destruct inc; reflexivity.
Qed.
