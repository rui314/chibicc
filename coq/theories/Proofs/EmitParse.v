(* C15 (symbol emission): what the parser model leaves in `globals`, and what mark and scan_globals
   then make of it.  Every object is of one kind - an object called n, the function called g, or anonymous -
   and every operation acts on the sublist of one kind (`view`).  The fold over the declarations is followed
   forward: what the remaining declarations do to each view of any state between two declarations (`J`), by
   induction on them (run_obj, run_fun; EmitAnon.run_anon).  For the whole unit: the objects called n are
   exactly the object declarations of n (newest first); there is exactly one function object per function
   name, static/inline as its first declaration says (except that an inline definition which a later
   declaration makes external loses is_static), is_definition = some declaration has a body, its recorded
   references are those of its bodies resolved by kind. *)
From Coq Require Import List Bool Arith ZArith Lia.
From Chibicc Require Import Base.ListFacts Model.Linkage Proofs.LinkageProofs Spec.LinkSpec Model.Emit Proofs.EmitAsm.
Import ListNotations.

Lemma filter_map_comm {A} (P : A -> bool) (g : A -> A) l : (forall x, P (g x) = P x) -> filter P (map g l) = map g (filter P l).
Proof.
  intros H. induction l as [|x r IH]; [reflexivity|]. cbn [map filter]. rewrite H.
  destruct (P x); [cbn [map]; rewrite IH; reflexivity|exact IH].
Qed.
Lemma filter_none {A} (P : A -> bool) l : (forall x, In x l -> P x = false) -> filter P l = [].
Proof.
  induction l as [|x r IH]; intros H; [reflexivity|]. cbn [filter]. rewrite (H x (or_introl eq_refl)). apply IH.
  intros y Hy. apply H. right. exact Hy.
Qed.
Lemma filter_all {A} (P : A -> bool) l : (forall y, In y l -> P y = true) -> filter P l = l.
Proof.
  induction l as [|y r IH]; intros H; [reflexivity|]. cbn [filter]. rewrite (H y (or_introl eq_refl)), IH; [reflexivity|].
  intros z Hz. apply H. right. exact Hz.
Qed.
Lemma filter_rev {A} (P : A -> bool) l : filter P (rev l) = rev (filter P l).
Proof. induction l as [|x r IH]; [reflexivity|]. cbn [rev filter]. rewrite filter_app, IH. cbn [filter]. destruct (P x); [reflexivity|apply app_nil_r]. Qed.
Lemma flat_map_nil {A B} (F : A -> list B) l : (forall x, In x l -> F x = []) -> flat_map F l = [].
Proof.
  induction l as [|x r IH]; intros H; [reflexivity|]. cbn [flat_map]. rewrite (H x (or_introl eq_refl)), IH; [reflexivity|].
  intros y Hy. apply H. right. exact Hy.
Qed.
Lemma flat_map_filter {A B} (F : A -> list B) (D : A -> bool) l :
  (forall x, In x l -> D x = false -> F x = []) -> flat_map F l = flat_map F (filter D l).
Proof.
  induction l as [|x r IH]; intros H; [reflexivity|]. cbn [flat_map filter].
  rewrite IH by (intros y Hy; apply H; right; exact Hy).
  destruct (D x) eqn:E; [reflexivity|]. rewrite (H x (or_introl eq_refl) E). reflexivity.
Qed.
Lemma filter_length_split {A} (D T : A -> bool) l :
  length (filter D l) = (length (filter (fun x => D x && negb (T x)) l) + length (filter (fun x => D x && T x) l))%nat.
Proof.
  induction l as [|x r IH]; [reflexivity|]. cbn [filter]. destruct (D x), (T x); cbn [andb negb length]; lia.
Qed.
Lemma In_filter_length {A} (P : A -> bool) l x : In x l -> P x = true -> (0 < length (filter P l))%nat.
Proof. intros H1 H2. assert (H : In x (filter P l)) by (apply filter_In; split; assumption). destruct (filter P l); [contradiction|cbn; lia]. Qed.

Lemma funseq_declared n p : funseq n p <> [] -> In n (map decl_name p).
Proof. induction p as [|d r IH]; [intros H; contradiction|]. destruct d; cbn [funseq map decl_name In]; [|destruct (Nat.eqb_spec n0 n)]; auto. Qed.
Lemma objseq_declared n p : objseq n p <> [] -> In n (map decl_name p).
Proof. induction p as [|d r IH]; [intros H; contradiction|]. destruct d; cbn [objseq map decl_name In]; [destruct (Nat.eqb_spec n0 n)|]; auto. Qed.
Lemma objseq_In n p od : In od (objseq n p) <-> In (DObj n od) p.
Proof.
  induction p as [|d r IH]; [reflexivity|].
  destruct d as [m od'|m sc il fz b]; cbn [objseq In]; [destruct (Nat.eqb_spec m n); cbn [In]|]; rewrite IH; clear IH; intuition congruence.
Qed.
Lemma body_of_app s d : body_of (s ++ [d]) = match fd_body d with Some b => b | None => body_of s end.
Proof. unfold body_of. rewrite fold_left_app. reflexivity. Qed.
Definition uses (d : decl) (t : nat) : Prop :=
  match d with
  | DObj _ od => o_init od = IAddr t
  | DFun _ _ _ _ b => exists items, b = Some items /\ In (BRef t) items
  end.
Lemma dbu_cons seen d q : declared_before_use seen (d :: q) = true ->
  (forall t, uses d t -> In t (decl_name d :: seen)) /\ declared_before_use (decl_name d :: seen) q = true.
Proof.
  intros H. destruct d as [n od|n sc il fsz b]; cbn [declared_before_use decl_name uses] in *; apply andb_true_iff in H as [H Hq];
    (split; [|exact Hq]); intros t Ht; apply existsb_nat_In.
  - rewrite Ht in H. exact H.
  - destruct Ht as (items & -> & Hi). rewrite forallb_forall in H. apply (H _ Hi).
Qed.

Lemma dbu_declared : forall q seen d t, declared_before_use seen q = true -> In d q -> uses d t -> In t (map decl_name q) \/ In t seen.
Proof.
  induction q as [|x q IH]; intros seen d t H Hd Ht; [contradiction|]. destruct (dbu_cons _ _ _ H) as [Hu H']. cbn [map In]. destruct Hd as [<-|Hd].
  - destruct (Hu t Ht) as [E|E]; auto.
  - destruct (IH _ d t H' Hd Ht) as [E|[E|E]]; auto.
Qed.

Definition keeps (f : obj -> obj) : Prop :=
  forall o, ob_name (f o) = ob_name o /\ ob_function (f o) = ob_function o /\ ob_tentative (f o) = ob_tentative o
            /\ ob_rel (f o) = ob_rel o /\ ob_init (f o) = ob_init o /\ ob_inline (f o) = ob_inline o.
Lemma keeps_redeclare fst hb sc il : keeps (redeclare fst hb sc il). Proof. intros o. repeat split. Qed.
Lemma keeps_set_body r b : keeps (set_body r b). Proof. intros o. repeat split. Qed.
Lemma keeps_set_live b : keeps (set_live b). Proof. intros o. repeat split. Qed.
Lemma keeps_set_root : keeps set_root. Proof. intros o. repeat split. Qed.
Lemma keeps_add_ref t : keeps (add_ref t). Proof. intros o. repeat split. Qed.

Definition objP (n : nat) (o : obj) : bool := same_name (User n) o && negb (ob_function o).
Definition anon_named (o : obj) : bool := match ob_name o with Anon _ => true | User _ => false end.

Inductive kind := KObj (n : nat) | KFun (g : nat) | KAnon.
Definition has_kind (k : kind) (o : obj) : bool :=
  match k with KObj n => objP n o | KFun g => is_fun_named g o | KAnon => anon_named o end.
Definition view (k : kind) (gs : list obj) : list obj := filter (has_kind k) gs.
Definition kind_of (o : obj) : kind :=
  match ob_name o with User n => if ob_function o then KFun n else KObj n | Anon _ => KAnon end.

Lemma has_kind_iff k o : has_kind k o = true <-> kind_of o = k.
Proof.
  unfold kind_of. destruct k; cbn [has_kind]; unfold objP, same_name, is_fun_named, anon_named; destruct (ob_name o), (ob_function o); cbn [ident_eqb negb andb];
    rewrite ?andb_true_r, ?andb_false_r, ?Nat.eqb_eq; split; intros H; try discriminate; try reflexivity; congruence.
Qed.
Lemma In_view o gs : In o gs -> In o (view (kind_of o) gs).
Proof. intros H. apply filter_In. split; [exact H|apply has_kind_iff; reflexivity]. Qed.
Lemma has_kind_same k o o' : ob_name o' = ob_name o -> ob_function o' = ob_function o -> has_kind k o' = has_kind k o.
Proof. intros En Ef. destruct k; cbn [has_kind]; unfold objP, same_name, is_fun_named, anon_named; rewrite ?En, ?Ef; reflexivity. Qed.
Lemma view_app k a b : view k (a ++ b) = view k a ++ view k b. Proof. apply filter_app. Qed.
Lemma view_rev k l : view k (rev l) = rev (view k l). Proof. apply filter_rev. Qed.

(* a map that keeps the kind of every object acts on each view; Fk: what it does to the objects of kind k *)
Lemma view_map k (F Fk : obj -> obj) gs :
  (forall o, ob_name (F o) = ob_name o /\ ob_function (F o) = ob_function o) -> (forall o, kind_of o = k -> F o = Fk o) ->
  view k (map F gs) = map Fk (view k gs).
Proof.
  intros HF Hk. unfold view. rewrite filter_map_comm by (intros o; destruct (HF o); apply has_kind_same; assumption).
  apply map_ext_in. intros o Ho. apply filter_In in Ho as [_ Ho]. apply Hk, has_kind_iff, Ho.
Qed.

Lemma view_update k g f gs : keeps f ->
  view k (update_fun g f gs) = match k with KFun g' => if Nat.eqb g' g then map f (view k gs) else view k gs | _ => view k gs end.
Proof.
  intros Kf. unfold update_fun.
  rewrite (view_map k _ (fun o => if match k with KFun g' => Nat.eqb g' g | _ => false end then f o else o)).
  - destruct k as [q|g'|]; [apply map_id| |apply map_id]. destruct (Nat.eqb g' g); [reflexivity|apply map_id].
  - intros o. destruct (is_fun_named g o); [destruct (Kf o) as (En & Ef & _); auto|auto].
  - intros o <-. destruct (is_fun_named g o) eqn:E.
    + apply (has_kind_iff (KFun g)) in E. rewrite E, Nat.eqb_refl. reflexivity.
    + destruct (kind_of o) as [q|g'|] eqn:Ek; [reflexivity| |reflexivity]. destruct (Nat.eqb_spec g' g) as [->|]; [|reflexivity].
      apply (has_kind_iff (KFun g)) in Ek. cbn [has_kind] in Ek. congruence.
Qed.

Lemma find_fun_filter n gs : find_fun n gs = hd_error (view (KFun n) gs).
Proof. induction gs as [|o r IH]; [reflexivity|]. unfold view in *. cbn [find_fun filter has_kind] in *. destruct (is_fun_named n o); [reflexivity|exact IH]. Qed.
(* find_var(name) at file scope: the newest object of that name *)
Lemma find_objP n gs : view (KFun n) gs = [] ->
  find (fun o => ident_eqb (User n) (ob_name o)) gs = hd_error (view (KObj n) gs).
Proof.
  unfold view. induction gs as [|o r IH]; intros H; [reflexivity|]. cbn [filter find has_kind] in *. unfold objP at 1, same_name. unfold is_fun_named at 1 in H.
  destruct (ident_eqb (User n) (ob_name o)) eqn:E; cbn [andb].
  - destruct (ob_function o); [discriminate|reflexivity].
  - rewrite andb_false_r in H. apply IH. exact H.
Qed.

Lemma resolve_kt sc (kt : nat -> bool * bool) m :
  (forall x k, In (x, k) sc -> k = kt x) -> In m (map fst sc) -> resolve sc m = Some (kt m).
Proof.
  induction sc as [|[x k] r IH]; intros H1 H2; [contradiction|]. cbn [resolve].
  destruct (Nat.eqb_spec x m) as [->|Hne]; [rewrite (H1 m k (or_introl eq_refl)); reflexivity|].
  apply IH; [intros y k' Hy; apply H1; right; exact Hy|]. destruct H2 as [H2|H2]; [cbn in H2; contradiction|exact H2].
Qed.

Definition funrefs (isf : nat -> bool) (items : list bitem) : list nat :=
  flat_map (fun i => match i with BRef m => if isf m then [m] else [] | _ => [] end) items.
(* the relocations the uses in `body` produce against the identifier n *)
Definition flags_of (n : nat) (body : list rref) : list bool := flat_map (ref_flags (User n)) body.
(* `body` is made from `items`, as far as relocations go: those against n carry the thread-locality of n, and there is one iff the items name n *)
Definition body_ok (kt : nat -> bool * bool) (items : list bitem) (body : list rref) : Prop :=
  forall n t, In t (flags_of n body) <-> t = snd (kt n) /\ existsb (refs_item n) items = true.
Fixpoint body_anons (fn a : nat) (items : list bitem) : list obj :=
  match items with
  | [] => []
  | BRef _ :: r => body_anons fn a r
  | BStatic tl sz al arr hi :: r => anon_obj_of a tl hi sz al arr (Some fn) :: body_anons fn (S a) r
  | BString sz :: r => anon_obj_of a false true sz 1 true None :: body_anons fn (S a) r
  end.
Lemma body_anons_kind fn items : forall a o, In o (body_anons fn a items) -> kind_of o = KAnon.
Proof.
  induction items as [|i r IH]; intros a o Ho; [contradiction|].
  destruct i; cbn [body_anons] in Ho; [eapply IH; exact Ho| |]; (destruct Ho as [<-|Ho]; [reflexivity|eapply IH; exact Ho]).
Qed.
(* what a declaration of the function fn adds to the anonymous objects, oldest first: with a body, __func__, __FUNCTION__ and the body's own *)
Definition new_anons (a fn : nat) (fsz : Z) (body : option (list bitem)) : list obj :=
  match body with
  | Some items => anon_obj_of a false true fsz 1 true None :: anon_obj_of (S a) false true fsz 1 true None :: body_anons fn (S (S a)) items
  | None => []
  end.
Lemma new_anons_view a fn fsz body k : view k (new_anons a fn fsz body) = match k with KAnon => new_anons a fn fsz body | _ => [] end.
Proof.
  assert (H : forall o, In o (new_anons a fn fsz body) -> kind_of o = KAnon).
  { destruct body as [items|]; [|intros o []]. intros o [<-|[<-|Ho]]; [reflexivity..|]. eapply body_anons_kind. exact Ho. }
  unfold view. destruct k; [apply filter_none|apply filter_none|apply filter_all]; intros o Ho; specialize (H o Ho).
  - destruct (has_kind (KObj n) o) eqn:E; [apply has_kind_iff in E; congruence|reflexivity].
  - destruct (has_kind (KFun g) o) eqn:E; [apply has_kind_iff in E; congruence|reflexivity].
  - apply has_kind_iff. exact H.
Qed.

Lemma parse_body_anons sc fn items : forall anon gs refs body,
  fst (fst (fst (parse_body sc fn items anon gs refs body))) = rev (body_anons fn anon items) ++ gs
  /\ snd (fst (fst (parse_body sc fn items anon gs refs body))) = (anon + length (body_anons fn anon items))%nat.
Proof.
  induction items as [|i r IH]; intros anon gs refs body; [cbn; split; [reflexivity|symmetry; apply Nat.add_0_r]|].
  destruct i as [m|tl sz al arr hi|sz]; cbn [parse_body body_anons].
  1: destruct (resolve sc m) as [[[|] t]|]; apply IH.
  (* a block-scope static, a string literal: one more anonymous object either way *)
  all: edestruct IH as [E1 E2]; split; [rewrite E1; cbn [rev]; rewrite <- app_assoc; reflexivity|rewrite E2; apply Nat.add_succ_comm].
Qed.

Lemma parse_body_refs sc fn kt : (forall x k, In (x, k) sc -> k = kt x) -> (forall m, fst (kt m) = true -> snd (kt m) = false) ->
  forall items anon gs refs body, (forall m, In (BRef m) items -> In m (map fst sc)) ->
  snd (fst (parse_body sc fn items anon gs refs body)) = refs ++ funrefs (fun m => fst (kt m)) items
  /\ forall n t, In t (flags_of n (snd (parse_body sc fn items anon gs refs body))) <->
                 In t (flags_of n body) \/ t = snd (kt n) /\ existsb (refs_item n) items = true.
Proof.
  intros Hsc Hkt. assert (F : forall X : Prop, False \/ X <-> X) by (intros X; split; [intros [[]|H]; exact H|intros H; right; exact H]).
  induction items as [|i r IH]; intros anon gs refs body Hin.
  { cbn. rewrite app_nil_r. split; [reflexivity|]. intros n t. split; [auto|]. intros [H|[_ H]]; [exact H|discriminate]. }
  assert (Hin' : forall m, In (BRef m) r -> In m (map fst sc)) by (intros m Hm; apply Hin; right; exact Hm).
  destruct i as [m|tl sz al arr hi|sz]; cbn [parse_body funrefs flat_map existsb refs_item orb].
  1: rewrite (resolve_kt sc kt m Hsc (Hin m (or_introl eq_refl))); specialize (Hkt m); destruct (kt m) as [[|] tm] eqn:Ek; cbn [fst snd] in *; [rewrite (Hkt eq_refl) in Ek|].
  all: edestruct IH as [E1 E2]; [exact Hin'|]; split; [rewrite E1; cbn [app]; rewrite <- ?app_assoc; reflexivity|].
  all: intros n t; rewrite E2; unfold flags_of; rewrite flat_map_app, in_app_iff, or_assoc; apply or_iff_compat_l; cbn [flat_map ref_flags ident_eqb app].
  (* a use of m is a use of n iff m = n, and then it carries the flag of n (false for a function) *)
  1,2: rewrite (Nat.eqb_sym n m); destruct (Nat.eqb_spec m n) as [->|]; [rewrite Ek; cbn [snd app In orb]|apply F]; clear;
    (split; [intros [[<-|[]]|[-> _]]; auto|intros [-> _]; left; left; reflexivity]).
  (* a block-scope static, a string literal: the label is no identifier *)
  all: apply F.
Qed.

(* the objects of one identifier, with the alignment carried from declaration to declaration *)
Fixpoint acc_objs (n : nat) (prev : option Z) (s : list objdecl) : list obj :=
  match s with [] => [] | d :: r => let a := new_align d prev in obj_of_decl n d a :: acc_objs n (Some a) r end.
Lemma acc_objs_In n s : forall prev x, In x (acc_objs n prev s) -> exists od a, In od s /\ x = obj_of_decl n od a.
Proof.
  induction s as [|d r IH]; intros prev x Hx; [contradiction|]. cbn [acc_objs] in Hx. destruct Hx as [<-|Hx]; [exists d; eexists; split; [left|]; reflexivity|].
  destruct (IH _ x Hx) as (od & a & Hin & E). exists od, a. split; [right; exact Hin|exact E].
Qed.
Lemma acc_objs_In_conv n s od : forall prev, In od s -> exists a, In (obj_of_decl n od a) (acc_objs n prev s).
Proof.
  induction s as [|d r IH]; intros prev H; [contradiction|]. cbn [acc_objs]. destruct H as [->|H].
  - eexists. left. reflexivity.
  - destruct (IH (Some (new_align d prev)) H) as (a & Ha). exists a. right. exact Ha.
Qed.
Lemma acc_filter_len (P : obj -> bool) (Q : objdecl -> bool) n : (forall d a, P (obj_of_decl n d a) = Q d) ->
  forall s prev, length (filter P (rev (acc_objs n prev s))) = length (filter Q s).
Proof.
  intros H. induction s as [|d r IH]; intros prev; [reflexivity|]. cbn [acc_objs rev filter]. rewrite filter_app, app_length, IH. cbn [filter].
  rewrite H. destruct (Q d); cbn [length]; lia.
Qed.

Lemma step_fun_unfold st n sc il fsz body :
  step st (DFun n sc il fsz body) =
  let hb := match body with Some _ => true | None => false end in
  let first := match find_fun n (ps_globals st) with Some _ => false | None => true end in
  let gs1 := if first then redeclare true hb sc il (new_fun n sc il) :: ps_globals st else update_fun n (redeclare false hb sc il) (ps_globals st) in
  let scope1 := if first then (n, (true, false)) :: ps_scope st else ps_scope st in
  match body with
  | None => mkPS gs1 scope1 (ps_anon st) (ps_cur st)
  | Some items =>
      let a := ps_anon st in
      let gs2 := anon_obj_of (S a) false true fsz 1 true None :: anon_obj_of a false true fsz 1 true None :: gs1 in
      let r := parse_body scope1 n items (S (S a)) gs2 [] [] in
      mkPS (update_fun n (set_body (snd (fst r)) (snd r)) (fst (fst (fst r)))) scope1 (snd (fst (fst r))) None
  end.
Proof.
  cbn [step]. destruct (find_fun n (ps_globals st)); destruct body as [items|]; try reflexivity.
  - destruct (parse_body _ _ items _ _ [] []) as [[[g a] r] b]. reflexivity.
  - destruct (parse_body _ _ items _ _ [] []) as [[[g a] r] b]. reflexivity.
Qed.

(* function(): what one declaration of the function n does to the parser state, whatever the state.  `fin` is what
   compound_stmt leaves in the function object. *)
Lemma step_fun_views st n sc il fsz body :
  let G := ps_globals st in
  let hb := match body with Some _ => true | None => false end in
  let first := match view (KFun n) G with [] => true | _ => false end in
  let scope1 := if first then (n, (true, false)) :: ps_scope st else ps_scope st in
  let st' := step st (DFun n sc il fsz body) in
  exists fin : obj -> obj,
    match body with
    | Some items => exists gs2, fin = set_body (snd (fst (parse_body scope1 n items (S (S (ps_anon st))) gs2 [] []))) (snd (parse_body scope1 n items (S (S (ps_anon st))) gs2 [] []))
    | None => fin = fun o => o
    end /\
    ps_scope st' = scope1 /\
    ps_anon st' = (ps_anon st + length (new_anons (ps_anon st) n fsz body))%nat /\
    ps_cur st' = (if hb then None else ps_cur st) /\
    forall k, view k (ps_globals st') =
      match k with
      | KObj _ => view k G
      | KAnon => rev (new_anons (ps_anon st) n fsz body) ++ view k G
      | KFun g => if Nat.eqb g n then map fin (if first then [redeclare true hb sc il (new_fun n sc il)] else map (redeclare false hb sc il) (view k G)) else view k G
      end.
Proof.
  cbv zeta. rewrite step_fun_unfold. cbv zeta. rewrite find_fun_filter.
  set (hb := match body with Some _ => true | None => false end).
  set (fo0 := redeclare true hb sc il (new_fun n sc il)).
  set (first := match hd_error (view (KFun n) (ps_globals st)) with Some _ => false | None => true end).
  replace (match view (KFun n) (ps_globals st) with [] => true | _ => false end) with first by (unfold first; destruct (view (KFun n) (ps_globals st)); reflexivity).
  (* the declaration proper, before the body *)
  set (gs1 := if first then fo0 :: ps_globals st else update_fun n (redeclare false hb sc il) (ps_globals st)).
  assert (S1 : forall k, view k gs1 = match k with
                                     | KFun g => if Nat.eqb g n then (if first then [fo0] else map (redeclare false hb sc il) (view k (ps_globals st))) else view k (ps_globals st)
                                     | _ => view k (ps_globals st) end).
  { intros k. unfold gs1, first. destruct (view (KFun n) (ps_globals st)) as [|fo l] eqn:Ev; cbn [hd_error].
    - assert (Hk : has_kind k fo0 = match k with KFun g => Nat.eqb g n | _ => false end).
      { destruct k; cbn [has_kind]; unfold objP, same_name, is_fun_named, anon_named; cbn; rewrite ?andb_false_r; reflexivity. }
      unfold view at 1. cbn [filter]. fold (view k (ps_globals st)). rewrite Hk. destruct k as [q|g|]; [reflexivity| |reflexivity]. clear Hk.
      destruct (Nat.eqb_spec g n) as [->|]; [rewrite Ev; reflexivity|reflexivity].
    - rewrite view_update by apply keeps_redeclare. destruct k; reflexivity. }
  destruct body as [items|]; cbn [new_anons length].
  - eexists. split; [eexists; reflexivity|]. cbn [ps_scope ps_anon ps_cur ps_globals]. split; [reflexivity|].
    destruct (parse_body_anons (if first then (n, (true, false)) :: ps_scope st else ps_scope st) n items (S (S (ps_anon st)))
                (anon_obj_of (S (ps_anon st)) false true fsz 1 true None :: anon_obj_of (ps_anon st) false true fsz 1 true None :: gs1) [] []) as [E1 E2].
    split; [rewrite E2; cbn [length]; lia|]. split; [reflexivity|]. intros k. rewrite view_update, E1 by apply keeps_set_body.
    (* in front of gs1 stand the new anonymous objects, newest first *)
    change (rev (body_anons n (S (S (ps_anon st))) items) ++ ?f1 :: ?f0 :: gs1) with (rev (body_anons n (S (S (ps_anon st))) items) ++ rev [f0; f1] ++ gs1).
    rewrite app_assoc, <- rev_app_distr. change ([?f0; ?f1] ++ body_anons n (S (S (ps_anon st))) items) with (new_anons (ps_anon st) n fsz (Some items)).
    destruct k as [q|g|]; rewrite ?view_app, ?view_rev, ?new_anons_view, S1; [reflexivity| |reflexivity].
    destruct (Nat.eqb g n); reflexivity.
  - exists (fun o => o). split; [reflexivity|]. cbn [ps_scope ps_anon ps_cur ps_globals]. split; [reflexivity|]. split; [apply plus_n_O|]. split; [reflexivity|].
    intros k. rewrite S1. destruct k as [q|g|]; [reflexivity| |reflexivity]. destruct (Nat.eqb g n); [|reflexivity]. symmetry. apply map_id.
Qed.

(* global_variable(), whatever the state: the twin of step_fun_views *)
Lemma step_obj_views st n od :
  let o := obj_of_decl n od (new_align od (prev_align (ps_globals st) n)) in
  let sc := (n, (false, o_tls od)) :: ps_scope st in
  let st' := step st (DObj n od) in
  ps_scope st' = sc /\ ps_anon st' = ps_anon st /\ ps_cur st' = ps_cur st /\
  forall k, match k with
            | KObj m => view k (ps_globals st') = if Nat.eqb m n then o :: view k (ps_globals st) else view k (ps_globals st)
            | KAnon => view k (ps_globals st') = view k (ps_globals st)
            | KFun g => ps_cur st = None ->
                view k (ps_globals st') =
                if match o_init od with IAddr t => match resolve sc t with Some (true, _) => Nat.eqb g t | _ => false end | _ => false end
                then map set_root (view k (ps_globals st)) else view k (ps_globals st)
            end.
Proof.
  cbv zeta. cbn [step]. set (o := obj_of_decl n od _). set (sc := _ :: ps_scope st).
  assert (V0 : forall k, view k (o :: ps_globals st) = match k with KObj m => if Nat.eqb m n then o :: view k (ps_globals st) else view k (ps_globals st) | _ => view k (ps_globals st) end).
  { intros k. unfold view. cbn [filter]. destruct k; cbn [has_kind]; unfold objP, same_name, is_fun_named, anon_named; cbn [o obj_of_decl ob_name ob_function ident_eqb andb negb];
      rewrite ?andb_true_r, ?andb_false_r; reflexivity. }
  (* no function reference is noted (no initializer that names a function): `globals` is o in front of the old list *)
  assert (T : forall gs', gs' = o :: ps_globals st ->
            forall k, match k with
                      | KObj m => view k gs' = if Nat.eqb m n then o :: view k (ps_globals st) else view k (ps_globals st)
                      | KAnon => view k gs' = view k (ps_globals st)
                      | KFun g => ps_cur st = None -> view k gs' = view k (ps_globals st)
                      end) by (intros gs' -> [m|g|]; [exact (V0 (KObj m))|intros _; exact (V0 (KFun g))|exact (V0 KAnon)]).
  destruct (o_init od) as [| |t]; [repeat split; apply T; reflexivity..|].
  destruct (resolve sc t) as [[[|] tl]|]; [|repeat split; apply T; reflexivity..].
  (* the initializer names a function: note_fun_ref updates function objects only, so the other views are as in V0 *)
  repeat split. cbn [ps_globals]. unfold note_fun_ref. intros [m|g|].
  - destruct (ps_cur st); rewrite view_update by (apply keeps_add_ref || apply keeps_set_root); exact (V0 (KObj m)).
  - intros ->. rewrite view_update by apply keeps_set_root. rewrite V0. reflexivity.
  - destruct (ps_cur st); rewrite view_update by (apply keeps_add_ref || apply keeps_set_root); exact (V0 KAnon).
Qed.

Section Parse.
Variable ds : list decl.

Definition kt (m : nat) : bool * bool := if is_fun_name ds m then (true, false) else (false, obj_tls_of ds m).
Definition isf (m : nat) : bool := fst (kt m).

Definition first_static (d1 : fundecl) : bool := sc_eqb (fd_sc d1) SC_static || (fd_inl d1 && negb (sc_eqb (fd_sc d1) SC_extern)).

(* is_inline_def / is_static after all declarations so far (85373f4) *)
Definition clears (d : fundecl) : bool := clears_inline_def (fd_sc d) (fd_inl d).
Definition idef0 (d1 : fundecl) : bool := first_static d1 && negb (sc_eqb (fd_sc d1) SC_static).
Definition idef_of (s : list fundecl) : bool := match s with [] => false | d1 :: r => idef0 d1 && negb (existsb clears r) end.
Definition static_of (s : list fundecl) : bool :=
  match s with [] => false | d1 :: r => if idef0 d1 then negb (existsb clears r) else first_static d1 end.
Definition inline_of (s : list fundecl) : bool := match s with [] => false | d1 :: _ => fd_inl d1 end.
Lemma static_of_one d : static_of [d] = first_static d.
Proof. unfold static_of, idef0. cbn [existsb negb]. destruct (first_static d), (sc_eqb (fd_sc d) SC_static); reflexivity. Qed.
Lemma idef_of_snoc d1 r d : idef_of ((d1 :: r) ++ [d]) = if idef_of (d1 :: r) && clears d then false else idef_of (d1 :: r).
Proof. cbn [app idef_of]. rewrite existsb_app. cbn [existsb]. rewrite orb_false_r. destruct (idef0 d1), (existsb clears r), (clears d); reflexivity. Qed.
Lemma static_of_snoc d1 r d : static_of ((d1 :: r) ++ [d]) = if idef_of (d1 :: r) && clears d then false else static_of (d1 :: r).
Proof. cbn [app static_of idef_of]. rewrite existsb_app. cbn [existsb]. rewrite orb_false_r. destruct (idef0 d1), (existsb clears r), (clears d), (first_static d1); reflexivity. Qed.

(* The function object of g after the declarations s of g; at_: a file-scope initializer seen so far names the function.  Only the labels
   inside the body are not determined by the declarations, so ob_body is a parameter; ob_refs is one because it grows with every body met
   (fobj_set_body), and fun_view puts all_funrefs s there. *)
Definition fobj (g : nat) (s : list fundecl) (at_ : bool) (refs : list nat) (body : list rref) : obj :=
  mkObj (User g) true (existsb has_body s) (static_of s) false false (inline_of s) (negb (static_of s && inline_of s) || at_) false
        false None 0 0 false refs body (idef_of s) None.

Lemma fobj_set_root g s at_ refs body : set_root (fobj g s at_ refs body) = fobj g s true refs body.
Proof. unfold set_root, fobj. cbn. rewrite orb_true_r. reflexivity. Qed.
Lemma fobj_first n d : redeclare true (has_body d) (fd_sc d) (fd_inl d) (new_fun n (fd_sc d) (fd_inl d)) = fobj n [d] false [] [].
Proof.
  unfold fobj, redeclare, new_fun. rewrite static_of_one. unfold idef_of, idef0, first_static, inline_of. cbn.
  rewrite ?orb_false_r, ?andb_true_r. reflexivity.
Qed.
Lemma fobj_redeclare n d1 s' at_ refs body d :
  redeclare false (has_body d) (fd_sc d) (fd_inl d) (fobj n (d1 :: s') at_ refs body) = fobj n ((d1 :: s') ++ [d]) at_ refs body.
Proof.
  unfold fobj at 2. rewrite static_of_snoc, idef_of_snoc, existsb_app. unfold fobj, redeclare, clears. cbn -[static_of idef_of existsb]. cbn [existsb].
  rewrite orb_false_r. f_equal.
  destruct (idef_of (d1 :: s') && clears_inline_def (fd_sc d) (fd_inl d)), (static_of (d1 :: s')), (fd_inl d1), at_; reflexivity.
Qed.
Lemma fobj_set_body g s at_ refs body r b : set_body r b (fobj g s at_ refs body) = fobj g s at_ (refs ++ r) b.
Proof. reflexivity. Qed.

Definition all_funrefs (s : list fundecl) : list nat :=
  flat_map (fun d => match fd_body d with Some b => funrefs isf b | None => [] end) s.
Lemma all_funrefs_snoc s d : all_funrefs (s ++ [d]) = all_funrefs s ++ match fd_body d with Some b => funrefs isf b | None => [] end.
Proof. unfold all_funrefs. rewrite flat_map_app. cbn [flat_map]. rewrite app_nil_r. reflexivity. Qed.

Lemma hd_error_nil {A} (l : list A) : hd_error l = None -> l = [].
Proof. destruct l; [reflexivity|discriminate]. Qed.

(* what every declaration of a valid unit has (EmitProofs.V_dok): the kind and the thread-locality that `kt` gives its name *)
Definition dok (d : decl) : Prop :=
  match d with
  | DObj n od => is_fun_name ds n = false /\ o_tls od = obj_tls_of ds n
  | DFun n _ _ _ _ => is_fun_name ds n = true
  end.

(* a parser state between two declarations; seen: the names declared so far *)
Record J (seen : list nat) (st : pstate) : Prop := mkJ {
  j_kt : forall m k, In (m, k) (ps_scope st) -> k = kt m;
  j_sc : forall m, In m (map fst (ps_scope st)) <-> In m seen;
  j_fun : forall g, view (KFun g) (ps_globals st) <> [] -> In g seen /\ is_fun_name ds g = true;
  j_cur : ps_cur st = None }.

Lemma J_step seen st d : J seen st -> dok d -> J (decl_name d :: seen) (step st d).
Proof.
  intros [K S F C] Hd. destruct d as [n od|n sc il fsz body]; cbn [decl_name].
  - destruct Hd as [Hnf Htls]. destruct (step_obj_views st n od) as (Es & _ & Ec & Ev). cbv zeta in *.
    constructor; rewrite ?Es, ?Ec; [| | |exact C].
    + intros m k [H|H]; [injection H as <- <-; unfold kt; rewrite Hnf, Htls; reflexivity|apply K; exact H].
    + intros m. exact (or_iff_compat_l _ (S m)).
    + intros g Hg. destruct (F g) as [H1 H2]; [|split; [right; exact H1|exact H2]].
      intros E. apply Hg. rewrite (Ev (KFun g) C), E. destruct (match o_init od with INone => _ | _ => _ end); reflexivity.
  - cbn [dok] in Hd. destruct (step_fun_views st n sc il fsz body) as (fin & _ & Es & _ & Ec & Ev). cbv zeta in *.
    constructor; rewrite ?Es, ?Ec.
    + destruct (view (KFun n) (ps_globals st)); [|exact K].
      intros m k [H|H]; [injection H as <- <-; unfold kt; rewrite Hd; reflexivity|apply K; exact H].
    + intros m. destruct (view (KFun n) (ps_globals st)) eqn:E0; [exact (or_iff_compat_l _ (S m))|].
      rewrite S. split; [right; assumption|]. intros [<-|H]; [apply F; rewrite E0; discriminate|exact H].
    + intros g Hg. rewrite (Ev (KFun g)) in Hg. destruct (Nat.eqb_spec g n) as [E|_]; [subst g; split; [left; reflexivity|exact Hd]|].
      destruct (F g Hg). split; [right|]; assumption.
    + destruct body; [reflexivity|exact C].
Qed.

(* the objects called n: prev_align reads the alignment off the newest one *)
Definition carried (n : nat) (gs : list obj) : option Z :=
  match hd_error (view (KObj n) gs) with Some o => if ob_function o then None else Some (ob_align o) | None => None end.

Lemma run_obj n : forall q seen st, J seen st -> Forall dok q ->
  view (KObj n) (ps_globals (fold_left step q st)) = rev (acc_objs n (carried n (ps_globals st)) (objseq n q)) ++ view (KObj n) (ps_globals st).
Proof.
  induction q as [|d q IH]; intros seen st HJ Hq; [reflexivity|]. inversion Hq as [|? ? Hd Hq']. subst.
  cbn [fold_left]. rewrite (IH _ _ (J_step _ _ _ HJ Hd) Hq'). clear IH. unfold carried at 1.
  destruct d as [m od|m sc il fsz body].
  - destruct (step_obj_views st m od) as (_ & _ & _ & Ev). specialize (Ev (KObj n)). cbv zeta in Ev. cbn beta iota in Ev. rewrite Ev. cbn [objseq].
    rewrite (Nat.eqb_sym n m). destruct (Nat.eqb_spec m n) as [->|Hne]; [|reflexivity].
    assert (E : prev_align (ps_globals st) n = carried n (ps_globals st)).
    { unfold prev_align. rewrite find_objP; [reflexivity|]. destruct (view (KFun n) (ps_globals st)) eqn:E; [reflexivity|].
      destruct (j_fun _ _ HJ n) as [_ H]; [rewrite E; discriminate|]. destruct Hd. congruence. }
    rewrite E. cbn [hd_error acc_objs rev obj_of_decl ob_function ob_align]. rewrite <- app_assoc. reflexivity.
  - destruct (step_fun_views st m sc il fsz body) as (fin & _ & _ & _ & _ & Ev). cbv zeta in Ev. rewrite (Ev (KObj n)). reflexivity.
Qed.

(* the function objects called g after the declarations s of g: none, or the one that s determines up to the labels in its body *)
Definition fun_view (at_ : bool) (g : nat) (s : list fundecl) (l : list obj) : Prop :=
  match s with
  | [] => l = []
  | _ :: _ => exists b, l = [fobj g s at_ (all_funrefs s) b] /\ body_ok kt (body_of s) b
  end.
Lemma fun_view_one at_ g s refs b : s <> [] -> refs = all_funrefs s -> body_ok kt (body_of s) b -> fun_view at_ g s [fobj g s at_ refs b].
Proof. intros Hs -> Hb. destruct s; [contradiction|]. exists b. auto. Qed.

(* while g is not declared (s = []) no initializer has named it: declared_before_use *)
Lemma run_fun g : is_fun_name ds g = true -> forall q seen st s at_, J seen st -> Forall dok q -> declared_before_use seen q = true ->
  (s = [] -> ~ In g seen /\ at_ = false) -> fun_view at_ g s (view (KFun g) (ps_globals st)) ->
  fun_view (at_ || addr_taken_at_file_scope q g) g (s ++ funseq g q) (view (KFun g) (ps_globals (fold_left step q st))).
Proof.
  intros Hg. induction q as [|d q IH]; intros seen st s at_ HJ Hq Hdbu Hs Hv; [cbn; rewrite app_nil_r, orb_false_r; exact Hv|].
  inversion Hq as [|? ? Hd Hq']. subst. destruct (dbu_cons _ _ _ Hdbu) as [Huse Hdbu'].
  pose proof (J_step _ _ _ HJ Hd) as HJ'. cbn [fold_left].
  specialize (fun s at_ => IH _ (step st d) s at_ HJ' Hq' Hdbu').
  destruct d as [n od|n sc il fsz body]; cbn [decl_name] in *.
  - (* an object declaration: primary() makes g a root if the initializer names it *)
    destruct Hd as [Hnf _]. assert (Hne : g <> n) by congruence.
    destruct (step_obj_views st n od) as (Es & _ & _ & Ev). specialize (Ev (KFun g) (j_cur _ _ HJ)). cbv zeta in Es, Ev. cbn beta iota in Ev.
    unfold addr_taken_at_file_scope. cbn [existsb funseq]. fold (addr_taken_at_file_scope q g).
    set (c := match o_init od with IAddr t => Nat.eqb t g | _ => false end).
    assert (Ec : match o_init od with IAddr t => match resolve ((n, (false, o_tls od)) :: ps_scope st) t with Some (true, _) => Nat.eqb g t | _ => false end | _ => false end = c
                 /\ (c = true -> In g seen)).
    { unfold c. destruct (o_init od) as [| |t] eqn:Ei; [split; [reflexivity|discriminate]..|]. destruct (Nat.eqb_spec t g) as [->|Ht].
      - assert (Hin : In g seen) by (destruct (Huse g Ei) as [H|H]; [congruence|exact H]).
        rewrite <- Es, (resolve_kt _ (kt) g (j_kt _ _ HJ')) by (apply (j_sc _ _ HJ'); right; exact Hin).
        unfold kt. rewrite Hg, Nat.eqb_refl. auto.
      - split; [|discriminate]. destruct (resolve _ t) as [[[|] ?]|]; [|reflexivity..]. apply Nat.eqb_neq. congruence. }
    destruct Ec as [Ec Hc]. rewrite Ec in Ev. destruct c.
    + destruct s as [|d1 s']; [destruct (Hs eq_refl) as [H _]; contradiction (H (Hc eq_refl))|]. destruct Hv as (b & Hv & Hb).
      rewrite orb_true_r. apply (IH (d1 :: s') true); [discriminate|]. rewrite Ev, Hv. cbn [map]. rewrite fobj_set_root. exists b. auto.
    + apply IH; [|rewrite Ev; exact Hv]. intros E. destruct (Hs E) as [H1 H2]. split; [intros [H|H]; [exact (Hne (eq_sym H))|exact (H1 H)]|exact H2].
  - cbn [dok] in Hd. unfold addr_taken_at_file_scope. cbn [existsb funseq orb]. fold (addr_taken_at_file_scope q g).
    destruct (step_fun_views st n sc il fsz body) as (fin & Hfin & Es & _ & _ & Ev). cbv zeta in *. specialize (Ev (KFun g)). cbn beta iota in Ev.
    rewrite (Nat.eqb_sym g n) in Ev. destruct (Nat.eqb_spec n g) as [->|Hne].
    2:{ apply IH; [|rewrite Ev; exact Hv]. intros E. destruct (Hs E) as [H1 H2]. split; [intros [H|H]; [exact (Hne H)|exact (H1 H)]|exact H2]. }
    set (d := mkFD sc il body). change (match body with Some _ => true | None => false end) with (has_body d) in *.
    replace (s ++ d :: funseq g q) with ((s ++ [d]) ++ funseq g q) by (rewrite <- app_assoc; reflexivity).
    assert (Hne : s ++ [d] <> []) by (destruct s; discriminate).
    apply IH; [intros E; contradiction|]. rewrite Ev.
    (* up to the body: the function object of all declarations of g, this one included *)
    assert (FO : exists b, (if match view (KFun g) (ps_globals st) with [] => true | _ => false end
                            then [redeclare true (has_body d) sc il (new_fun g sc il)] else map (redeclare false (has_body d) sc il) (view (KFun g) (ps_globals st)))
                           = [fobj g (s ++ [d]) at_ (all_funrefs s) b] /\ body_ok kt (body_of s) b).
    { destruct s as [|d1 s']; cbn [fun_view] in Hv.
      - rewrite Hv, (proj2 (Hs eq_refl)). exists []. split; [exact (f_equal (fun x => [x]) (fobj_first g d))|intros m t; cbn; intuition discriminate].
      - destruct Hv as (b & -> & Hb). exists b. split; [exact (f_equal (fun x => [x]) (fobj_redeclare g d1 s' _ _ b d))|exact Hb]. }
    destruct FO as (b & -> & FB). cbn [map].
    assert (S1 : forall m k, In (m, k) (ps_scope (step st (DFun g sc il fsz body))) -> k = kt m) by apply (j_kt _ _ HJ').
    assert (S2 : forall items m, body = Some items -> In (BRef m) items -> In m (map fst (ps_scope (step st (DFun g sc il fsz body)))))
      by (intros items m E Hm; apply (j_sc _ _ HJ'), Huse; exists items; auto).
    rewrite Es in S1, S2.
    assert (Hkt : forall m, fst (kt m) = true -> snd (kt m) = false) by (intros m; unfold kt; destruct (is_fun_name ds m); [reflexivity|discriminate]).
    destruct body as [items|]; [destruct Hfin as (gs2 & ->); rewrite fobj_set_body|rewrite Hfin];
      (apply fun_view_one; [exact Hne|rewrite all_funrefs_snoc|rewrite body_of_app]); cbn [fd_body d].
    + f_equal. refine (proj1 (parse_body_refs _ g (kt) S1 Hkt items _ gs2 [] [] _)). intros m Hm. apply (S2 items m eq_refl Hm).
    + intros m t. etransitivity; [refine (proj2 (parse_body_refs _ g (kt) S1 Hkt items _ gs2 [] [] _) m t); intros x Hx; apply (S2 items x eq_refl Hx)|]. split; [intros [[]|H]; exact H|intros H; right; exact H].
    + symmetry. apply app_nil_r.
    + exact FB.
Qed.

Lemma run_J : forall q seen st, J seen st -> Forall dok q -> J (rev (map decl_name q) ++ seen) (fold_left step q st).
Proof.
  induction q as [|d q IH]; intros seen st HJ Hq; [exact HJ|]. inversion Hq as [|? ? Hd Hq']. subst.
  cbn [map rev]. rewrite <- app_assoc. apply IH; [apply J_step; assumption|exact Hq'].
Qed.

Lemma J0 : J [] (mkPS [] [] 0 None).
Proof. constructor; cbn; intros; tauto. Qed.

(* `globals` after the whole unit, by kind; a valid unit provides the premises (EmitProofs.V_dok, V_parts); the anonymous objects: EmitAnon.parse_anon *)
Theorem parse_obj n : Forall dok ds -> view (KObj n) (ps_globals (parse ds)) = rev (acc_objs n None (objseq n ds)).
Proof. intros Hok. unfold parse. rewrite (run_obj n ds [] _ J0 Hok). apply app_nil_r. Qed.

Theorem parse_fun g : Forall dok ds -> declared_before_use [] ds = true ->
  fun_view (addr_taken_at_file_scope ds g) g (funseq g ds) (view (KFun g) (ps_globals (parse ds))).
Proof.
  intros Hok Hdbu. destruct (is_fun_name ds g) eqn:Hg.
  - apply (run_fun g Hg ds [] _ [] false J0 Hok Hdbu); [auto|reflexivity].
  - (* no declaration of a function g: the final state has no function object of that name *)
    assert (E : view (KFun g) (ps_globals (parse ds)) = []).
    { destruct (view (KFun g) _) eqn:E; [reflexivity|]. destruct (j_fun _ _ (run_J ds [] _ J0 Hok) g) as [_ H]; [unfold parse in E; rewrite E; discriminate|congruence]. }
    unfold is_fun_name in Hg. destruct (funseq g ds); [exact E|discriminate].
Qed.

End Parse.

Definition realP (a : ident) (o : obj) : bool := ob_definition o && negb (ob_tentative o) && same_name a o.
Definition has_real (all : list obj) (a : ident) : bool := existsb (realP a) all.
Definition tent_named (a : ident) (o : obj) : bool := ob_tentative o && same_name a o.
Definition tent_count (a : ident) (l : list obj) : nat := length (filter (tent_named a) l).

Theorem tentative_merged gs a :
  tent_count a (scan_globals gs) = if has_real gs a then 0%nat else if Nat.eqb (tent_count a gs) 0 then 0%nat else 1%nat.
Proof. exact (gscan_merged ob_name ob_tentative ob_definition ident_eqb ident_eqb_spec gs a). Qed.

Definition nt (o : obj) : bool := negb (ob_tentative o).
Theorem real_definitions_kept gs : filter nt (scan_globals gs) = filter nt gs.
Proof. exact (gscan_nontent ob_name ob_tentative ob_definition ident_eqb gs gs []). Qed.

Lemma scan_globals_In gs x : In x (scan_globals gs) -> In x gs.
Proof. intros H. apply (gscan_In ob_name ob_tentative ob_definition ident_eqb) in H as [[]|H]. exact H. Qed.

Lemma view_mark k gs : view k (mark gs) = match k with KFun g => map (set_live (model_live gs g)) (view k gs) | _ => view k gs end.
Proof.
  unfold mark. rewrite (view_map k _ (match k with KFun g => set_live (model_live gs g) | _ => fun o => o end)).
  - destruct k as [n|g|]; [apply map_id|reflexivity|apply map_id].
  - intros o. destruct (ob_name o) eqn:En; [destruct (ob_function o) eqn:Ef|]; cbn; auto.
  - intros o <-. unfold kind_of. destruct (ob_name o); [destruct (ob_function o)|]; reflexivity.
Qed.

(* scan_globals drops tentative definitions only *)
Lemma view_scan k gs : (forall x, In x (view k gs) -> ob_tentative x = false) -> view k (scan_globals gs) = view k gs.
Proof.
  intros H. assert (Hnt : forall x, In x gs -> has_kind k x = true -> nt x = true).
  { intros x Hx Hk. unfold nt. rewrite (H x); [reflexivity|]. apply filter_In. split; assumption. }
  unfold view. rewrite (filter_filter_sub (has_kind k) nt (scan_globals gs)), (filter_filter_sub (has_kind k) nt gs), real_definitions_kept; [reflexivity|exact Hnt|].
  intros x Hx. apply Hnt, scan_globals_In, Hx.
Qed.
