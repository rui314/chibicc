(* Jump code embedded in a larger program, and how the code of && || ?: runs on any machine that has a
   conditional jump on the zero flag, a jump and a load-immediate.  The machines of ExprFlat.v,
   ExprMemFlat.v and FloatFlat.v differ in their straight-line instructions and agree in this. *)
From Coq Require Import List Arith Bool ZArith Lia.
Import ListNotations.

Section CodeAt.
Context {I : Type}.

Definition code_at (P : list I) (p : nat) (code : list I) : Prop :=
  forall i ins, nth_error code i = Some ins -> nth_error P (p + i) = Some ins.

Lemma code_at_app P p a b : code_at P p (a ++ b) -> code_at P p a /\ code_at P (p + length a) b.
Proof.
  intros H. split; intros i ins Hi.
  - apply H. rewrite nth_error_app1; [exact Hi|]. apply nth_error_Some. rewrite Hi. discriminate.
  - rewrite <- Nat.add_assoc. apply H. rewrite nth_error_app2 by lia. replace (length a + i - length a) with i by lia. exact Hi.
Qed.
Lemma code_at_cons P p x l : code_at P p (x :: l) -> nth_error P p = Some x /\ code_at P (p + 1) l.
Proof. intros H. apply (code_at_app P p [x] l) in H as [H1 H]. split; [|exact H]. rewrite <- (Nat.add_0_r p). apply H1. reflexivity. Qed.
Lemma code_at_one P p x : code_at P p [x] -> nth_error P p = Some x.
Proof. intros H. exact (proj1 (code_at_cons P p x [] H)). Qed.
End CodeAt.

Section Jumps.
Context {I S : Type} {star : list I -> nat * S -> nat * S -> Prop}.
Context {zf : S -> bool} {imm : S -> Z -> S} {Jc : bool -> nat -> I} {Jmp : nat -> I} {Imm : Z -> I}.
(* [star P (p, st) (q, st')]: P runs from position p in state st to position q in state st'.  [zf st] is the zero
   flag, [imm st v] the state after mov $v, %rax; [Jc w t] jumps to t when the zero flag is w (je for w = true,
   jne for w = false). *)
Hypothesis star_trans : forall P a b c, star P a b -> star P b c -> star P a c.
Hypothesis jc_star : forall P q w t st, nth_error P q = Some (Jc w t) -> star P (q, st) ((if eqb (zf st) w then t else q + 1), st).
Hypothesis jmp_star : forall P q t st, nth_error P q = Some (Jmp t) -> star P (q, st) (t, st).
Hypothesis imm_star : forall P q v st, nth_error P q = Some (Imm v) -> star P (q, st) (q + 1, imm st v).

(* a piece of code, a test that leaves its verdict z in the zero flag, a conditional jump: control arrives
   at the target or behind the jump, where the rest of the code stands *)
Lemma branch_sim w P p A C t rest na nc st st1 z st2 :
  code_at P p (A ++ C ++ Jc w t :: rest) -> length A = na -> length C = nc ->
  (code_at P p A -> star P (p, st) (p + na, st1)) ->
  (code_at P (p + na) C -> star P (p + na, st1) (p + na + nc, st2) /\ zf st2 = z) ->
  star P (p, st) ((if eqb z w then t else p + na + nc + 1), st2) /\ code_at P (p + na + nc + 1) rest.
Proof.
  intros H <- <- RA RC. apply code_at_app in H as [HA H]. apply code_at_app in H as [HC H]. apply code_at_cons in H as [HJ H].
  split; [|exact H]. destruct (RC HC) as [SC <-].
  eapply star_trans; [exact (RA HA)|]. eapply star_trans; [exact SC|]. exact (jc_star _ _ _ _ _ HJ).
Qed.

(* what both exits of && and || end in: [mov $v1; jmp e; pf: mov $v0; e:] *)
Lemma bool_tail P q v1 v0 pf e st : code_at P q [Imm v1; Jmp e; Imm v0] -> pf = q + 1 + 1 -> e = pf + 1 ->
  star P (q, st) (e, imm st v1) /\ star P (pf, st) (e, imm st v0).
Proof.
  intros H -> ->. apply code_at_cons in H as [H1 H]. apply code_at_cons in H as [HJ H]. apply code_at_cons in H as [H0 _]. split.
  - eapply star_trans; [exact (imm_star _ _ _ _ H1)|]. exact (jmp_star _ _ _ _ HJ).
  - exact (imm_star _ _ _ _ H0).
Qed.

(* a && b and a || b (w = true and false): [a; test; Jc w pf; b; test; Jc w pf; mov $w; jmp e; pf: mov $(1-w); e:].
   When a's verdict is w the value is settled at the first jump; otherwise b's verdict z2 decides.
   The positions of b, of the two exits and of the end come with equations, since each machine's flatten
   writes these sums in its own way. *)
Lemma logic_sim w P p A Ca B Cb na ca nb cb pb pf pe e st st1 z st2 st' :
  code_at P p (A ++ Ca ++ [Jc w pf] ++ B ++ Cb ++ [Jc w pf; Imm (if w then 1 else 0); Jmp pe; Imm (if w then 0 else 1)]) ->
  length A = na -> length Ca = ca -> length B = nb -> length Cb = cb ->
  pb = p + na + ca + 1 /\ pf = pb + nb + cb + 3 /\ pe = pf + 1 /\ e = pe ->
  (code_at P p A -> star P (p, st) (p + na, st1)) ->
  (code_at P (p + na) Ca -> star P (p + na, st1) (p + na + ca, st2) /\ zf st2 = z) ->
  (if eqb z w then st' = imm st2 (if w then 0 else 1)
   else exists st3 z2 st4,
       (code_at P pb B -> star P (pb, st2) (pb + nb, st3)) /\
       (code_at P (pb + nb) Cb -> star P (pb + nb, st3) (pb + nb + cb, st4) /\ zf st4 = z2) /\
       st' = imm st4 (if z2 then 0 else 1)) ->
  star P (p, st) (e, st').
Proof.
  intros H LA LCa LB LCb (-> & -> & -> & ->) RA RCa K.
  destruct (branch_sim w P p _ _ _ _ na ca st st1 z st2 H LA LCa RA RCa) as [S1 H1].
  eapply star_trans; [exact S1|]. destruct (eqb z w).
  - subst st'. apply code_at_app in H1 as [_ H1]. apply code_at_app in H1 as [_ H1]. apply code_at_cons in H1 as [_ H1].
    rewrite LB, LCb in H1. destruct (bool_tail P _ _ _ (p + na + ca + 1 + nb + cb + 3) _ st2 H1) as [_ T0]; [lia|lia|exact T0].
  - destruct K as (st3 & z2 & st4 & RB & RCb & ->).
    destruct (branch_sim w P _ _ _ _ _ nb cb st2 st3 z2 st4 H1 LB LCb RB RCb) as [S2 H2].
    eapply star_trans; [exact S2|]. destruct (bool_tail P _ _ _ (p + na + ca + 1 + nb + cb + 3) _ st4 H2) as [T1 T0]; [lia|lia|].
    destruct w, z2; [exact T0|exact T1|exact T1|exact T0].
Qed.

(* c ? a : b: [c; test; je pelse; a; jmp e; pelse: b; e:] *)
Lemma cond_sim P p C Cc A B nc cc na nb pa pelse pe e st st1 z st2 st' :
  code_at P p (C ++ Cc ++ [Jc true pelse] ++ A ++ [Jmp pe] ++ B) ->
  length C = nc -> length Cc = cc -> length A = na ->
  pa = p + nc + cc + 1 /\ pelse = pa + na + 1 /\ pe = pelse + nb /\ e = pe ->
  (code_at P p C -> star P (p, st) (p + nc, st1)) ->
  (code_at P (p + nc) Cc -> star P (p + nc, st1) (p + nc + cc, st2) /\ zf st2 = z) ->
  (if z then code_at P pelse B -> star P (pelse, st2) (pelse + nb, st')
   else code_at P pa A -> star P (pa, st2) (pa + na, st')) ->
  star P (p, st) (e, st').
Proof.
  intros H LC LCc LA (-> & -> & -> & ->) RC RCc K.
  destruct (branch_sim true P p _ _ _ _ nc cc st st1 z st2 H LC LCc RC RCc) as [S1 H1].
  eapply star_trans; [exact S1|]. apply code_at_app in H1 as [HA H1]. apply code_at_cons in H1 as [HJ HB]. rewrite LA in HJ, HB.
  destruct z; cbn [eqb].
  - apply K, HB.
  - eapply star_trans; [exact (K HA)|]. exact (jmp_star _ _ _ _ HJ).
Qed.
End Jumps.
