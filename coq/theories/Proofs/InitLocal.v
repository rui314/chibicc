(* C05 (initializers): what InitSim and InitCursorProofs need of the spec and of `valid`; no parser function occurs here.
   Locality: below a subobject q of U (sub U q = Some W) the arithmetic of spec_init is that of W, prefixed by q
   (sub_app, first_leaf_app, spec_init_at, ok_init_at).
   A designated item that ok_items accepts, as one notion: `desig_run` (ok_items_run).
   `isuffix`, the streams a parser function can hand back; `descends`, brace elision (p20) as a step of the cursor.
   `inside`, the spec's loop seen from inside an object, reached without braces or between its own; local one child deep
   (inside_child), entered from ok_items by `ok_items_inside`.  `hmax`, how far a log reaches into the object. *)
From Coq Require Import List Arith Bool Lia.
From Chibicc Require Import Spec.InitSyntax Spec.InitSpec Spec.InitValid Model.InitCursor Proofs.InitTree.
Import ListNotations.

Lemma sub_app : forall q U p, sub U (q ++ p) = match sub U q with Some W => sub W p | None => None end.
Proof.
  induction q as [|i q IH]; intros U p; [reflexivity|].
  cbn [app sub]. destruct (child U i) as [V|]; [apply IH|reflexivity].
Qed.

Lemma sub_snoc : forall U q W i V, sub U q = Some W -> child W i = Some V -> sub U (q ++ [i]) = Some V.
Proof. intros U q W i V HW HV. rewrite sub_app, HW. cbn [sub]. rewrite HV. reflexivity. Qed.

Lemma wf_child : forall W i V, wf W = true -> child W i = Some V -> wf V = true.
Proof.
  intros W i V Hwf H. destruct W as [k|[n|] e|ms|ms]; cbn [child in_bound] in H; cbn [wf] in Hwf; try discriminate.
  - destruct (i <? n); [|discriminate]. injection H as <-. apply andb_prop in Hwf. apply Hwf.
  - destruct ms as [|m0 ms0]; [discriminate|]. rewrite forallb_forall in Hwf. apply Hwf. eapply nth_error_In. exact H.
  - destruct ms as [|m0 ms0]; [discriminate|]. rewrite forallb_forall in Hwf. apply Hwf. eapply nth_error_In. exact H.
Qed.

Lemma wf_child0 : forall W, wf W = true -> (forall k, W <> TScalar k) -> exists V, child W 0 = Some V.
Proof.
  intros W Hwf Hns. destruct W as [k|[n|] e|ms|ms]; cbn [wf] in Hwf; try discriminate.
  - exfalso. apply (Hns k). reflexivity.
  - apply andb_prop in Hwf. destruct Hwf as [Hn _]. exists e. cbn [child in_bound]. destruct n; [discriminate|reflexivity].
  - destruct ms as [|m0 ms0]; [discriminate|]. exists m0. reflexivity.
  - destruct ms as [|m0 ms0]; [discriminate|]. exists m0. reflexivity.
Qed.

Lemma first_leaf_app : forall q U W p, sub U q = Some W -> first_leaf U (q ++ p) = q ++ first_leaf W p.
Proof.
  induction q as [|i q IH]; intros U W p HW.
  - cbn [sub] in HW. injection HW as ->. reflexivity.
  - cbn [sub] in HW. cbn [app first_leaf]. destruct (child U i) as [V|]; [|discriminate].
    rewrite (IH V W p HW). reflexivity.
Qed.

Lemma str_target_app : forall q U W p, sub U q = Some W -> str_target U (q ++ p) = q ++ str_target W p.
Proof.
  induction q as [|i q IH]; intros U W p HW.
  - cbn [sub] in HW. injection HW as ->. reflexivity.
  - cbn [sub] in HW. cbn [app str_target]. destruct (child U i) as [V|]; [|discriminate].
    rewrite (IH V W p HW). reflexivity.
Qed.

Lemma zero_fill_at : forall q p i room, zero_fill (q ++ p) i room = map (at_ q) (zero_fill p i room).
Proof.
  intros q p i [n|]; [|reflexivity]. unfold zero_fill. rewrite map_map. apply map_ext. intro k.
  cbn [at_]. rewrite app_assoc. reflexivity.
Qed.

Lemma string_events_at : forall q p s i room,
  string_events (q ++ p) i room s = map (at_ q) (string_events p i room s).
Proof.
  intros q p s. induction s as [|c s IH]; intros i room; [apply zero_fill_at|].
  cbn [string_events]. destruct (in_bound room i); [|reflexivity].
  cbn [map at_]. rewrite IH, app_assoc. reflexivity.
Qed.

Lemma is_char_array_elem : forall n e, is_char_array (TArray n e) = true -> e = TScalar 1.
Proof. intros n [[|[|k]]| | |] H; try discriminate H. reflexivity. Qed.

(* braces around the initializer of an aggregate or union W: `{ "..." }` for a character array is the string
   literal (p14); everything else is a list of items for W *)
Definition as_string (W : ty) (l : items) : option (list nat) :=
  match l with ICons [] (IStr s) INil => if is_char_array W then Some s else None | _ => None end.

Lemma as_string_some : forall W l s, as_string W l = Some s -> is_char_array W = true /\ l = ICons [] (IStr s) INil.
Proof.
  intros W l s H. destruct l as [|[|d0 ds'] [x|s0|l'] [|ds2 v2 tl2]]; try discriminate. cbn [as_string] in H.
  destruct (is_char_array W); [|discriminate]. injection H as ->. split; reflexivity.
Qed.

Lemma as_string_none : forall W l, as_string W l = None <-> (forall s, l = ICons [] (IStr s) INil -> is_char_array W = false).
Proof.
  intros W l. split.
  - intros H s ->. cbn [as_string] in H. destruct (is_char_array W); [discriminate H|reflexivity].
  - intro H. destruct l as [|[|d0 ds'] [x|s0|l'] [|ds2 v2 tl2]]; try reflexivity. cbn [as_string]. rewrite (H s0 eq_refl). reflexivity.
Qed.

Definition is_agg (W : ty) : Prop := match W with TArray _ _ => True | TStruct _ => True | _ => False end.

Lemma spec_init_list : forall U p W l, sub U p = Some W -> (forall k, W <> TScalar k) ->
  spec_init U p (IList l)
  = match as_string W l with
    | Some s => (string_events p 0 (array_bound (Some W)) s, p)
    | None => (Clear p :: map (at_ p) (spec_items W (Some [0]) l), p)
    end.
Proof.
  intros U p W l HW Hns. cbn [spec_init]. rewrite HW.
  destruct W as [k|n e|ms|ms]; [elim (Hns k eq_refl)| | |];
    (destruct l as [|[|d0 ds'] v tl]; [reflexivity| |reflexivity]; destruct v as [x|s|l']; try reflexivity;
     destruct tl; [|reflexivity]; cbn [as_string]; try reflexivity).
  destruct (is_char_array (TArray n e)); reflexivity.
Qed.

Lemma ok_init_list : forall U p W l, sub U p = Some W -> is_agg W ->
  ok_init U p (IList l)
  = match as_string W l with
    | Some s => match s with [] => false | _ => str_ok W end
    | None => match l with INil => false | _ => ok_items W (Some [0]) l end
    end.
Proof.
  intros U p W l HW Hagg. cbn [ok_init]. rewrite HW.
  destruct W as [k|n e|ms|ms]; try contradiction;
    (destruct l as [|[|d0 ds'] v tl]; [reflexivity| |reflexivity]; destruct v as [x|s|l']; try reflexivity;
     destruct tl; [|reflexivity]; cbn [as_string]; try reflexivity).
  destruct (is_char_array (TArray n e)); reflexivity.
Qed.

Lemma ok_braced_cases : forall W l, is_agg W -> ok_init W [] (IList l) = true ->
  (exists s, l = ICons [] (IStr s) INil /\ is_char_array W = true /\ s <> [] /\ str_ok W = true) \/
  (ok_items W (Some [0]) l = true /\ l <> INil /\ (forall s, l = ICons [] (IStr s) INil -> is_char_array W = false)).
Proof.
  intros W l HW H. rewrite (ok_init_list W [] W l eq_refl HW) in H. destruct (as_string W l) as [s|] eqn:Has.
  - left. destruct (as_string_some W l s Has) as [Hca ->]. exists s. split; [reflexivity|]. split; [exact Hca|].
    destruct s; [discriminate|]. split; [discriminate|exact H].
  - right. pose proof (proj1 (as_string_none W l) Has) as Hn. destruct l; [discriminate|]. split; [exact H|]. split; [discriminate|exact Hn].
Qed.

Lemma spec_init_braced : forall W l, (forall k, W <> TScalar k) ->
  (forall s, l = ICons [] (IStr s) INil -> is_char_array W = false) ->
  spec_init W [] (IList l) = (Clear [] :: map (at_ []) (spec_items W (Some [0]) l), []).
Proof.
  intros W l Hns Hl. rewrite (spec_init_list W [] W l eq_refl Hns), (proj2 (as_string_none W l) Hl). reflexivity.
Qed.

Lemma spec_init_str : forall W s, is_char_array W = true ->
  spec_init W [] (IStr s) = (string_events [] 0 (array_bound (Some W)) s, []).
Proof.
  intros W s H. cbn [spec_init str_target]. destruct W as [k|n e|ms|ms]; try discriminate.
  cbn [down_str]. rewrite H. reflexivity.
Qed.

Lemma spec_init_braced_str : forall W s, is_char_array W = true ->
  spec_init W [] (IList (ICons [] (IStr s) INil)) = (string_events [] 0 (array_bound (Some W)) s, []).
Proof.
  intros W s H. rewrite (spec_init_list W [] W _ eq_refl) by (intros k ->; discriminate H).
  cbn [as_string]. rewrite H. reflexivity.
Qed.

Lemma scalar_or_not : forall W, (exists k, W = TScalar k) \/ (forall k, W <> TScalar k).
Proof. intros [k| | |]; [left; exists k; reflexivity|right; discriminate..]. Qed.

Definition spec_init_at_stmt (v : init) : Prop :=
  forall U q W p, sub U q = Some W ->
    spec_init U (q ++ p) v = (map (at_ q) (fst (spec_init W p v)), q ++ snd (spec_init W p v)).

Lemma spec_init_at : forall v, spec_init_at_stmt v.
Proof.
  (* spec_init calls itself only for `{ v' }` around a scalar; every other inner list is spec_items on the subobject's own type,
     which does not see U: the motive for lists keeps that one case *)
  apply (init_items_ind spec_init_at_stmt
           (fun l => match l with ICons _ v' INil => spec_init_at_stmt v' | _ => True end)).
  - intros e U q W p HW. cbn [spec_init fst snd map at_]. rewrite (first_leaf_app q U W p HW). reflexivity.
  - intros s U q W p HW. cbn [spec_init fst snd].
    rewrite (str_target_app q U W p HW). rewrite sub_app, HW.
    rewrite string_events_at. reflexivity.
  - intros l Hl U q W p HW.
    assert (HU : sub U (q ++ p) = sub W p) by (rewrite sub_app, HW; reflexivity).
    destruct (sub W p) as [W'|] eqn:HW'; [|cbn [spec_init]; rewrite HU, HW'; reflexivity].
    destruct (scalar_or_not W') as [[k ->]|Hns].
    + (* braces around a scalar's initializer *)
      cbn [spec_init]. rewrite HU, HW'.
      destruct l as [|[|d ds] v' [|ds2 v2 tl2]]; try reflexivity. apply Hl. exact HW.
    + rewrite (spec_init_list U (q ++ p) W' l HU Hns), (spec_init_list W p W' l HW' Hns).
      destruct (as_string W' l) as [s|]; cbn [fst snd map at_]; [rewrite string_events_at|rewrite map_at_app]; reflexivity.
  - exact I.
  - intros ds v Hv tl Htl. destruct tl; [exact Hv|exact I].
Qed.

Lemma ok_init_at : forall v U q W p, sub U q = Some W -> ok_init U (q ++ p) v = ok_init W p v.
Proof.
  intros v U q W p HW. destruct v as [e|s|l]; cbn [ok_init]; try reflexivity.
  - rewrite sub_app, HW; reflexivity.
  - destruct s; [reflexivity|]. rewrite sub_app, HW; reflexivity.
  - rewrite sub_app, HW; reflexivity.
Qed.

Lemma ok_init_sub : forall U p v, ok_init U p v = true -> exists W, sub U p = Some W.
Proof.
  intros U p v H. destruct (sub U p) as [W|] eqn:HW; [exists W; reflexivity|].
  destruct v as [x|[|c s]|l]; cbn [ok_init] in H; try rewrite HW in H; discriminate.
Qed.

Lemma spec_items_head : forall U p v tl,
  spec_items U (Some p) (ICons [] v tl)
  = fst (spec_init U p v) ++ spec_items U (next U (snd (spec_init U p v))) tl.
Proof. intros U p v tl. cbn [spec_items flat_map last]. rewrite app_nil_r. reflexivity. Qed.

Lemma spec_items_nil : forall U c, spec_items U c INil = [].
Proof. reflexivity. Qed.

Lemma ok_items_head : forall U p v tl,
  ok_items U (Some p) (ICons [] v tl) = ok_init U p v && ok_items U (next U (snd (spec_init U p v))) tl.
Proof. reflexivity. Qed.

Lemma ok_items_desig_cursor : forall U c1 c2 d ds v tl,
  ok_items U c1 (ICons (d :: ds) v tl) = ok_items U c2 (ICons (d :: ds) v tl).
Proof. reflexivity. Qed.

Lemma spec_items_desig_many : forall U c d ds v tl, targets U (d :: ds) <> [] ->
  spec_items U c (ICons (d :: ds) v tl)
  = flat_map (fun p => fst (spec_init U p v)) (targets U (d :: ds))
    ++ spec_items U (next U (snd (spec_init U (last (targets U (d :: ds)) []) v))) tl.
Proof.
  intros U c d ds v tl H. cbn [spec_items]. destruct (targets U (d :: ds)); [congruence|reflexivity].
Qed.

Lemma map_cons_singleton : forall (k : nat) (l : list path) p, map (cons k) l = [p] -> exists p', l = [p'] /\ p = k :: p'.
Proof.
  intros k l p H. destruct l as [|p' [|p2 l]]; cbn [map] in H; try discriminate.
  injection H as <-. exists p'. split; reflexivity.
Qed.

Definition desig_of (W : ty) (k : nat) : desig :=
  match W with TArray _ _ => DIndex k | _ => DField k end.

Lemma targets_desig_of : forall W k V ds, child W k = Some V ->
  targets W (desig_of W k :: ds) = map (cons k) (targets V ds).
Proof.
  intros W k V ds HV. destruct W as [k0|n e|ms|ms]; cbn [child] in HV; cbn [desig_of targets].
  - discriminate.
  - destruct (in_bound n k); [|discriminate]. injection HV as ->. reflexivity.
  - rewrite HV. reflexivity.
  - rewrite HV. reflexivity.
Qed.

Lemma targets_cons : forall W d ds p, no_range (d :: ds) = true -> targets W (d :: ds) = [p] ->
  exists k V p', d = desig_of W k /\ child W k = Some V /\ no_range ds = true /\ targets V ds = [p'] /\ p = k :: p'.
Proof.
  intros W d ds p Hnr Ht. cbn [no_range forallb] in Hnr. apply andb_prop in Hnr. destruct Hnr as [Hd Hnr].
  assert (Hgen : forall k V, d = desig_of W k -> child W k = Some V -> map (cons k) (targets V ds) = [p] ->
            exists k V p', d = desig_of W k /\ child W k = Some V /\ no_range ds = true /\ targets V ds = [p'] /\ p = k :: p').
  { intros k V Hdk HV Hm. destruct (map_cons_singleton k _ p Hm) as [p' [Hp' ->]]. exists k, V, p'. auto. }
  destruct d as [i|a b|m]; [|discriminate Hd|]; destruct W as [k0|n e|ms|ms]; cbn [targets] in Ht; try discriminate.
  - destruct (in_bound n i) eqn:Hb; [|discriminate]. apply (Hgen i e); [reflexivity|cbn [child]; rewrite Hb; reflexivity|exact Ht].
  - destruct (nth_error ms m) as [V|] eqn:Hm; [|discriminate]. apply (Hgen m V); [reflexivity|exact Hm|exact Ht].
  - destruct (nth_error ms m) as [V|] eqn:Hm; [|discriminate]. apply (Hgen m V); [reflexivity|exact Hm|exact Ht].
Qed.

Lemma targets_app : forall ds1 U p1 W1 ds2, no_range ds1 = true -> targets U ds1 = [p1] -> sub U p1 = Some W1 ->
  targets U (ds1 ++ ds2) = map (app p1) (targets W1 ds2).
Proof.
  induction ds1 as [|d ds1 IH]; intros U p1 W1 ds2 Hnr Ht Hs.
  - cbn [targets] in Ht. injection Ht as <-. cbn [sub] in Hs. injection Hs as <-. cbn [app]. rewrite map_id. reflexivity.
  - destruct (targets_cons U d ds1 p1 Hnr Ht) as [k [V [p' [-> [HV [Hnr' [Ht' ->]]]]]]].
    cbn [sub] in Hs. rewrite HV in Hs. cbn [app].
    rewrite (targets_desig_of U k V _ HV), (IH V p' W1 ds2 Hnr' Ht' Hs), map_map. reflexivity.
Qed.

Lemma range_ok_inv : forall n e a b v, range_ok (TArray n e) a b v = true ->
  a <= b /\ in_bound n b = true /\ single e v = true.
Proof.
  intros n e a b v H. cbn [range_ok] in H. apply andb_prop in H. destruct H as [H Hs].
  apply andb_prop in H. destruct H as [Hle Hb]. apply Nat.leb_le in Hle. split; [exact Hle|]. split; [exact Hb|exact Hs].
Qed.

Lemma targets_range : forall n e a b, a <= b -> in_bound n b = true ->
  targets (TArray n e) [DRange a b] = map (fun j => [j]) (seq a (S b - a)).
Proof.
  intros n e a b Hle Hb. apply Nat.leb_le in Hle. cbn [targets]. rewrite Hle, Hb. cbn [andb].
  induction (seq a (S b - a)) as [|j l IH]; [reflexivity|]. simpl. rewrite <- IH. reflexivity.
Qed.

Lemma split_range_some : forall ds ds1 a b, split_range ds = Some (ds1, a, b) -> ds = ds1 ++ [DRange a b].
Proof.
  induction ds as [|d ds IH]; intros ds1 a b H; [discriminate|].
  cbn [split_range] in H.
  assert (Hgen : match split_range ds with Some (ds1', a', b') => Some (d :: ds1', a', b') | None => None end = Some (ds1, a, b) ->
                 d :: ds = ds1 ++ [DRange a b]).
  { intro H0. destruct (split_range ds) as [[[ds1' a'] b']|] eqn:Hs; [|discriminate]. injection H0 as <- <- <-.
    rewrite (IH ds1' a' b' eq_refl). reflexivity. }
  destruct d as [k|a0 b0|m]; try (apply Hgen; exact H).
  destruct ds as [|d2 ds2]; [injection H as <- <- <-; reflexivity|apply Hgen; exact H].
Qed.

Lemma split_range_app : forall ds1 a b, split_range (ds1 ++ [DRange a b]) = Some (ds1, a, b).
Proof.
  induction ds1 as [|d ds1 IH]; intros a b; [reflexivity|].
  cbn [app split_range]. rewrite IH. destruct d; destruct (ds1 ++ [DRange a b]) eqn:H; try reflexivity.
  destruct ds1; discriminate H.
Qed.

Lemma split_range_none : forall ds, no_range ds = true -> split_range ds = None.
Proof.
  induction ds as [|d ds IH]; intro H; [reflexivity|].
  cbn [no_range forallb] in H. apply andb_prop in H. destruct H as [Hd H]. specialize (IH H).
  cbn [split_range]. destruct d as [k|a b|m]; [|discriminate Hd|]; rewrite IH; destruct ds; reflexivity.
Qed.

Lemma single_done : forall e v, single e v = true -> ok_init e [] v = true -> snd (spec_init e [] v) = [].
Proof.
  intros e v Hs Hok. destruct v as [x|s|l]; cbn [single] in Hs.
  - destruct e as [k| | |]; try discriminate. reflexivity.
  - cbn [spec_init snd str_target]. destruct e as [k|n e0|ms|ms]; try discriminate. cbn [down_str]. rewrite Hs. reflexivity.
  - destruct (scalar_or_not e) as [[k ->]|Hns].
    + cbn [ok_init sub] in Hok. destruct l as [|[|d0 ds'] [x|s|l'] [|ds2 v2 tl2]]; try discriminate. reflexivity.
    + rewrite (spec_init_list e [] e l eq_refl Hns). destruct (as_string e l); reflexivity.
Qed.

Lemma range_elem : forall U p1 n e a b v k, sub U p1 = Some (TArray n e) -> range_ok (TArray n e) a b v = true -> k <= b ->
  sub U (p1 ++ [k]) = Some e /\ ok_init U (p1 ++ [k]) v = ok_init e [] v /\
  (ok_init e [] v = true -> spec_init U (p1 ++ [k]) v = (map (at_ (p1 ++ [k])) (fst (spec_init e [] v)), p1 ++ [k])).
Proof.
  intros U p1 n e a b v k Hs Hr Hk. destruct (range_ok_inv n e a b v Hr) as [_ [Hb Hsingle]].
  assert (Hsub : sub U (p1 ++ [k]) = Some e).
  { rewrite sub_app, Hs. cbn [sub child]. destruct n as [n|]; cbn [in_bound] in *; [|reflexivity].
    apply Nat.ltb_lt in Hb. assert (Hkb : k <? n = true) by (apply Nat.ltb_lt; lia). rewrite Hkb. reflexivity. }
  pose proof (ok_init_at v U (p1 ++ [k]) e [] Hsub) as Hoi. pose proof (spec_init_at v U (p1 ++ [k]) e [] Hsub) as Hsi.
  rewrite app_nil_r in Hoi, Hsi. split; [exact Hsub|]. split; [exact Hoi|].
  intro Hoke. rewrite Hsi, (single_done e v Hsingle Hoke), app_nil_r. reflexivity.
Qed.

Lemma ok_items_range_tail : forall U c ds1 a b p1 n e v tl,
  no_range ds1 = true -> targets U ds1 = [p1] -> sub U p1 = Some (TArray n e) ->
  range_ok (TArray n e) a b v = true -> ok_init e [] v = true ->
  ok_items U c (ICons (ds1 ++ [DRange a b]) v tl) = ok_items U (next U (p1 ++ [b])) tl.
Proof.
  intros U c ds1 a b p1 n e v tl Hnr Ht Hs Hr Hoke.
  destruct (range_elem U p1 n e a b v b Hs Hr (le_n b)) as [_ [Hoi Hsi]].
  assert (Hne : exists d ds, ds1 ++ [DRange a b] = d :: ds) by (destruct ds1 as [|d ds1]; eexists; eexists; reflexivity).
  destruct Hne as [d [ds Hds]]. pose proof (split_range_app ds1 a b) as Hsp. rewrite Hds in Hsp |- *.
  cbn [ok_items]. rewrite Hsp, Hnr, Ht, Hs, Hr, Hoi, Hoke, (Hsi Hoke). reflexivity.
Qed.

Lemma ok_items_desig_single : forall U c d ds v tl p,
  no_range (d :: ds) = true -> targets U (d :: ds) = [p] ->
  ok_items U c (ICons (d :: ds) v tl) = ok_items U (Some p) (ICons [] v tl).
Proof.
  intros U c d ds v tl p Hnr Ht. cbn [ok_items]. rewrite (split_range_none (d :: ds) Hnr), Hnr, Ht. reflexivity.
Qed.

(* the events of `[a ... b] = v` relative to the array: v, an initializer for one element, for each of a..b *)
Definition range_events (e : ty) (v : init) (a b : nat) : list event :=
  flat_map (fun k => map (at_ [k]) (fst (spec_init e [] v))) (seq a (S b - a)).

(* The designators ds followed by `= v`, below an object of type W: the events they log (relative to W) and the
   subobject of W that is then done.  The three rules are the three things parse.c's `designation` does: no designator
   is left (it calls initializer2), the first designator names a child (it calls itself on the child's node with the
   remaining designators), or the designator is a range over the elements, the last of the list inside `valid`. *)
Inductive desig_run : ty -> list desig -> init -> list event -> path -> Prop :=
| dr_here : forall W v, ok_init W [] v = true ->
    desig_run W [] v (fst (spec_init W [] v)) (snd (spec_init W [] v))
| dr_child : forall W k V ds v Ev p, child W k = Some V -> desig_run V ds v Ev p ->
    desig_run W (desig_of W k :: ds) v (map (at_ [k]) Ev) (k :: p)
| dr_range : forall n e a b v, range_ok (TArray n e) a b v = true -> ok_init e [] v = true ->
    desig_run (TArray n e) [DRange a b] v (range_events e v a b) [b].

Lemma desig_run_walk : forall ds1 W p1 W1 ds2 v Ev p,
  no_range ds1 = true -> targets W ds1 = [p1] -> sub W p1 = Some W1 -> desig_run W1 ds2 v Ev p ->
  desig_run W (ds1 ++ ds2) v (map (at_ p1) Ev) (p1 ++ p).
Proof.
  induction ds1 as [|d ds1 IH]; intros W p1 W1 ds2 v Ev p Hnr Ht Hs Hrun.
  - injection Ht as <-. injection Hs as <-. rewrite map_at_nil. exact Hrun.
  - destruct (targets_cons W d ds1 p1 Hnr Ht) as [k [V [p' [-> [HV [Hnr' [Ht' ->]]]]]]].
    cbn [sub] in Hs. rewrite HV in Hs.
    change (k :: p') with ([k] ++ p'). rewrite <- map_at_app. cbn [app].
    apply (dr_child W k V _ v _ _ HV). exact (IH V p' W1 ds2 v Ev p Hnr' Ht' Hs Hrun).
Qed.

(* The one door from the boolean check to desig_run: ok_items_inside goes through it, and InitSim and InitCursorProofs, which meet
   a designated item as rule in_run of `inside`, never see targets or split_range.  The log equation holds for every cursor c': a
   designated item does not look at it. *)
Lemma ok_items_run : forall U c d ds v tl, ok_items U c (ICons (d :: ds) v tl) = true ->
  exists Ev p, desig_run U (d :: ds) v Ev p /\
    (forall c', spec_items U c' (ICons (d :: ds) v tl) = Ev ++ spec_items U (next U p) tl) /\
    ok_items U (next U p) tl = true.
Proof.
  intros U c d ds v tl H. cbn [ok_items] in H.
  destruct (split_range (d :: ds)) as [[[ds1 a] b]|] eqn:Hsp.
  - apply split_range_some in Hsp. apply andb_prop in H. destruct H as [Hnr H].
    destruct (targets U ds1) as [|p1 [|p2 ps]] eqn:Ht; try discriminate.
    destruct (sub U p1) as [W1|] eqn:Hs; [|discriminate].
    apply andb_prop in H. destruct H as [H H3]. apply andb_prop in H. destruct H as [H1 H2].
    destruct W1 as [k|n e|ms|ms]; try discriminate H1.
    (* ok_items speaks of element b as a subobject of U; seen from the element: *)
    destruct (range_elem U p1 n e a b v b Hs H1 (le_n b)) as [_ [Hoi Hsi]].
    rewrite Hoi in H2. rewrite (Hsi H2) in H3. cbn [snd] in H3.
    exists (map (at_ p1) (range_events e v a b)), (p1 ++ [b]). rewrite Hsp. split; [|split; [|exact H3]].
    + exact (desig_run_walk ds1 U p1 _ _ v _ _ Hnr Ht Hs (dr_range n e a b v H1 H2)).
    + (* the targets are the elements a .. b below p1, each of which gets v; the last one is b *)
      intro c'. destruct (range_ok_inv n e a b v H1) as [Hle [Hb _]]. rewrite <- Hsp.
      assert (Htg : targets U (d :: ds) = map (fun j => p1 ++ [j]) (seq a (S (b - a)))).
      { rewrite Hsp, (targets_app ds1 U p1 _ _ Hnr Ht Hs), (targets_range n e a b Hle Hb), map_map.
        replace (S b - a) with (S (b - a)) by lia. reflexivity. }
      assert (Hlast : last (map (fun j => p1 ++ [j]) (seq a (S (b - a)))) [] = p1 ++ [b]).
      { rewrite seq_S, map_app. cbn [map]. rewrite last_last. f_equal. f_equal. lia. }
      rewrite (spec_items_desig_many U c' d ds v tl) by (rewrite Htg; discriminate).
      rewrite Htg, Hlast, (Hsi H2). cbn [snd]. f_equal.
      unfold range_events. replace (S b - a) with (S (b - a)) by lia.
      rewrite !flat_map_concat_map, concat_map, !map_map. f_equal. apply map_ext_in. intros j Hj. apply in_seq in Hj.
      destruct (range_elem U p1 n e a b v j Hs H1 ltac:(lia)) as [_ [_ Hsj]]. rewrite (Hsj H2), map_at_app. reflexivity.
  - apply andb_prop in H. destruct H as [Hnr H].
    destruct (targets U (d :: ds)) as [|p [|p2 ps]] eqn:Ht; try discriminate.
    apply andb_prop in H. destruct H as [Hoki Hokt]. destruct (ok_init_sub U p v Hoki) as [W1 Hs].
    pose proof (ok_init_at v U p W1 [] Hs) as Ho. pose proof (spec_init_at v U p W1 [] Hs) as Hsi. rewrite app_nil_r in Ho, Hsi.
    rewrite Ho in Hoki. rewrite Hsi in Hokt. cbn [snd] in Hokt.
    exists (map (at_ p) (fst (spec_init W1 [] v))), (p ++ snd (spec_init W1 [] v)). split; [|split; [|exact Hokt]].
    + rewrite <- (app_nil_r (d :: ds)). exact (desig_run_walk _ U p W1 [] v _ _ Hnr Ht Hs (dr_here W1 v Hoki)).
    + intro c'. rewrite (spec_items_desig_many U c' d ds v tl) by (rewrite Ht; discriminate).
      rewrite Ht. cbn [flat_map last]. rewrite Hsi, app_nil_r. reflexivity.
Qed.

Lemma spec_items_desig_any_cursor : forall U c1 c2 d ds v tl,
  ok_items U c1 (ICons (d :: ds) v tl) = true ->
  spec_items U c1 (ICons (d :: ds) v tl) = spec_items U c2 (ICons (d :: ds) v tl).
Proof.
  intros U c1 c2 d ds v tl H. destruct (ok_items_run U c1 d ds v tl H) as [Ev [p [_ [HL _]]]]. rewrite !HL. reflexivity.
Qed.

(* the stream a parser function returns is a suffix of the stream it received; its length and its brace depth are at most
   those of the received one, so the fuel of the loops and the level still cover it *)
Inductive isuffix : items -> items -> Prop :=
| suf_refl : forall l, isuffix l l
| suf_cons : forall l ds v tl, isuffix l tl -> isuffix l (ICons ds v tl).

Lemma isuffix_length : forall a b, isuffix a b -> ilength a <= ilength b.
Proof. intros a b H. induction H as [l|l ds v tl H IH]; cbn [ilength]; lia. Qed.

Lemma isuffix_idepth : forall a b, isuffix a b -> idepth_items a <= idepth_items b.
Proof. intros a b H. induction H as [l|l ds v tl H IH]; cbn [idepth_items]; lia. Qed.

Lemma isuffix_nil : forall a, isuffix a INil -> a = INil.
Proof. intros a H. inversion H. reflexivity. Qed.

(* p20: an expression (or a string literal that is not for W itself) for an aggregate or union W is for its
   first subobject *)
Definition descends (W : ty) (v : init) : Prop :=
  match v with IExpr _ => True | IStr _ => is_char_array W = false | IList _ => False end.

Lemma down_child0 : forall W V, child W 0 = Some V -> down W = 0 :: down V.
Proof.
  intros W V H. destruct W as [k|n e|ms|ms]; cbn [child] in H.
  - discriminate.
  - destruct (in_bound n 0); [|discriminate]. injection H as ->. reflexivity.
  - destruct ms as [|m ms]; [discriminate|]. injection H as ->. reflexivity.
  - destruct ms as [|m ms]; [discriminate|]. injection H as ->. reflexivity.
Qed.

Lemma down_str_child0 : forall W V, child W 0 = Some V -> is_char_array W = false -> down_str W = 0 :: down_str V.
Proof.
  intros W V H Hc. destruct W as [k|n e|ms|ms]; cbn [child] in H.
  - discriminate.
  - destruct (in_bound n 0); [|discriminate]. injection H as ->. cbn [down_str]. rewrite Hc. reflexivity.
  - destruct ms as [|m ms]; [discriminate|]. injection H as ->. reflexivity.
  - destruct ms as [|m ms]; [discriminate|]. injection H as ->. reflexivity.
Qed.

Lemma spec_init_first : forall W V v, child W 0 = Some V -> descends W v -> spec_init W [] v = spec_init W [0] v.
Proof.
  intros W V v HV Hd. destruct v as [x|s|l]; [| |contradiction]; cbn [spec_init first_leaf str_target]; rewrite HV.
  - rewrite (down_child0 W V HV). reflexivity.
  - rewrite (down_str_child0 W V HV Hd). reflexivity.
Qed.

Lemma str_ok_descend : forall W V, child W 0 = Some V -> str_ok W = true -> is_char_array W = false -> str_ok V = true.
Proof.
  intros W V HV H Hc. destruct W as [k|n e|ms|ms]; cbn [child] in HV.
  - discriminate.
  - cbn [str_ok] in H. rewrite Hc in H. cbn [orb] in H. apply andb_prop in H. destruct H as [Hb H].
    rewrite Hb in HV. injection HV as <-. exact H.
  - destruct ms as [|m ms]; [discriminate|]. injection HV as ->. exact H.
  - destruct ms as [|m ms]; [discriminate|]. injection HV as ->. exact H.
Qed.

Lemma str_ok_target : forall k W, tdepth W < k -> str_ok W = true ->
  exists n, sub W (down_str W) = Some (TArray n (TScalar 1)) /\ in_bound n 0 = true.
Proof.
  induction k as [|k IH]; intros W Hd H; [lia|].
  destruct W as [k0|n e|ms|ms]; cbn [str_ok] in H; try discriminate.
  - apply andb_prop in H. destruct H as [Hb H]. cbn [down_str]. destruct (is_char_array (TArray n e)) eqn:Hca.
    + cbn [sub]. rewrite (is_char_array_elem n e Hca). exists n. split; [reflexivity|exact Hb].
    + cbn [orb] in H. cbn [sub child]. rewrite Hb. apply IH; [cbn [tdepth] in Hd; lia|exact H].
  - destruct ms as [|m ms]; [discriminate|]. cbn [down_str sub child nth_error].
    apply IH; [cbn [tdepth fold_right] in Hd; lia|exact H].
  - destruct ms as [|m ms]; [discriminate|]. cbn [down_str sub child nth_error].
    apply IH; [cbn [tdepth fold_right] in Hd; lia|exact H].
Qed.

Lemma spec_init_nonempty : forall U p v, ok_init U p v = true -> fst (spec_init U p v) <> [].
Proof.
  intros U p v H. destruct v as [x|s|l]; [discriminate| |].
  - cbn [ok_init] in H. destruct s as [|c s]; [discriminate|]. destruct (sub U p) as [W|] eqn:HW; [|discriminate].
    destruct (str_ok_target (S (tdepth W)) W ltac:(lia) H) as [n [Hs Hb]].
    cbn [spec_init fst]. pose proof (str_target_app p U W [] HW) as Ht. rewrite app_nil_r in Ht. cbn [str_target] in Ht.
    rewrite Ht, sub_app, HW, Hs. cbn [array_bound string_events]. rewrite Hb. discriminate.
  - destruct (sub U p) as [W|] eqn:HW; [|cbn [ok_init] in H; rewrite HW in H; discriminate].
    destruct (scalar_or_not W) as [[k ->]|Hns].
    + cbn [ok_init] in H. cbn [spec_init]. rewrite HW in *.
      destruct l as [|[|d0 ds'] [x|s|l'] [|ds2 v2 tl2]]; discriminate.
    + rewrite (spec_init_list U p W l HW Hns). destruct (as_string W l) as [s|] eqn:Has; [|cbn [fst]; discriminate].
      destruct (as_string_some W l s Has) as [Hca _]. destruct W as [k|n e|ms|ms]; try discriminate Hca.
      rewrite (ok_init_list U p _ l HW I), Has in H. destruct s as [|c s]; [discriminate|].
      cbn [str_ok] in H. apply andb_prop in H. destruct H as [Hb _].
      cbn [fst array_bound string_events]. rewrite Hb. discriminate.
Qed.

Lemma range_events_ne : forall n e v a b, range_ok (TArray n e) a b v = true -> ok_init e [] v = true ->
  range_events e v a b <> [].
Proof.
  intros n e v a b Hr Hoke. destruct (range_ok_inv n e a b v Hr) as [Hle _].
  unfold range_events. replace (S b - a) with (S (b - a)) by lia. cbn [seq flat_map].
  destruct (fst (spec_init e [] v)) eqn:HX; [|discriminate].
  exfalso. apply (spec_init_nonempty e [] v Hoke). exact HX.
Qed.

Lemma desig_run_nonempty : forall W ds v Ev p, desig_run W ds v Ev p -> Ev <> [].
Proof.
  intros W ds v Ev p H. induction H as [W v Hoki|W k V ds v Ev p HV _ IH|n e a b v Hr Hoke].
  - exact (spec_init_nonempty W [] v Hoki).
  - destruct Ev; [congruence|discriminate].
  - exact (range_events_ne n e v a b Hr Hoke).
Qed.

(* The spec's loop seen from inside an object of type W - for undesignated items what desig_run is for designators.
   From cursor c (relative to W) on the stream tok it takes items, logging E (relative to W), and leaves tok'.  The rules
   are the ways a parser function that works on the node of W stops or goes on: in_left, the cursor has passed the last
   subobject of W (array_initializer2 / struct_initializer2 at `i == array_len` / `!mem`; a union after its one member);
   in_end, `is_end(tok)`; in_item, an item without designation is for the subobject at the cursor (initializer2 on its node),
   and the loop goes on behind what it initialized.  The mode says what an item that starts with `[` or `.` does.
   `false`, W was reached without braces of its own: the item belongs to the enclosing braces and ends the loop (in_desig,
   `*rest = start`).  `true`, between the braces of W itself (array_initializer1 / struct_initializer1 / union_initializer):
   the item is taken, a run of its designators below W, and the loop goes on behind the subobject the run has initialized
   (in_run); there a run that ends at INil has taken every item.  Only the items taken are checked. *)
Inductive inside (W : ty) : bool -> option path -> items -> list event -> items -> Prop :=
| in_left : forall br tok, inside W br None tok [] tok
| in_end : forall br c, inside W br c INil [] INil
| in_desig : forall c d ds v tl, inside W false c (ICons (d :: ds) v tl) [] (ICons (d :: ds) v tl)
| in_run : forall c d ds v tl Ev p E tok', desig_run W (d :: ds) v Ev p -> inside W true (next W p) tl E tok' ->
    inside W true c (ICons (d :: ds) v tl) (Ev ++ E) tok'
| in_item : forall br p v tl E tok', ok_init W p v = true ->
    inside W br (next W (snd (spec_init W p v))) tl E tok' ->
    inside W br (Some p) (ICons [] v tl) (fst (spec_init W p v) ++ E) tok'.

Lemma inside_suffix : forall W br c tok E tok', inside W br c tok E tok' -> isuffix tok' tok.
Proof. intros W br c tok E tok' H. induction H; try apply suf_refl; apply suf_cons; assumption. Qed.

Lemma inside_nil : forall W br c E tok', inside W br c INil E tok' -> E = [].
Proof. intros W br c E tok' H. inversion H; reflexivity. Qed.

Lemma inside_taken : forall W br p v tl E tok', inside W br (Some p) (ICons [] v tl) E tok' -> E <> [] /\ isuffix tok' tl.
Proof.
  intros W br p v tl E tok' H. inversion H as [| | | |br0 p0 v0 tl0 E0 tok0 Hoki Hin]; subst. split; [|exact (inside_suffix _ _ _ _ _ _ Hin)].
  intro HE. apply app_eq_nil in HE. exact (spec_init_nonempty W p v Hoki (proj1 HE)).
Qed.

Lemma inside_item : forall W br k p v tl E tok', inside W br (Some (k :: p)) (ICons [] v tl) E tok' -> exists V, child W k = Some V.
Proof.
  intros W br k p v tl E tok' H. inversion H as [| | | |br0 p0 v0 tl0 E0 tok0 Hoki Hin]; subst.
  destruct (ok_init_sub W (k :: p) v Hoki) as [V0 HV]. cbn [sub] in HV.
  destruct (child W k) as [V|]; [exists V; reflexivity|discriminate HV].
Qed.

(* the cursor of W's loop that stands for cursor c' of child k's loop: inside the child, or behind it *)
Definition lift (W : ty) (k : nat) (c' : option path) : option path :=
  match c' with Some p => Some (k :: p) | None => nxt W k end.

Lemma next_lift : forall W k V p, child W k = Some V -> next W (k :: p) = lift W k (next V p).
Proof. intros W k V p HV. cbn [next]. rewrite HV. destruct (next V p); reflexivity. Qed.

(* locality, one child deep: W's loop with its cursor in child k is the child's loop, then W's loop from behind k *)
Lemma inside_child : forall W br k V, child W k = Some V -> forall tok c' E tok', inside W br (lift W k c') tok E tok' ->
  exists E1 tok1 E2, inside V false c' tok E1 tok1 /\ inside W br (nxt W k) tok1 E2 tok' /\ E = map (at_ [k]) E1 ++ E2.
Proof.
  intros W br k V HV. assert (HsV : sub W [k] = Some V) by (cbn [sub]; rewrite HV; reflexivity).
  induction tok as [|ds v tl IH]; intros c' E tok' H.
  - inversion H; subst; exists [], INil, []; repeat split; apply in_end.
  - destruct c' as [p|]; [|exists [], (ICons ds v tl), E; repeat split; [apply in_left|exact H]].
    destruct ds as [|d0 ds0].
    + cbn [lift] in H. inversion H as [| | | |br0 p0 v0 tl0 E0 tok0 Hoki Hin]; subst.
      pose proof (spec_init_at v W [k] V p HsV) as Hsi. pose proof (ok_init_at v W [k] V p HsV) as Hoi. cbn [app] in Hsi, Hoi.
      rewrite Hsi in *. cbn [fst snd] in *. rewrite (next_lift W k V _ HV) in Hin. rewrite Hoi in Hoki.
      destruct (IH _ _ _ Hin) as [E1 [tok1 [E2 [H1 [H2 ->]]]]].
      exists (fst (spec_init V p v) ++ E1), tok1, E2. split; [apply in_item; assumption|]. split; [exact H2|].
      rewrite map_app, app_assoc. reflexivity.
    + (* a designated item is not for the child, and W's loop does not look at the cursor when it meets one *)
      exists [], (ICons (d0 :: ds0) v tl), E. repeat split; [apply in_desig|].
      inversion H; subst; [apply in_desig|eapply in_run; eassumption].
Qed.

(* The one door from the boolean check to `inside`: what ok_items accepts between the braces of W is a run that takes every
   item, and its log is the spec's *)
Lemma ok_items_inside : forall W tok c, ok_items W c tok = true -> inside W true c tok (spec_items W c tok) INil.
Proof.
  intro W. induction tok as [|ds v tl IH]; intros c H; [apply in_end|]. destruct ds as [|d0 ds].
  - destruct c as [p|]; [|discriminate H]. rewrite ok_items_head in H. apply andb_prop in H. destruct H as [H1 H2].
    rewrite spec_items_head. apply in_item; [exact H1|apply IH; exact H2].
  - destruct (ok_items_run W c d0 ds v tl H) as [Ev [p [Hrun [HL Hokt]]]]. rewrite HL.
    apply (in_run W c d0 ds v tl Ev p _ INil Hrun). apply IH. exact Hokt.
Qed.

(* p20: an expression (or a string literal that is not for W itself) that arrives at W is at its first child *)
Lemma inside_first : forall W br V v tl E tok', child W 0 = Some V -> descends W v ->
  inside W br (Some []) (ICons [] v tl) E tok' -> inside W br (Some [0]) (ICons [] v tl) E tok' /\ ok_init W [] v = true.
Proof.
  intros W br V v tl E tok' HV Hd H. inversion H as [| | | |br0 p0 v0 tl0 E0 tok0 Hoki Hin]; subst. split; [|exact Hoki].
  rewrite (spec_init_first W V v HV Hd) in *. apply in_item; [|exact Hin].
  destruct v as [x|s|l]; [| |contradiction]; cbn [ok_init sub] in *; rewrite HV; [reflexivity|].
  destruct s as [|c s]; [discriminate|]. exact (str_ok_descend W V HV Hoki Hd).
Qed.

(* how far a log reaches into the object: one more than the largest first index of its events (for an array, the
   p22 bound read off the log) *)
Definition head1 (p : path) : nat := match p with i :: _ => S i | [] => 0 end.
Definition hmax (E : list event) : nat := fold_right (fun e a => Nat.max (head1 (event_path e)) a) 0 E.

Lemma hmax_cons : forall e E, hmax (e :: E) = Nat.max (head1 (event_path e)) (hmax E).
Proof. reflexivity. Qed.

Lemma hmax_app : forall E1 E2, hmax (E1 ++ E2) = Nat.max (hmax E1) (hmax E2).
Proof.
  induction E1 as [|e E1 IH]; intro E2; [reflexivity|].
  cbn [app]. rewrite !hmax_cons, IH. apply Nat.max_assoc.
Qed.

Lemma hmax_at : forall k r E, E <> [] -> hmax (map (at_ (k :: r)) E) = S k.
Proof.
  intros k r E. induction E as [|e E IH]; intro H; [congruence|].
  cbn [map]. rewrite hmax_cons. replace (head1 (event_path (at_ (k :: r) e))) with (S k) by (destruct e; reflexivity).
  destruct E as [|e' E]; [apply Nat.max_0_r|]. rewrite IH by discriminate. apply Nat.max_id.
Qed.

Lemma hmax_flat : forall X m a, X <> [] ->
  hmax (flat_map (fun k => map (at_ [k]) X) (seq a (S m))) = S (a + m).
Proof.
  intros X m. induction m as [|m IH]; intros a HX.
  - cbn [seq flat_map]. rewrite app_nil_r, (hmax_at a [] X HX). f_equal. lia.
  - change (seq a (S (S m))) with (a :: seq (S a) (S m)). cbn [flat_map].
    rewrite hmax_app, (hmax_at a [] X HX), (IH (S a) HX). lia.
Qed.

Lemma hmax_range : forall e v a b, a <= b -> fst (spec_init e [] v) <> [] -> hmax (range_events e v a b) = S b.
Proof.
  intros e v a b Hle HX. unfold range_events. replace (S b - a) with (S (b - a)) by lia.
  rewrite (hmax_flat _ (b - a) a HX). f_equal. lia.
Qed.

Lemma reach_le : forall k E L, E <> [] -> S k <= hmax (map (at_ [k]) E ++ L).
Proof. intros k E L H. rewrite hmax_app, (hmax_at k [] E H). lia. Qed.

(* a designated item reaches one child k of the object, and no further *)
Lemma desig_run_head : forall W d ds v Ev p, desig_run W (d :: ds) v Ev p -> exists k r, p = k :: r /\ hmax Ev = S k.
Proof.
  intros W d ds v Ev p H. inversion H as [|W0 k V ds0 v0 Ev' p' HV Hrun'|n e0 a b v0 Hr Hoke]; subst.
  - exists k, p'. split; [reflexivity|exact (hmax_at k [] Ev' (desig_run_nonempty _ _ _ _ _ Hrun'))].
  - destruct (range_ok_inv n e0 a b v Hr) as [Hle _].
    exists b, []. split; [reflexivity|exact (hmax_range e0 v a b Hle (spec_init_nonempty e0 [] v Hoke))].
Qed.
