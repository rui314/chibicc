(* C15, symbol emission: corollaries of emit_symtab_correct, the decision table of gen_addr, the unit on which the
   one exclusion of the main theorem applies (that chibicc deviates from C11 on it is evaluated in
   Properties_C15_emit.C15_emit_extern_init_static_refuted), and units whose treatment chibicc fixed in the /repo
   commits named at each, computed as examples of the theorems. *)
From Coq Require Import List Bool Arith ZArith Lia.
From Chibicc Require Import Model.Linkage Proofs.LinkageProofs Proofs.LinkageComplete.
From Chibicc Require Import Spec.LinkSpec Model.Emit Proofs.EmitAsm Proofs.EmitParse Proofs.EmitProofs.
Import ListNotations.

(* the hypothesis live_ok is satisfiable: chibicc's own marking is such a decision procedure *)
Theorem model_live_ok ds : valid ds = true -> live_ok ds (model_live (ps_globals (parse ds))).
Proof. intros H1 n. apply (model_live_iff ds H1). Qed.

Theorem emit_symtab_correct_closed ds o :
  valid ds = true -> kb_extern_init_static ds = false ->
  forall n, symtab_of (emit o (parse_flags ds)) n = to_result (spec_entry (model_live (ps_globals (parse ds))) ds o n).
Proof. intros H1 H2 n. apply emit_symtab_correct; try assumption. apply model_live_ok; assumption. Qed.

(* any two decision procedures for emitted_fun agree, so they give the same table - of any unit *)
Theorem spec_entry_live_unique ds o l1 l2 n : live_ok ds l1 -> live_ok ds l2 -> spec_entry l1 ds o n = spec_entry l2 ds o n.
Proof.
  intros L1 L2. assert (H : forall g, l1 g = l2 g).
  { intros g. destruct (l1 g) eqn:E1, (l2 g) eqn:E2; try reflexivity; [apply L1, L2 in E1|apply L2, L1 in E2]; congruence. }
  unfold spec_entry. rewrite (H n). replace (referenced l1 ds n) with (referenced l2 ds n); [reflexivity|].
  clear L1 L2. unfold referenced. induction ds as [|d r IH]; [reflexivity|]. cbn [existsb]. rewrite IH.
  destruct d as [|g ? ? ? [b|]]; try reflexivity. rewrite (H g). reflexivity.
Qed.
Theorem spec_entry_live_irrelevant ds o l1 l2 n : live_ok ds l1 -> live_ok ds l2 ->
  valid ds = true -> kb_extern_init_static ds = false ->
  spec_entry l1 ds o n = spec_entry l2 ds o n.
Proof. intros L1 L2 _ _. apply spec_entry_live_unique; assumption. Qed.

(* -fPIC changes how addresses are formed, never which symbols the object file has: whatever the program, the
   closed form of the table does not mention the option *)
Theorem symtab_independent_of_pic prog fc s :
  sym_lookup (asm P_text None (emit (mkOpts fc true) prog)) s = sym_lookup (asm P_text None (emit (mkOpts fc false) prog)) s.
Proof. rewrite !symtab_closed_form. reflexivity. Qed.

Definition class_of (v : var) : ident_class :=
  mkIC (if v_local v || v_vla v then St_automatic else if v_tls v then St_thread else St_static) (v_vla v) (v_function v) (v_definition v).
Definition access_of (is : list insn) : option access :=
  match is with
  | [I_mov_rbp] => Some A_frame_pointer
  | [I_lea_rbp] => Some A_frame
  | [I_tlsgd _; I_value6666; I_rex64; I_call_tls_get_addr] => Some A_tls_gd
  | [I_mov_got _] => Some A_got
  | [I_mov_fs0; I_add_tpoff _] => Some A_tls_le
  | [I_lea_rip _] => Some A_pcrel
  | _ => None
  end.
Definition names_only (s : ident) (is : list insn) : bool :=
  forallb (fun i => match i with I_tlsgd x | I_mov_got x | I_add_tpoff x | I_lea_rip x => ident_eqb s x | _ => true end) is.

(* for all 2 x 2^5 combinations: the sequence is the preferred form for the class of the variable, that form
   is valid under the option, and the only symbol the sequence names is the variable's own *)
Theorem gen_addr_table : forall pic v,
  access_of (gen_addr pic v) = Some (preferred_access pic (class_of v))
  /\ access_valid pic (class_of v) (preferred_access pic (class_of v)) = true
  /\ names_only (v_name v) (gen_addr pic v) = true.
Proof.
  intros pic [nm vla loc fn df tls]. unfold gen_addr, class_of, preferred_access, access_valid, names_only.
  cbn [v_name v_vla v_local v_function v_definition v_tls ic_storage ic_vla ic_function ic_defined_here].
  (* along gen_addr's own tests: a flag it does not look at on a branch is not looked at by the class either *)
  destruct vla; [rewrite orb_true_r; repeat split|rewrite orb_false_r].
  destruct loc; [repeat split|].
  destruct pic, tls; cbn [forallb andb]; rewrite ?ident_eqb_refl; [repeat split..|].
  destruct fn; [destruct df|]; cbn [forallb andb negb orb]; rewrite ident_eqb_refl; repeat split.
Qed.

(* two rows of the table: thread-local objects never get a plain address, and position-independent code uses neither
   local-exec TLS nor a pc-relative address of a global *)
Corollary gen_addr_tls pic v : v_vla v = false -> v_local v = false -> v_tls v = true ->
  access_of (gen_addr pic v) = Some (if pic then A_tls_gd else A_tls_le).
Proof. intros H1 H2 H3. destruct (gen_addr_table pic v) as [E _]. rewrite E. unfold preferred_access, class_of. rewrite H1, H2, H3. reflexivity. Qed.
Corollary gen_addr_pic_global v : v_vla v = false -> v_local v = false -> v_tls v = false ->
  access_of (gen_addr true v) = Some A_got.
Proof. intros H1 H2 H3. destruct (gen_addr_table true v) as [E _]. rewrite E. unfold preferred_access, class_of. rewrite H1, H2, H3. reflexivity. Qed.

Definition od_int (sc : sclass) (i : init) : objdecl := mkOD sc false 4 4 None false i.
Definition od_ptr (sc : sclass) (i : init) : objdecl := mkOD sc false 8 8 None false i.
Definition o_default : opts := mkOpts true false.

(* the excluded unit:  static int x1; extern int x1 = 5;   C11 6.2.2p4: internal linkage, so a LOCAL object.  chibicc: GLOBAL *)
Definition bad_extern_init_static : list decl := [DObj 1 (od_int SC_static INone); DObj 1 (od_int SC_extern IConst)].

(* extern int x1 = 5;   (a definition since /repo 2049a24) *)
Definition ex_extern_init : list decl := [DObj 1 (od_int SC_extern IConst)].
Example extern_init_now_defined : valid ex_extern_init = true /\ no_known_bad ex_extern_init = true /\
  symtab_of (emit o_default (parse_flags ex_extern_init)) 1 = Present (mkEntry B_global T_object P_data (Some 4%Z) (Some 4%Z))
  /\ spec_entry (closure_live ex_extern_init) ex_extern_init o_default 1 = Some (mkEntry B_global T_object P_data (Some 4%Z) (Some 4%Z)).
Proof. vm_compute. repeat split; reflexivity. Qed.
(* inline long x1(void) {..}  extern inline long x1(void);   (since /repo 85373f4 an external definition, GLOBAL);
   inline long x2(void); long x2(void) {..} likewise; a lone `inline long x3(void) {..}` stays an unused inline definition *)
Definition ex_inline_first : list decl :=
  [DFun 1 SC_none true 3 (Some []); DFun 1 SC_extern true 3 None;
   DFun 2 SC_none true 3 None; DFun 2 SC_none false 3 (Some []);
   DFun 3 SC_none true 3 (Some [])].
Example inline_first_now_external : valid ex_inline_first = true /\ no_known_bad ex_inline_first = true /\
  map (fun n => symtab_of (emit o_default (parse_flags ex_inline_first)) n) [1; 2; 3]%nat =
    [Present (mkEntry B_global T_func P_text None None); Present (mkEntry B_global T_func P_text None None); Absent]
  /\ map (fun n => spec_entry (closure_live ex_inline_first) ex_inline_first o_default n) [1; 2; 3]%nat =
    [Some (mkEntry B_global T_func P_text None None); Some (mkEntry B_global T_func P_text None None); None].
Proof. vm_compute. repeat split; reflexivity. Qed.
(* static inline long x1(void) { static int c; "ab"; }   long x2(void) { static int d = 1; }    x1 is never used:
   since /repo 62ebd1d its static c is not placed; its string and __func__ arrays are; x2's static is *)
Definition ex_dead_static : list decl :=
  [DFun 1 SC_static true 3 (Some [BStatic false 4 4 false false; BString 3]); DFun 2 SC_none false 3 (Some [BStatic false 4 4 false true])].
Example dead_static_not_placed : valid ex_dead_static = true /\
  anon_placements (emit o_default (parse_flags ex_dead_static)) =
    [mkAnon P_data 3 1; mkAnon P_data 3 1; mkAnon P_data 3 1; mkAnon P_data 3 1; mkAnon P_data 3 1; mkAnon P_data 4 4]
  /\ spec_anon (closure_live ex_dead_static) ex_dead_static =
    [mkAnon P_data 3 1; mkAnon P_data 3 1; mkAnon P_data 3 1; mkAnon P_data 3 1; mkAnon P_data 3 1; mkAnon P_data 4 4]
  /\ sym_lookup (asm P_text None (emit o_default (parse_flags ex_dead_static))) (Anon 2) = Absent.
Proof. vm_compute. repeat split; reflexivity. Qed.

(* static inline long x1(void) {..}  static inline long x2(void) {..}  void *x3 = &x1;
   (since /repo f841ff9 current_fn is reset and the initializer marks x1 as a root: x1 is emitted, x2 is not) *)
Definition ex_fun_addr : list decl :=
  [DFun 1 SC_static true 3 (Some []); DFun 2 SC_static true 3 (Some []); DObj 3 (od_ptr SC_none (IAddr 1))].
Example fun_addr_now_emitted : valid ex_fun_addr = true /\ no_known_bad ex_fun_addr = true /\
  symtab_of (emit o_default (parse_flags ex_fun_addr)) 1 = Present (mkEntry B_local T_func P_text None None)
  /\ symtab_of (emit o_default (parse_flags ex_fun_addr)) 2 = Absent
  /\ spec_entry (closure_live ex_fun_addr) ex_fun_addr o_default 1 = Some (mkEntry B_local T_func P_text None None)
  /\ spec_entry (closure_live ex_fun_addr) ex_fun_addr o_default 2 = None.
Proof. vm_compute. repeat split; reflexivity. Qed.
(* static inline long x1(void);  void *x3 = &x1;  static inline long x1(void) {..}
   (/repo f841ff9: the root mark survives the later declaration) *)
Definition ex_fun_addr2 : list decl :=
  [DFun 1 SC_static true 3 None; DObj 3 (od_ptr SC_none (IAddr 1)); DFun 1 SC_static true 3 (Some [])].
Example fun_addr2_now_emitted : valid ex_fun_addr2 = true /\ no_known_bad ex_fun_addr2 = true /\
  symtab_of (emit o_default (parse_flags ex_fun_addr2)) 1 = Present (mkEntry B_local T_func P_text None None)
  /\ spec_entry (closure_live ex_fun_addr2) ex_fun_addr2 o_default 1 = Some (mkEntry B_local T_func P_text None None).
Proof. vm_compute. repeat split; reflexivity. Qed.
(* long x1(void) { static _Thread_local int c; static _Thread_local int d = 1; .. }
   (/repo 7f591c9: thread storage duration -> .tbss / .tdata, accessed through %fs resp. __tls_get_addr) *)
Definition ex_static_tls : list decl := [DFun 1 SC_none false 3 (Some [BStatic true 4 4 false false; BStatic true 4 4 false true])].
Example static_tls_local_now_tls : valid ex_static_tls = true /\
  anon_placements (emit o_default (parse_flags ex_static_tls)) = [mkAnon P_data 3 1; mkAnon P_data 3 1; mkAnon P_tbss 4 4; mkAnon P_tdata 4 4]
  /\ spec_anon (closure_live ex_static_tls) ex_static_tls = [mkAnon P_data 3 1; mkAnon P_data 3 1; mkAnon P_tbss 4 4; mkAnon P_tdata 4 4]
  /\ sym_lookup (asm P_text None (emit o_default (parse_flags ex_static_tls))) (Anon 2) = Present (mkEntry B_local T_tls P_tbss (Some 4%Z) (Some 4%Z))
  /\ existsb (fun d => match d with D_insn (I_add_tpoff (Anon 2)) => true | _ => false end) (emit (mkOpts true false) (parse_flags ex_static_tls)) = true
  /\ existsb (fun d => match d with D_insn (I_tlsgd (Anon 2)) => true | _ => false end) (emit (mkOpts true true) (parse_flags ex_static_tls)) = true.
Proof. vm_compute. repeat split; reflexivity. Qed.

(* _Alignas(64) int x1; int x1;   _Alignas(64) int x2; int x2 = 5;   extern int x4; _Alignas(64) int x4 = 1;
   _Alignas(64) extern int x5; int x5;
   (/repo 82bbc19: the specifier of an earlier declaration is carried to the later ones) *)
Definition ex_alignas : list decl :=
  [ DObj 1 (mkOD SC_none false 4 4 (Some 64%Z) false INone); DObj 1 (mkOD SC_none false 4 4 None false INone);
    DObj 2 (mkOD SC_none false 4 4 (Some 64%Z) false INone); DObj 2 (mkOD SC_none false 4 4 None false IConst);
    DObj 4 (mkOD SC_extern false 4 4 None false INone); DObj 4 (mkOD SC_none false 4 4 (Some 64%Z) false IConst);
    DObj 5 (mkOD SC_extern false 4 4 (Some 64%Z) false INone); DObj 5 (mkOD SC_none false 4 4 None false INone) ].
Example alignas_carried : valid ex_alignas = true /\ no_known_bad ex_alignas = true /\
  map (fun n => symtab_of (emit o_default (parse_flags ex_alignas)) n) [1; 2; 4; 5]%nat =
  [ Present (mkEntry B_global T_object P_common (Some 4%Z) (Some 64%Z)); Present (mkEntry B_global T_object P_data (Some 4%Z) (Some 64%Z));
    Present (mkEntry B_global T_object P_data (Some 4%Z) (Some 64%Z)); Present (mkEntry B_global T_object P_common (Some 4%Z) (Some 64%Z)) ].
Proof. vm_compute. repeat split; reflexivity. Qed.
(* `valid` reads 6.7.5p7 strictly: a defining declaration (tentative or not) without a specifier may not precede the
   first declaration that has one.  `int x3; _Alignas(64) int x3;` (chibicc and gcc: 64) and
   `int x6; _Alignas(64) extern int x6;` (chibicc: 4, gcc: 64) are therefore outside the theorems *)
Example alignas_after_definition_not_valid :
  valid [DObj 3 (mkOD SC_none false 4 4 None false INone); DObj 3 (mkOD SC_none false 4 4 (Some 64%Z) false INone)] = false
  /\ valid [DObj 6 (mkOD SC_none false 4 4 None false INone); DObj 6 (mkOD SC_extern false 4 4 (Some 64%Z) false INone)] = false.
Proof. split; reflexivity. Qed.

(* non-vacuity: a unit that satisfies every hypothesis, with its table
   int x1; int x1;  static int x2; extern int x2;  extern _Thread_local int x3;  int x4[20] = {1};
   static _Thread_local long x5;  void *x6 = &x4;  extern long x7(void);
   static inline long x10(void) { &x3; }   static inline long x11(void) { &x10; }   (x11 dead)
   inline long x12(void) { }               (inline definition only, unused)
   long x13(void) { &x1; &x2; static int c; "abc"; &x10; &x7; &x5; }     static void *x8 = &x13;        *)
Definition demo : list decl :=
  [ DObj 1 (od_int SC_none INone); DObj 1 (od_int SC_none INone);
    DObj 2 (od_int SC_static INone); DObj 2 (od_int SC_extern INone);
    DObj 3 (mkOD SC_extern true 4 4 None false INone);
    DObj 4 (mkOD SC_none false 80 4 None true IConst);
    DObj 5 (mkOD SC_static true 8 8 None false INone);
    DObj 6 (od_ptr SC_none (IAddr 4));
    DFun 7 SC_extern false 3 None;
    DFun 10 SC_static true 4 (Some [BRef 3]);
    DFun 11 SC_static true 4 (Some [BRef 10]);
    DFun 12 SC_none true 4 (Some []);
    DFun 13 SC_none false 4 (Some [BRef 1; BRef 2; BStatic false 4 4 false false; BString 4; BRef 10; BRef 7; BRef 5]);
    DObj 8 (od_ptr SC_static (IAddr 13)) ].
Definition demo_table (o : opts) : list (nat * lookup_result) :=
  map (fun n => (n, symtab_of (emit o (parse_flags demo)) n)) [1; 2; 3; 4; 5; 6; 7; 8; 10; 11; 12; 13; 99]%nat.

Example emit_nonvacuous :
  valid demo = true /\ no_known_bad demo = true
  /\ demo_table (mkOpts true false) =
     [ (1, Present (mkEntry B_global T_object P_common (Some 4%Z) (Some 4%Z)));
       (2, Present (mkEntry B_local T_object P_bss (Some 4%Z) (Some 4%Z)));
       (3, Present (mkEntry B_global T_tls P_undef None None));
       (4, Present (mkEntry B_global T_object P_data (Some 80%Z) (Some 16%Z)));
       (5, Present (mkEntry B_local T_tls P_tbss (Some 8%Z) (Some 8%Z)));
       (6, Present (mkEntry B_global T_object P_data (Some 8%Z) (Some 8%Z)));
       (7, Present (mkEntry B_global T_notype P_undef None None));
       (8, Present (mkEntry B_local T_object P_data (Some 8%Z) (Some 8%Z)));
       (10, Present (mkEntry B_local T_func P_text None None));
       (11, Absent); (12, Absent);
       (13, Present (mkEntry B_global T_func P_text None None));
       (99, Absent) ]%nat
  /\ demo_table (mkOpts false true) =
     [ (1, Present (mkEntry B_global T_object P_bss (Some 4%Z) (Some 4%Z)));
       (2, Present (mkEntry B_local T_object P_bss (Some 4%Z) (Some 4%Z)));
       (3, Present (mkEntry B_global T_tls P_undef None None));
       (4, Present (mkEntry B_global T_object P_data (Some 80%Z) (Some 16%Z)));
       (5, Present (mkEntry B_local T_tls P_tbss (Some 8%Z) (Some 8%Z)));
       (6, Present (mkEntry B_global T_object P_data (Some 8%Z) (Some 8%Z)));
       (7, Present (mkEntry B_global T_notype P_undef None None));
       (8, Present (mkEntry B_local T_object P_data (Some 8%Z) (Some 8%Z)));
       (10, Present (mkEntry B_local T_func P_text None None));
       (11, Absent); (12, Absent);
       (13, Present (mkEntry B_global T_func P_text None None));
       (99, Absent) ]%nat
  /\ forallb (fun n => Bool.eqb (closure_live demo n) (model_live (ps_globals (parse demo)) n)) [7; 10; 11; 12; 13]%nat = true.
Proof. vm_compute. repeat split; reflexivity. Qed.
