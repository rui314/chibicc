(* Integer constants: the scanning part of convert_pp_int (base prefix, strtoul, suffix chain)
   against the grammar of C11 6.4.4.1 in Spec/LitSpec.v, composed with the type ladder
   theorem of Proofs/IntLitProofs.v. *)
From Chibicc Require Import Base.Mach Base.ListFacts Model.Unicode Spec.Utf Model.IntLit Spec.IntLitSpec
     Proofs.IntLitProofs Model.LitScan Spec.LitSpec Proofs.LitScanProofs.
Local Open Scope N_scope.

Definition umax : N := 18446744073709551615.      (* ULONG_MAX, where strtoul saturates *)

Definition dstep (base a ch : N) : N := a * base + dval ch.

Lemma digits_value_fold base ds : digits_value base ds = fold_left (dstep base) ds 0.
Proof. reflexivity. Qed.

Lemma scan_suffix_accepts sfx :
  scan_suffix (spell_isuffix sfx) = (suffix_has_l sfx, suffix_has_u sfx, []).
Proof. destruct sfx as [|u [l|]|l [u|]]; try destruct u; try destruct l; reflexivity. Qed.

Lemma all_isuffix_complete sfx : In sfx all_isuffix.
Proof.
  destruct sfx as [|u l|l u]; [left; reflexivity|right; apply in_or_app..].
  - left. apply in_flat_map. exists u. split; [destruct u; cbv; tauto|].
    destruct l as [l|]; [right; apply (in_map (fun l => SfxUL u (Some l))); destruct l; cbv; tauto|left; reflexivity].
  - right. apply in_flat_map. exists l. split; [destruct l; cbv; tauto|].
    destruct u as [u|]; [right; apply (in_map (fun u => SfxLU l (Some u))); destruct u; cbv; tauto|left; reflexivity].
Qed.

Lemma suffix_in_table sfx : In (spell_isuffix sfx, (suffix_has_l sfx, suffix_has_u sfx)) suffix_table.
Proof. apply in_map_iff. exists sfx. split; [reflexivity|apply all_isuffix_complete]. Qed.

Lemma table_sound s l u : In (s, (l, u)) suffix_table ->
  exists sfx, s = spell_isuffix sfx /\ l = suffix_has_l sfx /\ u = suffix_has_u sfx.
Proof.
  unfold suffix_table. intros H. apply in_map_iff in H. destruct H as [sfx [E _]].
  exists sfx. inversion E. repeat split.
Qed.

Lemma startswith_whole q : forall p, startswith p q = true -> skipn (length q) p = [] -> p = q.
Proof.
  induction q as [|c q IH]; intros p H Hr; [exact Hr|].
  destruct p as [|b p]; [discriminate|]. cbn [startswith] in H. apply andb_prop in H. destruct H as [Hb Hq].
  apply N.eqb_eq in Hb. subst b. f_equal. apply IH; [exact Hq|exact Hr].
Qed.

Lemma peek_whole p c : (peek p =? c) = true -> c <> 0 -> skipn 1 p = [] -> p = [c].
Proof.
  intros E Hc Hr. apply N.eqb_eq in E. destruct p as [|b r]; [elim Hc; symmetry; exact E|].
  cbn [peek skipn] in *. subst. reflexivity.
Qed.

Lemma list_eqb_eq a b : list_eqb a b = true <-> a = b.
Proof. exact (eqb_list_eq N.eqb N.eqb_eq a b). Qed.

Lemma in_suffix_table s l u :
  existsb (fun e => list_eqb (fst e) s && Bool.eqb (fst (snd e)) l && Bool.eqb (snd (snd e)) u) suffix_table = true ->
  In (s, (l, u)) suffix_table.
Proof.
  intros H. apply existsb_exists in H. destruct H as [[s' [l' u']] [Hin H]]. cbn [fst snd] in H.
  apply andb_prop in H. destruct H as [H Hu]. apply andb_prop in H. destruct H as [Hs Hl].
  apply list_eqb_eq in Hs. apply Bool.eqb_prop in Hl, Hu. subst. exact Hin.
Qed.

Lemma tolower_inv b c : tolower b = c -> b = c \/ (65 <= b <= 90 /\ c = b + 32).
Proof. unfold tolower, isupper. destruct ((65 <=? b) && (b <=? 90)) eqn:E; lia. Qed.

Lemma tolower_letter b c : tolower b = c -> 97 <= c <= 122 -> b = c \/ b = c - 32.
Proof. intros H Hc. apply tolower_inv in H. lia. Qed.

Lemma tolower_fix b : b < 65 \/ 90 < b -> tolower b = b.
Proof. intros H. unfold tolower, isupper. replace ((65 <=? b) && (b <=? 90)) with false by lia. reflexivity. Qed.

Lemma caseeq2_split c1 c2 p : caseeq p [c1; c2] = true ->
  exists a b r, p = a :: b :: r /\ tolower a = tolower c1 /\ tolower b = tolower c2.
Proof.
  intros H. destruct p as [|a [|b r]]; cbn [caseeq] in H; try discriminate.
  - rewrite andb_false_r in H. discriminate.
  - exists a, b, r. apply andb_prop in H. destruct H as [H1 H2]. apply andb_prop in H2. destruct H2 as [H2 _].
    apply N.eqb_eq in H1. apply N.eqb_eq in H2. auto.
Qed.

Lemma caseeq_second p c1 c2 : caseeq p [c1; c2] = true -> tolower (peek (tl p)) = tolower c2.
Proof. intros H. apply caseeq2_split in H. destruct H as [a [b [r [-> [_ Hb]]]]]. exact Hb. Qed.

Lemma scan_suffix_inv p l u : scan_suffix p = (l, u, []) -> In (p, (l, u)) suffix_table.
Proof.
  (* the test of the chain that succeeds consumes a fixed number of bytes; nothing being left, p is one
     of the finitely many spellings that test accepts, and the table holds it with that meaning
     (looked up by evaluation) *)
  unfold scan_suffix. intros H.
  destruct (startswith p [76;76;85] || startswith p [76;76;117] || startswith p [108;108;85] ||
            startswith p [108;108;117] || startswith p [85;76;76] || startswith p [85;108;108] ||
            startswith p [117;76;76] || startswith p [117;108;108]) eqn:E3.
  { inversion H as [[Hl Hu Hr]].
    repeat (apply orb_prop in E3; destruct E3 as [E3|E3]);
      rewrite (startswith_whole _ _ E3 Hr); apply in_suffix_table; reflexivity. }
  destruct (caseeq p [108;117] || caseeq p [117;108]) eqn:E2.
  { inversion H as [[Hl Hu Hr]].
    apply orb_prop in E2. destruct E2 as [E2|E2];
      apply caseeq2_split in E2; destruct E2 as [a [b [r [-> [Ha Hb]]]]];
      cbn [skipn] in Hr; subst r;
      (* the [try] closes the side conditions of tolower_letter: l and u are lower-case letters *)
      apply tolower_letter in Ha, Hb; try (cbv; split; discriminate);
      destruct Ha as [-> | ->], Hb as [-> | ->]; apply in_suffix_table; reflexivity. }
  destruct (startswith p [76;76] || startswith p [108;108]) eqn:E22.
  { inversion H as [[Hl Hu Hr]].
    apply orb_prop in E22. destruct E22 as [E|E];
      rewrite (startswith_whole _ _ E Hr); apply in_suffix_table; reflexivity. }
  destruct ((peek p =? 76) || (peek p =? 108)) eqn:E1.
  { inversion H as [[Hl Hu Hr]].
    apply orb_prop in E1. destruct E1 as [E|E];
      rewrite (peek_whole _ _ E ltac:(discriminate) Hr); apply in_suffix_table; reflexivity. }
  destruct ((peek p =? 85) || (peek p =? 117)) eqn:E1u.
  { inversion H as [[Hl Hu Hr]].
    apply orb_prop in E1u. destruct E1u as [E|E];
      rewrite (peek_whole _ _ E ltac:(discriminate) Hr); apply in_suffix_table; reflexivity. }
  inversion H; subst. apply in_suffix_table; reflexivity.
Qed.

Lemma suffix_first sfx : In (peek (spell_isuffix sfx)) [0; 117; 85; 108; 76].
Proof. destruct sfx as [|u l|l u]; [|destruct u|destruct l]; cbv; tauto. Qed.

(* strtoul skips a 0x of its own exactly where the scanner refuses a second prefix *)
Lemma caseeq_0x_skip p : caseeq p [48; 120] = (peek p =? 48) && (toupper (peek (tl p)) =? 88).
Proof.
  destruct p as [|a [|b r]]; cbn [caseeq peek tl];
    [reflexivity|rewrite andb_false_r; symmetry; apply andb_false_r|].
  replace (caseeq r []) with true by (destruct r; reflexivity).
  change (tolower 48) with 48. change (tolower 120) with 120. unfold tolower, toupper, isupper, islower.
  destruct ((65 <=? a) && (a <=? 90)) eqn:Ea, ((65 <=? b) && (b <=? 90)) eqn:Eb,
           ((97 <=? b) && (b <=? 122)) eqn:Eb'; cbv iota; lia.
Qed.

Lemma no_skip base p : doubled_prefix base p = false ->
  (base =? 16) && (peek p =? 48) && (toupper (peek (tl p)) =? 88) = false.
Proof.
  intros H. destruct (base =? 16) eqn:E; [|reflexivity]. cbn [andb]. rewrite <- caseeq_0x_skip.
  unfold doubled_prefix in H. rewrite E in H. exact (proj1 (orb_false_elim _ _ H)).
Qed.

(* what follows holds for every base up to 16: the digit table of the grammar and glibc's digit
   values agree there *)
Section Radix.
  Variable base : N.
  Hypothesis Hb : base <= 16.

  (* one round of strtoul's digit loop, in the terms of the spec *)
  Lemma strtoul_digits_cons acc b p :
    strtoul_digits base acc (b :: p) =
      if is_digit_of base b then strtoul_digits base (dstep base acc b) p else (acc, b :: p).
  Proof.
    destruct (is_digit_of base b) eqn:Hd.
    - destruct (digit_facts base b Hd) as (_ & _ & Hlt & Hs).
      cbn [strtoul_digits]. rewrite Hs. replace (dval b <? base) with true by lia. reflexivity.
    - rewrite digit_of_base in Hd by exact Hb. unfold is_base_digit in Hd. cbn [strtoul_digits].
      destruct (strtoul_digit b) as [x|]; [rewrite Hd|]; reflexivity.
  Qed.

  Lemma strtoul_digits_spec ds : forall acc rest,
    forallb (is_digit_of base) ds = true -> is_base_digit base (peek rest) = false ->
    strtoul_digits base acc (ds ++ rest) = (fold_left (dstep base) ds acc, rest).
  Proof.
    induction ds as [|d ds IH]; intros acc rest Hds Hrest.
    - cbn [app fold_left]. destruct rest as [|b r]; [reflexivity|].
      rewrite <- digit_of_base in Hrest by exact Hb. cbn [peek] in Hrest.
      rewrite strtoul_digits_cons, Hrest. reflexivity.
    - apply andb_prop in Hds. destruct Hds as [Hd Hds].
      cbn [app fold_left]. rewrite strtoul_digits_cons, Hd. apply IH; assumption.
  Qed.

  Lemma strtoul_digits_rest : forall p acc,
    exists ds, p = ds ++ snd (strtoul_digits base acc p) /\ forallb (is_digit_of base) ds = true /\
               is_digit_of base (peek (snd (strtoul_digits base acc p))) = false.
  Proof.
    induction p as [|b p IH]; intros acc.
    - exists []. repeat split.
    - rewrite strtoul_digits_cons. destruct (is_digit_of base b) eqn:Hd.
      + destruct (IH (dstep base acc b)) as [ds [Hp [Hds Hr]]].
        exists (b :: ds). cbn [app forallb]. rewrite Hd, Hds, <- Hp. repeat split. exact Hr.
      + exists []. repeat split. exact Hd.
  Qed.

  Lemma suffix_not_digit sfx : is_base_digit base (peek (spell_isuffix sfx)) = false.
  Proof.
    rewrite base_digit_hex by exact Hb.
    destruct (suffix_first sfx) as [<- | [<- | [<- | [<- | [<- | []]]]]]; reflexivity.
  Qed.

  (* behind the first digit of a valid constant stands a digit of its base, a suffix letter or
     nothing: never an x and, the base being at most 10, never a b *)
  Lemma second_byte ds sfx : forallb (is_digit_of base) ds = true ->
    let b := peek (ds ++ spell_isuffix sfx) in tolower b <> 120 /\ (base <= 10 -> tolower b <> 98).
  Proof.
    intros Hds. destruct ds as [|d ds]; cbn [app peek].
    - destruct (suffix_first sfx) as [<- | [<- | [<- | [<- | [<- | []]]]]]; (split; [|intros _]); cbv; discriminate.
    - destruct (andb_prop _ _ Hds) as [Hd _]. split.
      + rewrite digit_of_hex in Hd. apply andb_prop in Hd. destruct Hd as [Hx _].
        unfold isxdigit, isdigit in Hx. intros E. apply tolower_inv in E. lia.
      + intros H10. rewrite low_digit in Hd by exact H10. rewrite tolower_fix; lia.
  Qed.

  Lemma not_doubled d ds sfx : forallb (is_digit_of base) ds = true ->
    doubled_prefix base ((d :: ds) ++ spell_isuffix sfx) = false.
  Proof.
    intros Hds. destruct (second_byte ds sfx Hds) as [Hx H98]. unfold doubled_prefix.
    destruct (caseeq _ [48; 120]) eqn:Ex; [exfalso; exact (Hx (caseeq_second _ _ _ Ex))|].
    destruct (caseeq _ [48; 98]) eqn:E98; [apply caseeq_second in E98|rewrite !andb_false_r; reflexivity].
    replace (base =? 2) with false; [rewrite andb_false_r; reflexivity|].
    symmetry. apply N.eqb_neq. intros E. exact (H98 ltac:(lia) E98).
  Qed.

  Lemma strtoul_plain d ds rest :
    forallb (is_digit_of base) (d :: ds) = true -> is_base_digit base (peek rest) = false ->
    doubled_prefix base ((d :: ds) ++ rest) = false ->
    strtoul ((d :: ds) ++ rest) base = (N.min (digits_value base (d :: ds)) umax, rest).
  Proof.
    intros Hds Hrest Hdp. unfold strtoul. rewrite (no_skip _ _ Hdp).
    destruct (andb_prop _ _ Hds) as [Hd _].
    change (peek ((d :: ds) ++ rest)) with d. rewrite <- (digit_of_base base d Hb), Hd.
    rewrite (strtoul_digits_spec (d :: ds) 0 rest Hds Hrest). reflexivity.
  Qed.

  Lemma scan_int_digits s d ds sfx :
    scan_base s = (base, (d :: ds) ++ spell_isuffix sfx) ->
    forallb (is_digit_of base) (d :: ds) = true ->
    scan_int s = Some (base, N.min (digits_value base (d :: ds)) umax, suffix_has_l sfx, suffix_has_u sfx).
  Proof.
    intros Hbase Hds. destruct (andb_prop _ _ Hds) as [_ Hds'].
    pose proof (not_doubled d ds sfx Hds') as Hdp.
    unfold scan_int. rewrite Hbase. cbn [fst snd]. rewrite Hdp.
    rewrite strtoul_plain; [|exact Hds|apply suffix_not_digit|exact Hdp].
    cbn [fst snd]. rewrite scan_suffix_accepts. reflexivity.
  Qed.

  Lemma scan_tail_inv p : doubled_prefix base p = false ->
    is_digit_of base (peek p) = true ->
    snd (scan_suffix (snd (strtoul p base))) = [] ->
    exists ds sfx, p = ds ++ spell_isuffix sfx /\ ds <> [] /\ forallb (is_digit_of base) ds = true.
  Proof.
    intros Hsk Hd H. unfold strtoul in H. rewrite (no_skip _ _ Hsk), <- digit_of_base, Hd in H by exact Hb.
    cbn [snd] in H.
    destruct (strtoul_digits_rest p 0) as [ds [Hp [Hds Hr]]].
    destruct (scan_suffix (snd (strtoul_digits base 0 p))) as [[l u] r'] eqn:Es. cbn [snd] in H. subst r'.
    apply scan_suffix_inv, table_sound in Es. destruct Es as [sfx [Es _]].
    exists ds, sfx. rewrite <- Es. repeat split; [exact Hp| |exact Hds].
    (* the first byte is a digit, the byte behind the run is none *)
    intros ->. cbn [app] in Hp. rewrite <- Hp, Hd in Hr. discriminate.
  Qed.
End Radix.

Theorem scan_int_accepts k : valid_iconst k = true ->
  scan_int (spell_iconst k) =
    Some (base_radix (ic_base k), N.min (iconst_value k) umax, suffix_has_l (ic_suffix k), suffix_has_u (ic_suffix k)).
Proof.
  destruct k as [b ds sfx]. unfold valid_iconst, spell_iconst, iconst_value. cbn [ic_base ic_digits ic_suffix].
  intros Hv. apply andb_prop in Hv. destruct Hv as [Hds Hshape].
  destruct b as [| |up|up]; cbn [base_radix spell_base app] in *.
  - destruct ds as [|d ds']; [discriminate|]. destruct (andb_prop _ _ Hds) as [Hd _].
    rewrite decdig_isdigit in Hd. unfold isdigit in Hd.
    apply scan_int_digits; [discriminate| |exact Hds].
    unfold scan_base. cbn [app caseeq peek]. rewrite tolower_fix by lia. change (tolower 48) with 48.
    replace (d =? 48) with false by lia. reflexivity.
  - (* octal: the leading 0 is a digit of value 0 *)
    destruct (second_byte 8 ltac:(discriminate) ds sfx Hds) as [Hnx Hnb]. specialize (Hnb ltac:(discriminate)).
    rewrite (scan_int_digits 8 ltac:(discriminate) _ 48 ds sfx); [reflexivity| |cbn [forallb]; rewrite Hds; reflexivity].
    unfold scan_base.
    destruct (caseeq _ [48; 120]) eqn:Ex; [exfalso; exact (Hnx (caseeq_second _ _ _ Ex))|].
    destruct (caseeq _ [48; 98]) eqn:E98; [exfalso; exact (Hnb (caseeq_second _ _ _ E98))|]. reflexivity.
  - destruct ds as [|d ds']; [discriminate|]. destruct (andb_prop _ _ Hds) as [Hd _].
    apply scan_int_digits; [discriminate| |exact Hds].
    unfold scan_base. cbn [app caseeq nth skipn]. rewrite <- hexdig_isxdigit, Hd. destruct up; reflexivity.
  - destruct ds as [|d ds']; [discriminate|]. destruct (andb_prop _ _ Hds) as [Hd _].
    apply scan_int_digits; [discriminate| |exact Hds].
    unfold scan_base. cbn [app caseeq nth skipn]. rewrite bindig_01 in Hd. rewrite Hd. destruct up; reflexivity.
Qed.

Theorem convert_pp_int_spec k t : valid_iconst k = true ->
  iconst_value k <= umax -> iconst_type k = Some t ->
  convert_pp_int (spell_iconst k) = Some (iconst_value k, t).
Proof.
  intros Hv Hle Ht. unfold convert_pp_int. rewrite scan_int_accepts by exact Hv.
  rewrite N.min_l by exact Hle. f_equal. f_equal.
  unfold iconst_type in Ht.
  replace (base_radix (ic_base k) =? 10) with (iconst_decimal k) by (unfold iconst_decimal; destruct (ic_base k); reflexivity).
  apply literal_type_is_c11; [unfold umax in Hle; lia|exact Ht].
Qed.

Lemma caseeq_0c c p : 97 <= c <= 122 -> caseeq p [48; c] = true ->
  exists (up : bool) r, p = 48 :: (if up then c - 32 else c) :: r.
Proof.
  intros Hc H. apply caseeq2_split in H. destruct H as [a [b [r [-> [Ha Hb]]]]].
  apply tolower_inv in Ha. change (tolower 48) with 48 in Ha. assert (a = 48) by lia. subst a.
  rewrite (tolower_fix c) in Hb by lia. apply tolower_letter in Hb; [|exact Hc].
  destruct Hb as [-> | ->]; [exists false|exists true]; exists r; reflexivity.
Qed.

Lemma scan_tail_sound b p : b <> BOct -> (b = BDec -> peek p <> 48) ->
  doubled_prefix (base_radix b) p = false -> is_digit_of (base_radix b) (peek p) = true ->
  snd (scan_suffix (snd (strtoul p (base_radix b)))) = [] ->
  exists k, valid_iconst k = true /\ spell_iconst k = spell_base b ++ p.
Proof.
  intros Hoct Hdec Hdp Hd H.
  destruct (scan_tail_inv (base_radix b) ltac:(destruct b; discriminate) p Hdp Hd H) as [ds [sfx [-> [Hne Hds]]]].
  exists {| ic_base := b; ic_digits := ds; ic_suffix := sfx |}. split; [|reflexivity].
  unfold valid_iconst. cbn [ic_base ic_digits]. rewrite Hds.
  destruct ds as [|d ds]; [contradiction|]. destruct b; [|contradiction|reflexivity|reflexivity].
  apply N.eqb_neq in Hdec; [|reflexivity]. cbn [app peek] in Hdec. rewrite Hdec. reflexivity.
Qed.

Theorem scan_int_sound s r : isdigit (peek s) = true -> scan_int s = Some r ->
  exists k, valid_iconst k = true /\ spell_iconst k = s.
Proof.
  intros Hdig H. unfold scan_int in H.
  destruct (doubled_prefix (fst (scan_base s)) (snd (scan_base s))) eqn:Edp; [discriminate|].
  destruct (snd (scan_suffix (snd (strtoul (snd (scan_base s)) (fst (scan_base s)))))) eqn:Hs; [|discriminate].
  clear H r. unfold scan_base in Hs, Edp.
  destruct (caseeq s [48; 120] && isxdigit (nth 2 s 0)) eqn:C16.
  { apply andb_prop in C16. destruct C16 as [Cx Cd].
    destruct (caseeq_0c 120 s ltac:(lia) Cx) as [up [t ->]]. cbn [nth] in Cd.
    destruct t as [|d t]; [discriminate|]. rewrite <- hexdig_isxdigit in Cd.
    apply (scan_tail_sound (BHex up) (d :: t)); [discriminate|discriminate|exact Edp|exact Cd|exact Hs]. }
  destruct (caseeq s [48; 98] && ((nth 2 s 0 =? 48) || (nth 2 s 0 =? 49))) eqn:C2.
  { apply andb_prop in C2. destruct C2 as [Cx Cd].
    destruct (caseeq_0c 98 s ltac:(lia) Cx) as [up [t ->]]. cbn [nth] in Cd.
    destruct t as [|d t]; [discriminate|]. rewrite <- bindig_01 in Cd.
    apply (scan_tail_sound (BBin up) (d :: t)); [discriminate|discriminate|exact Edp|exact Cd|exact Hs]. }
  destruct (peek s =? 48) eqn:C8; cbn [fst snd] in Hs, Edp.
  { (* octal: the leading 0 is the first of the digits strtoul took *)
    destruct s as [|z t]; [discriminate|]. cbn [peek] in C8. apply N.eqb_eq in C8. subst z.
    destruct (scan_tail_inv 8 ltac:(lia) (48 :: t) Edp eq_refl Hs) as [ds [sfx [Hp [Hne Hds]]]].
    destruct ds as [|d0 ds']; [contradiction|]. cbn [app] in Hp. inversion Hp as [[Hd0 Ht]]. subst d0.
    exists {| ic_base := BOct; ic_digits := ds'; ic_suffix := sfx |}.
    cbn [forallb] in Hds. apply andb_prop in Hds. destruct Hds as [_ Hds].
    split; [|reflexivity]. unfold valid_iconst. cbn [ic_base ic_digits base_radix]. rewrite Hds. reflexivity. }
  { rewrite <- decdig_isdigit in Hdig. apply N.eqb_neq in C8.
    apply (scan_tail_sound BDec s); [discriminate|intros _; exact C8|exact Edp|exact Hdig|exact Hs]. }
Qed.

Theorem convert_pp_int_iff s : isdigit (peek s) = true ->
  (convert_pp_int s <> None <-> exists k, valid_iconst k = true /\ spell_iconst k = s).
Proof.
  intros Hd. unfold convert_pp_int. split.
  - intros H. destruct (scan_int s) as [[[[b v] l] u]|] eqn:E; [|contradiction].
    eapply scan_int_sound; eassumption.
  - intros [k [Hv <-]]. rewrite scan_int_accepts by exact Hv. discriminate.
Qed.

Lemma recognise_sound s k : recognise_iconst s = Some k -> valid_iconst k = true /\ spell_iconst k = s.
Proof.
  unfold recognise_iconst. intros H. apply find_some in H. destruct H as [_ H].
  apply andb_prop in H. destruct H as [Hv He]. apply list_eqb_eq in He. split; assumption.
Qed.

Lemma all_ibase_complete b : In b all_ibase.
Proof. destruct b as [| |[|]|[|]]; cbv; tauto. Qed.

Lemma candidate_in k : In k (iconst_candidates (spell_iconst k)).
Proof.
  destruct k as [b ds sfx]. unfold iconst_candidates, spell_iconst. cbn [ic_base ic_digits ic_suffix].
  apply in_flat_map. exists b. split; [apply all_ibase_complete|].
  apply in_map_iff. exists sfx. split; [|apply all_isuffix_complete].
  cbv zeta. rewrite skipn_length_app.
  replace (length (ds ++ spell_isuffix sfx) - length (spell_isuffix sfx))%nat with (length ds) by (rewrite app_length; lia).
  rewrite firstn_length_app. reflexivity.
Qed.

Lemma recognise_complete k : valid_iconst k = true -> recognise_iconst (spell_iconst k) <> None.
Proof.
  intros Hv Hn. unfold recognise_iconst in Hn.
  pose proof (find_none _ _ Hn k (candidate_in k)) as H. cbv beta in H.
  rewrite Hv in H. cbn [andb] in H.
  assert (E : list_eqb (spell_iconst k) (spell_iconst k) = true) by (apply list_eqb_eq; reflexivity).
  rewrite E in H. discriminate.
Qed.

Theorem recognise_iff s : recognise_iconst s <> None <-> exists k, valid_iconst k = true /\ spell_iconst k = s.
Proof.
  split.
  - intros H. destruct (recognise_iconst s) as [k|] eqn:E; [|contradiction].
    exists k. apply recognise_sound. exact E.
  - intros [k [Hv <-]]. apply recognise_complete. exact Hv.
Qed.

Corollary convert_pp_int_rejects s : isdigit (peek s) = true ->
  recognise_iconst s = None -> convert_pp_int s = None.
Proof.
  intros Hd Hn. destruct (convert_pp_int s) as [r|] eqn:E; [|reflexivity].
  assert (H : convert_pp_int s <> None) by (rewrite E; discriminate).
  apply (convert_pp_int_iff s Hd) in H. apply recognise_iff in H. contradiction.
Qed.

(* a doubled prefix is refused by model and grammar alike (convert_pp_int tests for it since /repo
   commit d1a8518; before, strtoul skipped the second 0x and 0x0x1 was read as 1); 0x0b1 is the
   constant 177 *)
Example convert_pp_int_doubled_prefix :
  convert_pp_int [48; 120; 48; 120; 49] = None /\ recognise_iconst [48; 120; 48; 120; 49] = None /\
  convert_pp_int [48; 88; 48; 88; 49; 102] = None /\ convert_pp_int [48; 98; 48; 98; 49] = None /\
  convert_pp_int [48; 120; 48; 98; 49] = Some (177, TInt) /\ convert_pp_int [48; 120; 48] = Some (0, TInt).
Proof. vm_compute. repeat split; reflexivity. Qed.
