(* C03 (switch, labels, goto): the simulation theorem read with the continuation semantics (Spec/SwCont.v,
   the usual style for goto) as the specification.  Neither theorem needs another semantics: the code does
   every step of the machine (LoweringSwProofs.sw_code_simulates_machine) and the jump machine is
   deterministic (sstar_halt_unique); sexec / srun of SwSem.v and their agreement with the machine do not enter. *)
From Coq Require Import List Arith Bool.
Import ListNotations.
From Chibicc Require Import Spec.SwSem Spec.SwCont Model.LoweringSw Model.LoweringSwParse
  Proofs.LoweringSwProofs Proofs.LoweringSwParseProofs.

Theorem sw_code_simulates_continuation_semantics : forall body o tr o',
  swf_fn body = true -> cstar body (body, Kstop, o) tr (SSkip, Kstop, o') ->
  forall r, exists r', sstar (sprogram body) (0, o, r) tr (ssize body, o', r').
Proof.
  intros body o tr o' Hwf H. destruct (sw_code_simulates_machine None body body Kstop o tr o' Hwf eq_refl H) as (q & Hq & S).
  cbn [sentry] in Hq. injection Hq as <-. exact S.
Qed.

(* the same for the code as parse.c and gen_stmt produce it, assembled; and every halting run of it *)
Theorem sw_parsed_code_simulates_continuation_semantics : forall body ctr c code o tr o',
  pfunction body ctr c = Some code -> swf_fn body = true -> cstar body (body, Kstop, o) tr (SSkip, Kstop, o') ->
  (forall r, exists r', sstar (passemble code) (0, o, r) tr (length (passemble code), o', r')) /\
  (forall r t2 st2, sstar (passemble code) (0, o, r) t2 st2 -> sstep (passemble code) st2 = None -> t2 = tr /\ snd (fst st2) = o').
Proof.
  intros body ctr c code o tr o' Hp Hwf H. rewrite (sw_parse_gen_is_sprogram _ _ _ _ Hp), sprogram_length.
  pose proof (sw_code_simulates_continuation_semantics body o tr o' Hwf H) as S. split; [exact S|].
  intros r t2 st2 H2 Hstuck. destruct (S r) as [r' S1].
  destruct (sstar_halt_unique _ _ _ _ S1 (sprogram_end_halts body o' r') _ _ H2 Hstuck) as [-> ->]. split; reflexivity.
Qed.
