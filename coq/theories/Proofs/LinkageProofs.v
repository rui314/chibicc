(* C15: scan_globals merges tentative definitions (Section Scan, for any record with a name and the two flags);
   mark_live marks only what is reachable from a root (soundness; completeness is in LinkageComplete.v). *)
From Coq Require Import List Bool Arith.
From Chibicc Require Import Model.Linkage.
Import ListNotations.

Lemma existsb_filter_length {A} (P : A -> bool) l : existsb P l = negb (Nat.eqb (length (filter P l)) 0).
Proof. induction l as [|x r IH]; [reflexivity|]. cbn [filter existsb]. destruct (P x); [reflexivity|exact IH]. Qed.

(* The loop of scan_globals for any record with a name, is_tentative and is_definition:
   Linkage.scan and its copy Emit.scan are both instances, by conversion. *)
Section Scan.
Context {A K : Type} (key : A -> K) (tent def : A -> bool) (eqb : K -> K -> bool).
Hypothesis eqb_spec : forall a b, reflect (a = b) (eqb a b).

Definition gtn (a : K) (x : A) : bool := tent x && eqb a (key x).
Definition greal (all : list A) (a : K) : bool := existsb (fun o => def o && negb (tent o) && eqb a (key o)) all.
Definition gcnt (a : K) (l : list A) : nat := length (filter (gtn a) l).

Fixpoint gscan (all rest kept : list A) : list A :=
  match rest with
  | [] => kept
  | v :: r =>
    if negb (tent v) then gscan all r (kept ++ [v])
    else if existsb (gtn (key v)) kept || greal all (key v) then gscan all r kept else gscan all r (kept ++ [v])
  end.

Lemma gscan_cons all v r kept :
  gscan all (v :: r) kept =
  gscan all r (if tent v && (existsb (gtn (key v)) kept || greal all (key v)) then kept else kept ++ [v]).
Proof. cbn [gscan]. destruct (tent v); [destruct (_ || _)|]; reflexivity. Qed.

Lemma gcnt_snoc a l v : gcnt a (l ++ [v]) = if gtn a v then S (gcnt a l) else gcnt a l.
Proof. unfold gcnt. rewrite filter_app, app_length. cbn [filter]. destruct (gtn a v); [apply Nat.add_1_r|apply Nat.add_0_r]. Qed.

Lemma gscan_cnt all a : forall rest kept,
  gcnt a (gscan all rest kept) =
  if greal all a || existsb (gtn a) kept then gcnt a kept else if existsb (gtn a) rest then S (gcnt a kept) else gcnt a kept.
Proof.
  induction rest as [|v r IH]; intros kept.
  - cbn. destruct (_ || _); reflexivity.
  - rewrite gscan_cons, IH. cbn [existsb]. destruct (gtn a v) eqn:Ev.
    + pose proof Ev as Ev'. apply andb_true_iff in Ev' as [-> Ea]. destruct (eqb_spec a (key v)) as [<-|]; [clear Ea|discriminate].
      rewrite (orb_comm (existsb _ kept)). destruct (greal all a || existsb (gtn a) kept) eqn:E; cbn [andb orb]; [rewrite E; reflexivity|].
      rewrite gcnt_snoc, existsb_app. cbn [existsb]. rewrite Ev, !orb_true_r. reflexivity.
    + assert (E : forall c : bool, gcnt a (if c then kept else kept ++ [v]) = gcnt a kept
                                /\ existsb (gtn a) (if c then kept else kept ++ [v]) = existsb (gtn a) kept).
      { intros [|]; [split; reflexivity|]. rewrite gcnt_snoc, existsb_app. cbn [existsb]. rewrite Ev, !orb_false_r. split; reflexivity. }
      destruct (E (tent v && (existsb (gtn (key v)) kept || greal all (key v)))) as [-> ->]. reflexivity.
Qed.

Theorem gscan_merged gs a :
  gcnt a (gscan gs gs []) = if greal gs a then 0%nat else if Nat.eqb (gcnt a gs) 0 then 0%nat else 1%nat.
Proof. rewrite gscan_cnt. cbn [existsb]. rewrite orb_false_r, existsb_filter_length. fold (gcnt a gs). destruct (greal gs a), (Nat.eqb (gcnt a gs) 0); reflexivity. Qed.

Lemma gscan_nontent all : forall rest kept,
  filter (fun x => negb (tent x)) (gscan all rest kept) = filter (fun x => negb (tent x)) kept ++ filter (fun x => negb (tent x)) rest.
Proof.
  induction rest as [|v r IH]; intros kept; [symmetry; apply app_nil_r|].
  rewrite gscan_cons, IH. cbn [filter]. destruct (tent v) eqn:Et; cbn [andb negb].
  - f_equal. destruct (_ || _); [reflexivity|]. rewrite filter_app. cbn [filter]. rewrite Et. apply app_nil_r.
  - rewrite filter_app, <- app_assoc. cbn [filter]. rewrite Et. reflexivity.
Qed.

Lemma gscan_In all x : forall rest kept, In x (gscan all rest kept) -> In x kept \/ In x rest.
Proof.
  induction rest as [|v r IH]; intros kept H; [left; exact H|].
  rewrite gscan_cons in H. apply IH in H as [H|H]; [|right; right; exact H].
  destruct (_ && _); [left; exact H|]. apply in_app_or in H as [H|[<-|[]]]; [left; exact H|right; left; reflexivity].
Qed.
End Scan.

(* greal, gtn, gcnt at key := g_name, tent := g_tent, def := g_def (by conversion): Properties_C15 states the merging with these *)
Definition real (all : list gvar) (n : nat) : bool := existsb (fun o => g_def o && negb (g_tent o) && same n o) all.
Definition tn (n : nat) (g : gvar) : bool := g_tent g && same n g.
Definition cnt (n : nat) (l : list gvar) : nat := length (filter (tn n) l).

Lemma same_sym a g : same a g = Nat.eqb a (g_name g). Proof. reflexivity. Qed.

(* `start`: what is already marked when mark_live is called; the theorems about live_set have start = [] *)
Inductive reach (fs : list func) (start : list nat) : nat -> Prop :=
| reach_start n : In n start -> reach fs start n
| reach_root f : In f fs -> f_root f = true -> reach fs start (f_name f)
| reach_ref n f u : reach fs start n -> find_func fs n = Some f -> In u (f_refs f) -> (exists g, find_func fs u = Some g) -> reach fs start u.

Lemma find_func_name fs n f : find_func fs n = Some f -> f_name f = n.
Proof. induction fs as [|g r IH]; cbn; [discriminate|]. destruct (Nat.eqb_spec (f_name g) n); [intros H; injection H as <-; assumption|exact IH]. Qed.

Lemma mark_live_undefined fs fuel live n : find_func fs n = None -> mark_live fuel fs live n = live.
Proof. intros E. destruct fuel; cbn [mark_live]; [|rewrite E]; reflexivity. Qed.

Lemma fold_left_inv {A B} (P : A -> Prop) (f : A -> B -> A) l :
  (forall a b, In b l -> P a -> P (f a b)) -> forall a, P a -> P (fold_left f l a).
Proof.
  induction l as [|b r IH]; intros H a Ha; [exact Ha|]. cbn [fold_left].
  apply IH; [intros a' b' Hb; apply H; right; exact Hb|apply H; [left; reflexivity|exact Ha]].
Qed.

Lemma mark_live_sound fs start : forall fuel live n, (forall m, In m live -> reach fs start m) -> reach fs start n ->
  forall m, In m (mark_live fuel fs live n) -> reach fs start m.
Proof.
  induction fuel as [|fuel IH]; intros live n Hl Hn; cbn [mark_live]; [exact Hl|].
  destruct (find_func fs n) as [f|] eqn:Ef; [|exact Hl]. destruct (existsb (Nat.eqb n) live); [exact Hl|].
  apply (fold_left_inv (fun l => forall m, In m l -> reach fs start m)).
  - intros l u Hu Hl'. destruct (find_func fs u) as [g|] eqn:Eg; [|rewrite mark_live_undefined by exact Eg; exact Hl'].
    apply IH; [exact Hl'|]. eapply reach_ref; [exact Hn|exact Ef|exact Hu|exists g; exact Eg].
  - intros m [<-|Hm]; [exact Hn|apply Hl; exact Hm].
Qed.

Theorem live_set_sound fs : forall m, In m (live_set fs) -> reach fs [] m.
Proof.
  unfold live_set. apply (fold_left_inv (fun l => forall m, In m l -> reach fs [] m)); [|intros m []].
  intros l f Hf Hl. destruct (f_root f) eqn:Er; [|exact Hl]. apply mark_live_sound; [exact Hl|]. apply reach_root; assumption.
Qed.

Lemma mark_live_mono fs : forall fuel live n x, In x live -> In x (mark_live fuel fs live n).
Proof.
  induction fuel as [|fuel IH]; intros live n x Hx; cbn [mark_live]; [exact Hx|].
  destruct (find_func fs n) as [f|]; [|exact Hx]. destruct (existsb (Nat.eqb n) live); [exact Hx|].
  apply (fold_left_inv (In x)); [intros l u _; apply IH|right; exact Hx].
Qed.
