(* The host's long double carries float / double / 64-bit integer values exactly, and rounding a carried value
   to float / double is the direct IEEE conversion (no double rounding): from Flocq's real-number specification
   binary_normalize_correct. *)
From Coq Require Import ZArith Reals Bool Lia Lra.
From Flocq Require Import Core Binary Bits.
From Chibicc Require Import Spec.C11Int Spec.C11Float Spec.C11LDouble Proofs.X86SseProofs Proofs.FloatRoundProofs.
Local Open Scope Z_scope.

Lemma F2R_sign s m e : (Rcompare (F2R (Float radix2 (cond_Zopp s (Zpos m)) e)) 0 = if s then Lt else Gt)
  /\ Rlt_bool (F2R (Float radix2 (cond_Zopp s (Zpos m)) e)) 0 = s.
Proof.
  destruct s; cbn [cond_Zopp].
  - assert (H : (F2R (Float radix2 (Z.neg m) e) < 0)%R) by (apply F2R_lt_0; reflexivity).
    split; [apply Rcompare_Lt; exact H|apply Rlt_bool_true; exact H].
  - assert (H : (0 < F2R (Float radix2 (Z.pos m) e))%R) by (apply F2R_gt_0; reflexivity).
    split; [apply Rcompare_Gt; exact H|apply Rlt_bool_false; lra].
Qed.

Section Conv.
Variables p1 e1 p2 e2 : Z.
Context (Hp2 : Prec_gt_0 p2) (He2 : BinarySingleNaN.Prec_lt_emax p2 e2).
Variable nanv : binary_float p2 e2.

(* the conversion between binary formats, as Spec/C11Float.v and Spec/C11LDouble.v write it *)
Definition cv (x : binary_float p1 e1) : binary_float p2 e2 :=
  match x with
  | B754_zero _ _ s => B754_zero p2 e2 s
  | B754_infinity _ _ s => B754_infinity p2 e2 s
  | B754_nan _ _ _ _ _ => nanv
  | B754_finite _ _ s m e _ => binary_normalize p2 e2 Hp2 He2 mode_NE (cond_Zopp s (Zpos m)) e s
  end.

Lemma cv_rounds x : is_finite p1 e1 x = true -> rounds_to p2 e2 (B2R p1 e1 x) (Bsign p1 e1 x) (cv x).
Proof.
  intros F. destruct x as [s|s|s pl Hpl|s m e Hb]; try discriminate F; unfold rounds_to.
  - cbn [B2R cv Bsign]. rewrite round_0 by apply valid_rnd_N. rewrite Rabs_R0, Rlt_bool_true by apply bpow_gt_0.
    repeat split; reflexivity.
  - cbn [cv Bsign]. unfold B2R.
    pose proof (binary_normalize_correct p2 e2 Hp2 He2 mode_NE (cond_Zopp s (Zpos m)) e s) as C.
    cbn [BinarySingleNaN.round_mode] in C. destruct (F2R_sign s m e) as [S1 S2]. rewrite S1, S2 in C.
    destruct (Rlt_bool _ _); [|exact C]. destruct C as (C1 & C2 & C3). repeat split; [exact C1|exact C2|].
    rewrite C3. destruct s; reflexivity.
Qed.
End Conv.

Lemma l_of_fp_cv {p e} (x : binary_float p e) : l_of_fp x = cv p e 64 16384 prec80 emax80 (proj1_sig nan80) x.
Proof. destruct x; reflexivity. Qed.
Lemma s_of_l_cv x : s_of_l x = cv 64 16384 24 128 prec32 emax32 (proj1_sig default_nan_pl32) x.
Proof. destruct x; reflexivity. Qed.
Lemma d_of_l_cv x : d_of_l x = cv 64 16384 53 1024 prec64 emax64 (proj1_sig default_nan_pl64) x.
Proof. destruct x; reflexivity. Qed.
Lemma s_of_d_cv x : s_of_d x = cv 53 1024 24 128 prec32 emax32 (proj1_sig default_nan_pl32) x.
Proof. destruct x; reflexivity. Qed.
Lemma d_of_s_cv x : d_of_s x = cv 24 128 53 1024 prec64 emax64 (proj1_sig default_nan_pl64) x.
Proof. destruct x; reflexivity. Qed.

Lemma format_incl p1 e1 p2 e2 r : 0 < p1 -> p1 <= p2 -> e1 <= e2 ->
  generic_format radix2 (SpecFloat.fexp p1 e1) r -> generic_format radix2 (SpecFloat.fexp p2 e2) r.
Proof.
  intros P0 Hp He. apply generic_inclusion_mag. intros _. unfold SpecFloat.fexp, SpecFloat.emin. lia.
Qed.

Lemma widen_exact {p e} (Hp : 0 < p) (Hp' : p <= 64) (He : e <= 16384) (x : binary_float p e) : is_finite p e x = true ->
  B2R 64 16384 (l_of_fp x) = B2R p e x /\ is_finite 64 16384 (l_of_fp x) = true /\ Bsign 64 16384 (l_of_fp x) = Bsign p e x.
Proof.
  intros F. rewrite l_of_fp_cv. apply rounds_exact; [| |apply cv_rounds; exact F].
  - apply (format_incl p e 64 16384); try assumption. apply generic_format_B2R.
  - eapply Rlt_le_trans; [apply abs_B2R_lt_emax|]. apply bpow_le. exact He.
Qed.

Lemma self_rounds p e (x : binary_float p e) : is_finite p e x = true -> rounds_to p e (B2R p e x) (Bsign p e x) x.
Proof.
  intros F. unfold rounds_to. rewrite (round_generic radix2 _ ZnearestE _ (generic_format_B2R p e x)).
  rewrite Rlt_bool_true by apply abs_B2R_lt_emax. repeat split. exact F.
Qed.

Lemma cv_self p e Hp He nanv (x : binary_float p e) : is_nan p e nanv = true -> feq (cv p e p e Hp He nanv x) x.
Proof.
  intros Nv. destruct (is_finite p e x) eqn:F.
  - rewrite (rounds_to_inj _ _ _ _ _ _ (cv_rounds p e p e Hp He nanv x F) (self_rounds p e x F)). apply feq_refl.
  - destruct x; try discriminate F; [reflexivity|]. apply feq_nan; [exact Nv|reflexivity].
Qed.

(* converting through long double is converting directly: the first step is exact, so the value is rounded once *)
Lemma cv_through_l {p1 e1} p2 e2 Hp2 He2 nanv (x : binary_float p1 e1) : 0 < p1 -> p1 <= 64 -> e1 <= 16384 ->
  cv 64 16384 p2 e2 Hp2 He2 nanv (l_of_fp x) = cv p1 e1 p2 e2 Hp2 He2 nanv x.
Proof.
  intros P0 Hp He. destruct (is_finite p1 e1 x) eqn:F.
  - destruct (widen_exact P0 Hp He x F) as (R1 & F1 & S1).
    pose proof (cv_rounds 64 16384 p2 e2 Hp2 He2 nanv _ F1) as C. rewrite R1, S1 in C.
    exact (rounds_to_inj _ _ _ _ _ _ C (cv_rounds p1 e1 p2 e2 Hp2 He2 nanv x F)).
  - destruct x; try discriminate F; reflexivity.
Qed.

Lemma s_of_l_of_fp (x : binary32) : feq (s_of_l (l_of_fp x)) x.
Proof. rewrite s_of_l_cv, cv_through_l by lia. apply cv_self, (proj2_sig default_nan_pl32). Qed.
Lemma d_of_l_of_fp (x : binary64) : feq (d_of_l (l_of_fp x)) x.
Proof. rewrite d_of_l_cv, cv_through_l by lia. apply cv_self, (proj2_sig default_nan_pl64). Qed.

Lemma d_of_l_of_s (x : binary32) : feq (d_of_l (l_of_fp x)) (d_of_s x).
Proof. rewrite d_of_l_cv, d_of_s_cv, cv_through_l by lia. apply feq_refl. Qed.
Lemma s_of_l_of_d (x : binary64) : feq (s_of_l (l_of_fp x)) (s_of_d x).
Proof. rewrite s_of_l_cv, s_of_d_cv, cv_through_l by lia. apply feq_refl. Qed.

(* a 64-bit integer -> long double -> float / double is the direct conversion: one rounding *)
Lemma cv_l_of_int p2 e2 Hp2 He2 nanv z : Z.abs z < 2 ^ 64 ->
  cv 64 16384 p2 e2 Hp2 He2 nanv (l_of_int z) = binary_normalize p2 e2 Hp2 He2 mode_NE z 0 false.
Proof.
  intros Hz. destruct (l_of_int_exact z Hz) as (R1 & F1 & S1).
  pose proof (cv_rounds 64 16384 p2 e2 Hp2 He2 nanv _ F1) as C.
  rewrite R1, S1 in C. apply (rounds_to_inj _ _ _ _ _ _ C). apply ofint_rounds.
Qed.
Lemma s_of_l_of_int z : Z.abs z < 2 ^ 64 -> s_of_l (l_of_int z) = s_of_int z.
Proof. rewrite s_of_l_cv. apply cv_l_of_int. Qed.
Lemma d_of_l_of_int z : Z.abs z < 2 ^ 64 -> d_of_l (l_of_int z) = d_of_int z.
Proof. rewrite d_of_l_cv. apply cv_l_of_int. Qed.

Lemma compare_fin_inf {p e} (u : binary_float p e) s : is_finite p e u = true ->
  Bcompare p e u (B754_infinity p e s) = Some (if s then Gt else Lt)
  /\ Bcompare p e (B754_infinity p e s) u = Some (if s then Lt else Gt).
Proof. destruct u as [s'|s'|s' pl Hpl|s' m ex Hb]; try discriminate; intros _; destruct s, s'; split; reflexivity. Qed.

(* what is observed of a carried value is what is observed of the value *)
Section Carried.
Variables p e : Z.
Hypothesis (Hp : 0 < p) (Hp' : p <= 64) (He : e <= 16384) (Hpe : BinarySingleNaN.Prec_lt_emax p e).

Lemma int_part_carried (x : binary_float p e) : int_part (l_of_fp x) = int_part x.
Proof.
  destruct (is_finite p e x) eqn:F.
  - destruct (widen_exact Hp Hp' He x F) as (R1 & F1 & S1).
    rewrite (finite_int_part 64 16384 emax80 _ F1), (finite_int_part p e Hpe x F), R1. reflexivity.
  - destruct x; try discriminate F; reflexivity.
Qed.

Lemma compare_carried (x y : binary_float p e) : Bcompare 64 16384 (l_of_fp x) (l_of_fp y) = Bcompare p e x y.
Proof.
  destruct (is_finite p e x) eqn:Fx, (is_finite p e y) eqn:Fy.
  - destruct (widen_exact Hp Hp' He x Fx) as (R1 & F1 & S1). destruct (widen_exact Hp Hp' He y Fy) as (R2 & F2 & S2).
    rewrite (Bcompare_correct 64 16384 _ _ F1 F2), (Bcompare_correct p e _ _ Fx Fy), R1, R2. reflexivity.
  - destruct (widen_exact Hp Hp' He x Fx) as (R1 & F1 & S1). destruct y as [?|s|? ? ?|? ? ? ?]; try discriminate Fy; cbn [l_of_fp].
    + rewrite (proj1 (compare_fin_inf _ s F1)), (proj1 (compare_fin_inf _ s Fx)). reflexivity.
    + destruct (l_of_fp x), x; reflexivity.
  - destruct (widen_exact Hp Hp' He y Fy) as (R2 & F2 & S2). destruct x as [?|s|? ? ?|? ? ? ?]; try discriminate Fx; cbn [l_of_fp].
    + rewrite (proj2 (compare_fin_inf _ s F2)), (proj2 (compare_fin_inf _ s Fy)). reflexivity.
    + destruct (l_of_fp y), y; reflexivity.
  - destruct x, y; try discriminate Fx; try discriminate Fy; reflexivity.
Qed.

Lemma is_zero_carried (x : binary_float p e) : is_zero (l_of_fp x) = is_zero x.
Proof. unfold is_zero. change (B754_zero 64 16384 false) with (l_of_fp (B754_zero p e false)). rewrite compare_carried. reflexivity. Qed.

Lemma opp_carried nanf (x : binary_float p e) : feq (opp_l (l_of_fp x)) (l_of_fp (Bopp p e nanf x)).
Proof.
  destruct (is_finite p e x) eqn:F.
  - destruct (widen_exact Hp Hp' He x F) as (R1 & F1 & S1).
    assert (F' : is_finite p e (Bopp p e nanf x) = true) by (rewrite is_finite_Bopp; exact F).
    destruct (widen_exact Hp Hp' He _ F') as (R2 & F2 & S2).
    assert (N1 : is_nan 64 16384 (l_of_fp x) = false) by (destruct (l_of_fp x); try discriminate F1; reflexivity).
    assert (N0 : is_nan p e x = false) by (destruct x; try discriminate F; reflexivity).
    unfold opp_l. rewrite (B2R_Bsign_inj 64 16384 (Bopp 64 16384 (fun _ => nan80) (l_of_fp x)) (l_of_fp (Bopp p e nanf x))).
    + apply feq_refl.
    + rewrite is_finite_Bopp. exact F1.
    + exact F2.
    + rewrite B2R_Bopp, R1, R2, B2R_Bopp. reflexivity.
    + rewrite (Bsign_Bopp _ _ _ _ N1), S1, S2, (Bsign_Bopp _ _ _ _ N0). reflexivity.
  - destruct x; try discriminate F; [reflexivity|].
    apply feq_nan; [reflexivity|]. cbn [Bopp l_of_fp]. destruct (nanf _) as [y Hy]. cbn [proj1_sig]. destruct y; try discriminate Hy. reflexivity.
Qed.
End Carried.

Lemma is_zero_l_of_int z : Z.abs z < 2 ^ 64 -> is_zero (l_of_int z) = (z =? 0).
Proof.
  intros Hz. destruct (l_of_int_exact z Hz) as (R1 & F1 & S1). unfold is_zero.
  rewrite (Bcompare_correct 64 16384 _ (B754_zero 64 16384 false) F1 eq_refl), R1. change (B2R 64 16384 (B754_zero 64 16384 false)) with (IZR 0).
  rewrite Rcompare_IZR. destruct (Z.compare_spec z 0), (Z.eqb_spec z 0); try reflexivity; lia.
Qed.
