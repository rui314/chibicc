(* Completeness of mark_live: every function reachable from an always-emitted one is marked.  The fuel S (length fs) does
   not run out, because a call that does any work visits a function no call visited before (measure); and what a call adds
   to the live list has all its defined references in the result (closed_from), so live_set holds the roots and is closed
   under references, which is all that reach generates. *)
From Coq Require Import List Bool Arith Lia.
From Chibicc Require Import Base.ListFacts Model.Linkage Proofs.LinkageProofs.
Import ListNotations.

Section C.
Variable fs : list func.

Lemma mem_false n l : existsb (Nat.eqb n) l = false <-> ~ In n l.
Proof. rewrite <- existsb_nat_In. destruct (existsb (Nat.eqb n) l); split; congruence. Qed.

Lemma find_func_in n f : find_func fs n = Some f -> In f fs /\ f_name f = n.
Proof.
  intros H. split; [|exact (find_func_name _ _ _ H)]. induction fs as [|g r IH]; [discriminate|]. cbn in H.
  destruct (Nat.eqb (f_name g) n); [injection H as <-; left; reflexivity|right; exact (IH H)].
Qed.

Definition measure (live : list nat) : nat := length (filter (fun g => negb (existsb (Nat.eqb (f_name g)) live)) fs).

Lemma unvisited_mono L L' g : incl L L' -> negb (existsb (Nat.eqb (f_name g)) L') = true -> negb (existsb (Nat.eqb (f_name g)) L) = true.
Proof. intros H Hg. apply negb_true_iff, mem_false in Hg. apply negb_true_iff, mem_false. intros Hin. exact (Hg (H _ Hin)). Qed.
Lemma measure_mono L L' : incl L L' -> (measure L' <= measure L)%nat.
Proof. intros H. apply filter_length_le. intros g. apply unvisited_mono, H. Qed.
Lemma measure_drop live n f : find_func fs n = Some f -> ~ In n live -> (measure (n :: live) < measure live)%nat.
Proof.
  intros Hf Hn. destruct (find_func_in _ _ Hf) as [Hin <-]. apply filter_length_lt with (x := f).
  - intros g. apply unvisited_mono, incl_tl, incl_refl.
  - exact Hin.
  - apply negb_true_iff, mem_false, Hn.
  - apply negb_false_iff, existsb_nat_In. left. reflexivity.
Qed.
Lemma measure_le_length L : (measure L <= length fs)%nat.
Proof. unfold measure. induction fs as [|g r IH]; cbn; [lia|]. destruct (negb _); cbn; lia. Qed.

Definition defined (u : nat) : Prop := exists g, find_func fs u = Some g.
Lemma find_func_some f : In f fs -> defined (f_name f).
Proof.
  unfold defined. induction fs as [|h t IH]; intros Hf; [destruct Hf|]. cbn. destruct Hf as [->|Hf].
  - rewrite Nat.eqb_refl. eexists. reflexivity.
  - destruct (Nat.eqb (f_name h) (f_name f)); [eexists; reflexivity|exact (IH Hf)].
Qed.
Definition closed_from (L R : list nat) : Prop :=
  forall x, In x R -> ~ In x L -> forall f u, find_func fs x = Some f -> In u (f_refs f) -> defined u -> In u R.

Lemma closed_from_refl L : closed_from L L.
Proof. intros x Hx Hn. contradiction. Qed.
Lemma closed_from_trans L L1 R : incl L1 R -> closed_from L L1 -> closed_from L1 R -> closed_from L R.
Proof.
  intros Hi H1 H2 x Hx Hn. destruct (in_dec Nat.eq_dec x L1) as [E|E].
  - intros f u Hf Hu Hd. apply Hi. exact (H1 x E Hn f u Hf Hu Hd).
  - apply H2; assumption.
Qed.

(* Both loops (over the references of a function, over the functions of the unit) fold a step that only adds,
   that leaves what it added closed, and that puts in the name of the item it was called for (if T holds of it);
   Q is what the step needs of the list it starts from. *)
Lemma fold_complete {B} (f : list nat -> B -> list nat) (nm : B -> nat) (T : B -> Prop) (Q : list nat -> Prop) :
  (forall L b, incl L (f L b)) -> (forall L L', incl L L' -> Q L -> Q L') ->
  forall l, (forall L b, In b l -> Q L -> (T b -> In (nm b) (f L b)) /\ closed_from L (f L b)) ->
  forall L, Q L ->
  incl L (fold_left f l L) /\ (forall b, In b l -> T b -> In (nm b) (fold_left f l L)) /\ closed_from L (fold_left f l L).
Proof.
  intros Hmono HQ. induction l as [|b r IH]; intros Hstep L HL; cbn [fold_left].
  - split; [apply incl_refl|]. split; [intros b []|apply closed_from_refl].
  - destruct (Hstep L b (or_introl eq_refl) HL) as [Hb Hc].
    destruct (IH (fun L' b' Hb' => Hstep L' b' (or_intror Hb')) (f L b) (HQ _ _ (Hmono L b) HL)) as (A & Bs & C).
    split; [exact (incl_tran (Hmono L b) A)|]. split.
    + intros b' [<-|Hb'] Ht; [apply A, Hb, Ht|apply Bs; assumption].
    + exact (closed_from_trans _ _ _ A Hc C).
Qed.

Lemma mark_live_complete : forall fuel live n, (measure live < fuel)%nat ->
  (defined n -> In n (mark_live fuel fs live n)) /\ closed_from live (mark_live fuel fs live n).
Proof.
  induction fuel as [|fuel IH]; intros live n Hm; [inversion Hm|]. cbn [mark_live].
  destruct (find_func fs n) as [f|] eqn:Ef.
  2:{ split; [intros [g Hg]; congruence|apply closed_from_refl]. }
  destruct (existsb (Nat.eqb n) live) eqn:Em.
  { split; [intros _; apply existsb_nat_In; exact Em|apply closed_from_refl]. }
  apply mem_false in Em.
  destruct (fold_complete (mark_live fuel fs) (fun u => u) defined (fun L => measure L < fuel)%nat
             (fun L u x => mark_live_mono fs fuel L u x) (fun L L' HL H => Nat.le_lt_trans _ _ _ (measure_mono L L' HL) H)
             (f_refs f) (fun L u _ => IH L u) (n :: live)) as (A & B & C).
  { pose proof (measure_drop live n f Ef Em). lia. }
  split; [intros _; apply A; left; reflexivity|].
  (* n itself is closed because all its references were folded over, the rest because the fold leaves it so *)
  intros x Hx Hn. destruct (Nat.eq_dec x n) as [->|Hne].
  - intros f' u Hf' Hu Hd. rewrite Ef in Hf'. injection Hf' as <-. apply B; assumption.
  - apply C; [exact Hx|]. intros [E|Hin]; [congruence|contradiction].
Qed.

(* no NoDup (map f_name fs) is needed: find_func decides which function a name means both in reach and in mark_live *)
Theorem live_set_reach : forall m, reach fs [] m -> In m (live_set fs).
Proof.
  unfold live_set.
  set (step := fun l f => if f_root f then mark_live (S (length fs)) fs l (f_name f) else l).
  destruct (fold_complete step f_name (fun f => f_root f = true) (fun _ => True)) with (l := fs) (L := @nil nat) as (_ & Hroots & Hclosed).
  - intros L f x Hx. unfold step. destruct (f_root f); [apply mark_live_mono|]; exact Hx.
  - trivial.
  - intros L f Hf _. unfold step. destruct (f_root f); [|split; [discriminate|apply closed_from_refl]].
    destruct (mark_live_complete (S (length fs)) L (f_name f)) as [Hd Hc]; [pose proof (measure_le_length L); lia|].
    split; [intros _; apply Hd, find_func_some, Hf|exact Hc].
  - exact I.
  - intros m Hreach. induction Hreach as [n []|f Hf Hr|n f u Hn IHn Hfn Hu Hdu].
    + apply Hroots; assumption.
    + exact (Hclosed n IHn (fun H => H) f u Hfn Hu Hdu).
Qed.

(* the form in which C15 states it; neither side hypothesis is needed *)
Theorem live_set_complete : NoDup (map f_name fs) -> forall m, reach fs [] m -> defined m -> In m (live_set fs).
Proof. intros _ m H _. exact (live_set_reach m H). Qed.
End C.
