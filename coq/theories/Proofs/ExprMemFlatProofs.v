(* The jump code of expressions over objects does what the code tree does (over FlatSim.v), hence computes the
   C11 value and side effects wherever it is embedded.  ExprFlatProofs.v reads the same off for the machine without memory. *)
From Coq Require Import ZArith Bool List Lia.
From Chibicc Require Import Base.Mach Spec.C11Int Spec.C11IntMem Model.X86Int Model.CodegenInt Model.ExprGen Model.ExprMem Model.ExprMemFlat
     Proofs.FlatSim Proofs.CastTableProofs Proofs.ExprMemProofs Proofs.ExprMemCorrect Proofs.ExprMemIncDec Proofs.ExprMemMain.
Import ListNotations.
Local Open Scope Z_scope.

(* code_at of FlatSim.v at minstr: its lemmas apply to an xembedded hypothesis as they stand *)
Definition xembedded (P : list minstr) (p : nat) (code : list minstr) : Prop :=
  forall i ins, nth_error code i = Some ins -> nth_error P (p + i) = Some ins.

Lemma xcmpz_length t : length (xcmpz t) = 1%nat. Proof. reflexivity. Qed.

Lemma mflatten_length : forall c p, length (mflatten c p) = msize c.
Proof.
  induction c as [l|v| | |off|ld|sk|a IHa b IHb|a IHa ta b IHb tb|a IHa ta b IHb tb|c IHc tc a IHa b IHb]; intros p; cbn [mflatten msize]; try reflexivity.
  - apply map_length.
  - rewrite app_length, IHa, IHb. reflexivity.
  - rewrite !app_length, IHa, IHb, !xcmpz_length. cbn [length]. lia.
  - rewrite !app_length, IHa, IHb, !xcmpz_length. cbn [length]. lia.
  - rewrite !app_length, IHc, IHa, IHb, !xcmpz_length. cbn [length]. lia.
Qed.

(* the machine as FlatSim.v sees it *)
Definition zf (st : mstate) : bool := let '(s, _, _) := st in f_zf s.
Definition imm (st : mstate) (v : Z) : mstate := let '(s, k, m) := st in (set_rax s (v mod 2 ^ 64), k, m).
Definition jc (w : bool) : nat -> minstr := if w then XJz else XJnz.

Section Flat.
Variable rbp : Z.
Local Notation xstar := (xstar rbp).
Local Notation xstep := (xstep rbp).

Lemma xstar_trans P a b c : xstar P a b -> xstar P b c -> xstar P a c.
Proof. induction 1 as [|st st' st'' Hs _ IH]; intros H2; [exact H2|]. eapply xstar_step; [exact Hs|apply IH; exact H2]. Qed.
Lemma xstar_one P a b : xstep P a = Some b -> xstar P a b.
Proof. intros H. eapply xstar_step; [exact H|apply xstar_refl]. Qed.

Lemma jc_star P q w t st : nth_error P q = Some (jc w t) -> xstar P (q, st) ((if eqb (zf st) w then t else q + 1)%nat, st).
Proof. destruct st as [[s k] m]. intros H. apply xstar_one. unfold ExprMemFlat.xstep, zf. rewrite H, Nat.add_1_r. destruct w, (f_zf s); reflexivity. Qed.
Lemma jmp_star P q t st : nth_error P q = Some (XJmp t) -> xstar P (q, st) (t, st).
Proof. destruct st as [[s k] m]. intros H. apply xstar_one. unfold ExprMemFlat.xstep. rewrite H. reflexivity. Qed.
Lemma imm_star P q v st : nth_error P q = Some (XImm v) -> xstar P (q, st) ((q + 1)%nat, imm st v).
Proof. destruct st as [[s k] m]. intros H. apply xstar_one. unfold ExprMemFlat.xstep. rewrite H, Nat.add_1_r. reflexivity. Qed.

Lemma xrun_straight P : forall l p s k m s', exec l s = Some s' -> xembedded P p (map XIns l) ->
  xstar P (p, (s, k, m)) ((p + length l)%nat, (s', k, m)).
Proof.
  induction l as [|i l IH]; intros p s k m s' He Hemb; cbn [exec] in He.
  - injection He as <-. cbn [length]. rewrite Nat.add_0_r. apply xstar_refl.
  - destruct (exec1 i s) as [s1|] eqn:E1; [|discriminate]. cbn [map] in Hemb. apply code_at_cons in Hemb as [Hi Hl].
    eapply xstar_step; [unfold ExprMemFlat.xstep; rewrite Hi, E1, <- Nat.add_1_r; reflexivity|].
    cbn [length]. replace (p + S (length l))%nat with (p + 1 + length l)%nat by lia. apply IH; assumption.
Qed.

Lemma xrun_cmpz P t p s k m z s2 : test_zero t s = Some (z, s2) -> xembedded P p (xcmpz t) ->
  xstar P (p, (s, k, m)) ((p + 1)%nat, (s2, k, m)) /\ zf (s2, k, m) = z.
Proof.
  unfold test_zero, xcmpz. intros H Hemb. destruct (exec (gen_cmp_zero t) s) as [s'|] eqn:E; [|discriminate]. injection H as <- <-.
  split; [|reflexivity]. apply (xrun_straight P _ p s k m s' E Hemb).
Qed.

Theorem mflatten_simulates : forall c st st', mrun rbp c st = Some st' ->
  forall P p, xembedded P p (mflatten c p) -> xstar P (p, st) ((p + msize c)%nat, st').
Proof.
  induction c as [l|v| | |off|ld|sk|a IHa b IHb|a IHa ta b IHb tb|a IHa ta b IHb tb|c IHc tc a IHa b IHb];
    intros [[s k] m] st' H P p Hemb; cbn [mrun] in H; cbn [mflatten] in Hemb.
  (* the six codes of one instruction: one step of the machine does what mrun does *)
  2-7: apply code_at_cons in Hemb as [Hi _]; apply xstar_one; unfold ExprMemFlat.xstep; rewrite Hi, Nat.add_1_r.
  - destruct (exec l s) as [s'|] eqn:E; [|discriminate]. injection H as <-. apply xrun_straight; assumption.
  - injection H as <-. reflexivity.
  - injection H as <-. reflexivity.
  - destruct k as [|v k']; [discriminate|]. injection H as <-. reflexivity.
  - injection H as <-. reflexivity.
  - destruct (valid_addr (rax s) (ld_bytes ld)); [|discriminate]. injection H as <-. reflexivity.
  - destruct (valid_addr (rdi s) (st_bytes sk)); [|discriminate]. injection H as <-. reflexivity.
  - destruct (mrun rbp a (s, k, m)) as [st1|] eqn:Ea; [|discriminate].
    apply code_at_app in Hemb as [Ha Hb]. rewrite mflatten_length in Hb.
    eapply xstar_trans; [apply (IHa _ _ Ea P p Ha)|]. cbn [msize]. rewrite Nat.add_assoc. apply (IHb _ _ H P _ Hb).
  - destruct (mrun rbp a (s, k, m)) as [[[s1 k1] m1]|] eqn:Ea; [|discriminate].
    destruct (test_zero ta s1) as [[z s2]|] eqn:T1; [|discriminate].
    eapply (logic_sim xstar_trans jc_star jmp_star imm_star true) with (pb := (p + msize a + 2)%nat);
      [exact Hemb|apply mflatten_length|apply xcmpz_length|apply mflatten_length|apply xcmpz_length|cbn [msize]; lia
      |exact (IHa _ _ Ea P p)|exact (xrun_cmpz P ta _ s1 k1 m1 z s2 T1)|].
    destruct z; cbn [eqb].
    + injection H as <-. reflexivity.
    + destruct (mrun rbp b (s2, k1, m1)) as [[[s3 k3] m3]|] eqn:Eb; [|discriminate].
      destruct (test_zero tb s3) as [[z2 s4]|] eqn:T2; [|discriminate]. injection H as <-.
      exists (s3, k3, m3), z2, (s4, k3, m3). split; [exact (IHb _ _ Eb P _)|]. split; [exact (xrun_cmpz P tb _ s3 k3 m3 z2 s4 T2)|]. destruct z2; reflexivity.
  - destruct (mrun rbp a (s, k, m)) as [[[s1 k1] m1]|] eqn:Ea; [|discriminate].
    destruct (test_zero ta s1) as [[z s2]|] eqn:T1; [|discriminate].
    eapply (logic_sim xstar_trans jc_star jmp_star imm_star false) with (pb := (p + msize a + 2)%nat);
      [exact Hemb|apply mflatten_length|apply xcmpz_length|apply mflatten_length|apply xcmpz_length|cbn [msize]; lia
      |exact (IHa _ _ Ea P p)|exact (xrun_cmpz P ta _ s1 k1 m1 z s2 T1)|].
    destruct z; cbn [eqb].
    + destruct (mrun rbp b (s2, k1, m1)) as [[[s3 k3] m3]|] eqn:Eb; [|discriminate].
      destruct (test_zero tb s3) as [[z2 s4]|] eqn:T2; [|discriminate]. injection H as <-.
      exists (s3, k3, m3), z2, (s4, k3, m3). split; [exact (IHb _ _ Eb P _)|]. split; [exact (xrun_cmpz P tb _ s3 k3 m3 z2 s4 T2)|]. destruct z2; reflexivity.
    + injection H as <-. reflexivity.
  - destruct (mrun rbp c (s, k, m)) as [[[s1 k1] m1]|] eqn:Ec; [|discriminate].
    destruct (test_zero tc s1) as [[z s2]|] eqn:T1; [|discriminate].
    eapply (cond_sim xstar_trans jc_star jmp_star) with (pa := (p + msize c + 2)%nat) (nb := msize b);
      [exact Hemb|apply mflatten_length|apply xcmpz_length|apply mflatten_length|cbn [msize]; lia
      |exact (IHc _ _ Ec P p)|exact (xrun_cmpz P tc _ s1 k1 m1 z s2 T1)|].
    destruct z; [exact (IHb _ _ H P _)|exact (IHa _ _ H P _)].
Qed.
End Flat.

(* value, side effects and control together: the jump code of a whole expression over objects, placed
   anywhere in a larger program, computes the C11 value and performs the C11 side effects *)
Theorem mexpr_code_correct : forall F e env v env',
  wf_frame F -> vars_in (nvars F) e = true -> temps_fit F e ->
  meval (ftys F) env e = Some (v, env') ->
  forall P p, xembedded P p (mflatten (mcompile F e) p) ->
  forall s k m, agree F env m ->
  exists s' m', xstar (frbp F) P (p, (s, k, m)) ((p + msize (mcompile F e))%nat, (s', k, m')) /\
                R (mtype (ftys F) e) v (rax s') /\ agree F env' m' /\ unchanged_outside F m m'.
Proof.
  intros F e env v env' WF Hv Ht H P p Hemb s k m Ha.
  destruct (mcompile_correct F e env v env' WF Hv Ht H s k m Ha) as (s' & m' & Hr & HR & Ha' & Hu).
  exists s', m'. split; [|auto]. apply (mflatten_simulates (frbp F) _ _ _ Hr P p Hemb).
Qed.
