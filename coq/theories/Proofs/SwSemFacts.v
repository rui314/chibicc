(* C03 (switch, labels, goto): facts about the structured semantics of Spec/SwSem.v alone - what a loop or a switch
   does with the result of its body, for the proofs that take sexec apart (SwContProofs, SwContComplete), and the
   binding of break and continue. *)
From Coq Require Import List Arith Bool.
Import ListNotations.
From Chibicc Require Import Spec.SwSem.

Lemma spre_inv t r tr o' out : spre t r = Some (tr, o', out) -> exists t1, r = Some (t1, o', out) /\ tr = t ++ t1.
Proof. destruct r as [[[t1 o1] out1]|]; cbn [spre]; [|discriminate]. intros H. injection H as <- <- <-. exists t1. split; reflexivity. Qed.
Lemma spre_app t1 t2 r : spre (t1 ++ t2) r = spre t1 (spre t2 r).
Proof. destruct r as [[[t o] out]|]; cbn [spre]; [rewrite app_assoc|]; reflexivity. Qed.
Lemma spre_nil r : spre [] r = r.
Proof. destruct r as [[[t o] out]|]; reflexivity. Qed.

(* how a loop or a switch hands on what its body did not complete normally *)
Definition swout (out : soutcome) : soutcome := match out with RBreak => RNormal | _ => out end.
(* the outcomes of a loop body after which the loop goes round *)
Definition sround (out : soutcome) : bool := match out with RNormal | RCont => true | _ => false end.

Lemma sfor_after_round loop inc t1 o1 out :
  sfor_after loop inc (Some (t1, o1, out)) = if sround out then spre (t1 ++ inc) (loop o1) else Some (t1, o1, swout out).
Proof. destruct out; reflexivity. Qed.
Lemma sdo_after_round loop kc t1 o1 out :
  sdo_after loop kc (Some (t1, o1, out)) =
  if sround out
  then match o1 with [] => None | v :: o2 => if v =? 0 then Some (t1 ++ [kc], o2, RNormal) else spre (t1 ++ [kc]) (loop o2) end
  else Some (t1, o1, swout out).
Proof. destruct out; reflexivity. Qed.
Lemma sswitch_end_out t o out : sswitch_end (Some (t, o, out)) = Some (t, o, swout out).
Proof. destruct out; reflexivity. Qed.

(* 6.8.6.2, 6.8.6.3 in the structured semantics: what a loop hands on is swout of an outcome that does not go round, or
   what the loop hands on after one more round - never a break or a continue *)
Definition sbinds (loop : soracle -> option sres) : Prop :=
  forall o tr o' out, loop o = Some (tr, o', out) -> out <> RBreak /\ out <> RCont.

Lemma swout_binds out : sround out = false -> swout out <> RBreak /\ swout out <> RCont.
Proof. destruct out; cbn [sround swout]; intros H; try discriminate H; split; discriminate. Qed.
Lemma sfor_after_binds loop inc r : sbinds loop -> sbinds (fun _ => sfor_after loop inc r).
Proof.
  intros Hl _ tr o' out H. destruct r as [[[t1 o1] out1]|]; [|discriminate]. rewrite sfor_after_round in H. destruct (sround out1) eqn:Er.
  - apply spre_inv in H. destruct H as (t3 & H & _). exact (Hl _ _ _ _ H).
  - injection H as <- <- <-. exact (swout_binds _ Er).
Qed.
Lemma sdo_after_binds loop k r : sbinds loop -> sbinds (fun _ => sdo_after loop k r).
Proof.
  intros Hl _ tr o' out H. destruct r as [[[t1 o1] out1]|]; [|discriminate]. rewrite sdo_after_round in H.
  destruct (sround out1) eqn:Er; [|injection H as <- <- <-; exact (swout_binds _ Er)].
  destruct o1 as [|v o2]; [discriminate|]. destruct (v =? 0); [injection H as <- <- <-; split; discriminate|].
  apply spre_inv in H. destruct H as (t3 & H & _). exact (Hl _ _ _ _ H).
Qed.
Lemma sfor_loop_binds ex k inc body : forall fuel, sbinds (sfor_loop ex fuel k inc body).
Proof.
  induction fuel as [|f IHf]; intros o tr o' out H; [discriminate|]. cbn [sfor_loop] in H.
  destruct k as [kk|]; [|exact (sfor_after_binds _ inc _ IHf o _ _ _ H)].
  destruct o as [|v o1]; [discriminate|]. destruct (v =? 0); [injection H as <- <- <-; split; discriminate|].
  apply spre_inv in H. destruct H as (t & H & _). exact (sfor_after_binds _ inc _ IHf o1 _ _ _ H).
Qed.
Lemma sdo_loop_binds ex body k : forall fuel, sbinds (sdo_loop ex fuel body k).
Proof. induction fuel as [|f IHf]; intros o tr o' out H; [discriminate|]. exact (sdo_after_binds _ k _ IHf o _ _ _ H). Qed.

(* no break and no continue leaves a loop, however the loop was entered; no break leaves a switch (a continue does: the
   switch is not an iteration statement) *)
Theorem sw_loop_binds_break_continue : forall fuel m s o tr o' out,
  (exists init k inc body, s = SFor init k inc body) \/ (exists body k, s = SDo body k) ->
  sexec fuel m s o = Some (tr, o', out) -> out <> RBreak /\ out <> RCont.
Proof.
  intros [|f] m s o tr o' out Hs H; [discriminate|]. destruct Hs as [(init & k & inc & body & ->)|(body & k & ->)]; cbn [sexec] in H.
  - pose proof (sfor_loop_binds (sexec f None) k inc body f) as Hl. destruct m as [t|].
    + exact (sfor_after_binds _ inc _ Hl o _ _ _ H).
    + apply spre_inv in H. destruct H as (t & H & _). exact (Hl _ _ _ _ H).
  - exact (sdo_after_binds _ k _ (sdo_loop_binds (sexec f None) body k f) o _ _ _ H).
Qed.
Lemma sswitch_end_binds r tr o' out : sswitch_end r = Some (tr, o', out) -> out <> RBreak.
Proof. destruct r as [[[t1 o1] out1]|]; [|discriminate]. rewrite sswitch_end_out. intros H. injection H as <- <- <-. destruct out1; discriminate. Qed.
Theorem sw_switch_binds_break : forall fuel m k body o tr o' out,
  sexec fuel m (SSwitch k body) o = Some (tr, o', out) -> out <> RBreak.
Proof.
  intros [|f] m k body o tr o' out H; [discriminate|]. cbn [sexec] in H.
  destruct m as [[cv| |l]|]; try (injection H as <- <- <-; discriminate).
  - exact (sswitch_end_binds _ _ _ _ H).
  - destruct o as [|v o1]; [discriminate|]. apply spre_inv in H. destruct H as (t1 & H & _).
    destruct (sexec f (Some (TCase v)) body o1) as [[[t2 o2] []]|]; try exact (sswitch_end_binds _ _ _ _ H).
    destruct (sexec f (Some TDefault) body o1) as [[[t3 o3] []]|]; try exact (sswitch_end_binds _ _ _ _ H).
    injection H as <- <- <-. discriminate.
Qed.
