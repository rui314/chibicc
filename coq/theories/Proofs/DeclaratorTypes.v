(* C08 (declarators): the type parse.c builds IS the type C11 6.7.6 assigns - and every C11 type is reached.

   [shape m] reads a model type (the C `Type` graph) as a C11 type: kind, base, array_len (negative = unknown
   bound), return type, parameter types, and the pair (no parameters, is_variadic) that parse.c uses for `()`.
   chibicc has no representation for type qualifiers, so the comparison is with [unqual t], the C11 type with
   the qualifiers of its pointer derivations erased.

       shape (m_apply d m) = unqual (type_of T d)        whenever shape m = unqual T

   for every declarator that passes parse.c's "array too large" tests ([chk]); parameters included (their
   adjusted types, 6.7.6.3p7-8).  So declarator() either reports "array too large" or returns the C11 type.

   The second half is the unparse / parse direction.  [declarator_of t x] (Spec/DeclSpec6_7_6.v) writes a type as base
   type + declarator, the way C programmers and type printers do (parentheses exactly where a pointer meets an array
   or function suffix).  For every valid C11 type - no arrays of functions, no functions returning arrays or
   functions, adjusted non-void parameter types -

     * the declarator is C11 syntax,
     * the standard's derivation gives back exactly t  (every derived type HAS a declarator), and therefore
       (Properties/Properties_C08_decl.v) parse.c, run on the written declarator, rebuilds t - or answers
       "array too large". *)
From Coq Require Import List ZArith Bool Lia.
From Chibicc Require Import Spec.DeclSyntax Spec.DeclSpec6_7_6 Model.Declarator Proofs.DeclaratorParse.
Import ListNotations.
Local Open Scope Z_scope.

Fixpoint unqual (t : ty) : ty :=
  match t with
  | TLeaf l => TLeaf l
  | TPtr _ t' => TPtr [] (unqual t')
  | TArr n t' => TArr n (unqual t')
  | TFun r ps k => TFun (unqual r) (map unqual ps) k
  end.

(* `if (cur == &head) is_variadic = true;` : no parameters + variadic is how `()` is stored *)
Definition fkind_of (no_params variadic : bool) : fkind :=
  if variadic then (if no_params then FNoProto else FVariadic) else FProto.

Fixpoint shape (m : mty) : ty :=
  match m with
  | MBase l => TLeaf l
  | MPtr b => TPtr [] (shape b)
  | MArr b len _ _ => TArr (if len <? 0 then None else Some len) (shape b)
  | MFunc r ps v => TFun (shape r) (map (fun p => shape (snd p)) ps) (fkind_of (is_nil ps) v)
  end.

Lemma int32_id : forall k, 0 <= k < 2147483648 -> int32 k = k.
Proof. intros k H. unfold int32. rewrite Z.mod_small by lia. lia. Qed.

Lemma apply_dtl_snoc : forall l s T, apply_dtl (l ++ [s]) T = apply_dtl l (derive s T).
Proof. intros l s T. unfold apply_dtl. rewrite fold_right_app. reflexivity. Qed.

Lemma shape_adjust : forall m T, shape m = unqual T -> shape (adjust_param m) = unqual (adjust T).
Proof.
  intros m T H.
  destruct m as [l|b|b len sz al|r ps v]; destruct T as [l'|q t|n t|r' ps' k]; cbn [shape unqual] in H;
    try discriminate H; cbn [adjust_param adjust shape unqual].
  - exact H.
  - exact H.
  - injection H as _ H. rewrite H. reflexivity.
  - cbn [shape unqual] in *. rewrite H. reflexivity.
Qed.

Lemma div_test : forall k b, 1 <= b -> (k >? 2147483647 / b) = (k * b >? 2147483647).
Proof.
  intros k b Hb. rewrite !Z.gtb_ltb.
  pose proof (Z.mul_div_le 2147483647 b) as H1. pose proof (Z.mul_succ_div_gt 2147483647 b) as H2.
  destruct (Z.ltb_spec (2147483647 / b) k), (Z.ltb_spec 2147483647 (k * b)); try reflexivity; nia.
Qed.

(* the C test `len > INT32_MAX / MAX(ty->size, 1)` without the division: the array needs more than INT32_MAX
   bytes, an element of size 0 counting as one byte *)
Lemma too_large_spec : forall k e, too_large k e = (k * Z.max (ty_size e) 1 >? 2147483647).
Proof. intros k e. apply div_test. lia. Qed.

Lemma too_large_bound : forall k e, too_large k e = false -> k <= 2147483647.
Proof.
  intros k e H. rewrite too_large_spec, Z.gtb_ltb in H. apply Z.ltb_ge in H.
  assert (1 <= Z.max (ty_size e) 1) by lia. nia.
Qed.

(* array_of stores the written bound: one that passes the test survives the conversion to a C int *)
Lemma shape_array_of : forall m n,
  match n with Some k => 0 <=? k | None => true end = true -> fit n m = true ->
  shape (array_of m (len_of n)) = TArr n (shape m).
Proof.
  intros m n Hn Hfit. unfold array_of. cbn [shape]. f_equal.
  destruct n as [k|]; cbn [len_of]; [|reflexivity].
  cbn [fit] in Hfit. apply negb_true_iff in Hfit. apply too_large_bound in Hfit.
  apply Z.leb_le in Hn. rewrite int32_id by lia. rewrite (proj2 (Z.ltb_ge k 0) Hn). reflexivity.
Qed.

Definition T_decl (d : decl) : Prop :=
  c11_ok d = true ->
  forall m T, chk d m = true -> shape m = unqual T -> shape (m_apply d m) = unqual (apply_dtl (dtl d) T).
Definition T_dd (dd : direct) : Prop :=
  c11_ok_dd dd = true ->
  forall m T, chk_dd dd m = true -> shape m = unqual T -> shape (m_apply_dd dd m) = unqual (apply_dtl (dtl_dd dd) T).
Definition T_params (ps : params) : Prop :=
  c11_ok_params ps = true -> chk_params ps = true ->
  map (fun p => shape (snd p)) (m_params ps) = map unqual (param_types ps).
Definition T_plist (l : plist) : Prop :=
  c11_ok_plist l = true -> chk_plist l = true ->
  map (fun p => shape (snd p)) (m_plist l) = map unqual (plist_types l).
Definition T_param (p : param) : Prop :=
  c11_ok_param p = true -> chk_param p = true ->
  shape (snd (m_param p)) = unqual (param_type p).

Lemma fkind_params : forall ps, fkind_of (is_nil (m_params ps)) (m_variadic ps) = kind_of ps.
Proof. intros [| |l v]; try reflexivity. destruct l, v; reflexivity. Qed.

Theorem types_all :
  (forall d, T_decl d) /\ (forall dd, T_dd dd) /\ (forall ps, T_params ps) /\
  (forall l, T_plist l) /\ (forall p, T_param p).
Proof.
  apply decl_mutind.
  - intros q d IH Hc m T Hk H. cbn [c11_ok chk m_apply dtl] in *.
    rewrite apply_dtl_snoc. apply IH; try assumption. cbn [derive shape unqual]. rewrite H. reflexivity.
  - intros dd IH. exact IH.
  - intros x _ m T _ H. exact H.
  - intros d IH Hc m T Hk H. cbn [chk_dd m_apply_dd dtl_dd] in *.
    apply c11_ok_paren in Hc. destruct Hc as [_ Hc]. apply andb_prop in Hk. destruct Hk as [_ Hk]. apply IH; assumption.
  - intros dd' IH n Hc m T Hk H. cbn [chk_dd m_apply_dd dtl_dd] in *.
    destruct (c11_ok_array dd' n Hc) as [_ [Hc' Hn0]].
    apply andb_prop in Hk. destruct Hk as [Hfit Hk].
    rewrite apply_dtl_snoc. apply IH; try assumption.
    rewrite shape_array_of by assumption. cbn [derive unqual]. rewrite H. reflexivity.
  - intros dd' IH ps IHps Hc m T Hk H. cbn [chk_dd m_apply_dd dtl_dd] in *.
    destruct (c11_ok_func dd' ps Hc) as [_ [Hc' Hcps]].
    apply andb_prop in Hk. destruct Hk as [Hkps Hk].
    rewrite apply_dtl_snoc. apply IH; try assumption.
    cbn [derive unqual shape]. rewrite H, (IHps Hcps Hkps), fkind_params. reflexivity.
  - intros _ _. reflexivity.
  - intros _ _. reflexivity.
  - intros l IH v. exact IH.
  - intros p IH Hc Hk. cbn [c11_ok_plist chk_plist m_plist plist_types map] in *.
    rewrite (IH Hc Hk). reflexivity.
  - intros p IH l IHl Hc Hk. cbn [c11_ok_plist chk_plist m_plist plist_types map] in *.
    apply andb_prop in Hc. destruct Hc as [Hc Hcl]. apply andb_prop in Hk. destruct Hk as [Hk Hkl].
    rewrite (IH Hc Hk), (IHl Hcl Hkl). reflexivity.
  - intros b d IH Hc Hk. cbn [c11_ok_param chk_param m_param param_type snd] in *.
    apply andb_prop in Hc. destruct Hc as [Hc _].
    apply shape_adjust. apply IH; try assumption. reflexivity.
Qed.

Theorem m_apply_is_c11_type : forall d m T, c11_ok d = true -> chk d m = true ->
  shape m = unqual T -> shape (m_apply d m) = unqual (type_of T d).
Proof. intros d m T Hc Hk H. unfold type_of. apply (proj1 types_all); assumption. Qed.

Theorem m_params_are_adjusted : forall ps, c11_ok_params ps = true -> chk_params ps = true ->
  map (fun p => shape (snd p)) (m_params ps) = map unqual (param_types ps).
Proof. exact (proj1 (proj2 (proj2 types_all))). Qed.

(* the pieces of decl_for's function case, as named functions *)
Definition param_for (p : ty) : param :=
  let bd := decl_for p (DDirect (DIdent None)) in Param (fst bd) (snd bd).
Fixpoint plist_for (p : ty) (l : list ty) : plist :=
  match l with
  | [] => POne (param_for p)
  | p' :: l' => PCons (param_for p) (plist_for p' l')
  end.
Definition params_for (ps : list ty) (k : fkind) : params :=
  match ps with
  | [] => match k with FProto => PVoid | _ => PUnspec end
  | p :: l => PList (plist_for p l) (match k with FVariadic => true | _ => false end)
  end.

Lemma decl_for_fun : forall r ps k inner,
  decl_for (TFun r ps k) inner = decl_for r (DDirect (DFunc (as_direct inner) (params_for ps k))).
Proof. intros r ps k inner. destruct ps as [|p l]; reflexivity. Qed.

Definition is_func_decl (d : decl) : bool := match d with DDirect (DFunc _ _) => true | _ => false end.

Lemma as_direct_dtl : forall d, dtl_dd (as_direct d) = dtl d.
Proof. destruct d; reflexivity. Qed.
Lemma as_direct_name : forall d, name_of_dd (as_direct d) = name_of d.
Proof. destruct d; reflexivity. Qed.
Lemma as_direct_c11 : forall d, c11_ok d = true -> c11_ok_dd (as_direct d) = true.
Proof. destruct d as [q d|dd]; intros H; [|exact H]. cbn [as_direct c11_ok_dd is_empty_decl negb andb]. exact H. Qed.
Lemma as_direct_func : forall d, is_func_dd (as_direct d) = is_func_decl d.
Proof. destruct d as [q d|dd]; [reflexivity|]. destruct dd; reflexivity. Qed.

(* [inner] is what is already written around the identifier; the derivations of t are put outside it.  An array or
   function derivation directly around a function declarator would be a suffix behind a parameter list, hence the
   third hypothesis; on a valid type decl_for never gets there. *)
Definition U (t : ty) : Prop :=
  forall inner, valid_ty t = true ->
    c11_ok inner = true ->
    is_func_decl inner && (is_fun t || is_arr t) = false ->
    c11_ok (snd (decl_for t inner)) = true /\
    name_of (snd (decl_for t inner)) = name_of inner /\
    apply_dtl (dtl (snd (decl_for t inner))) (TLeaf (fst (decl_for t inner))) = apply_dtl (dtl inner) t.

(* the test of valid_ty on a parameter type, under a name: unparse_all passes the conjunct of valid_ty, stated
   with the anonymous function, where [forallb param_cond] is asked for *)
Definition param_cond (p : ty) : bool :=
  negb (is_fun p) && negb (is_arr p) && negb (is_void_ty p) && valid_ty p.

Lemma adjust_id : forall p, is_fun p = false -> is_arr p = false -> adjust p = p.
Proof. intros p H1 H2. destruct p; try reflexivity; discriminate. Qed.

Lemma param_for_ok : forall p, U p -> param_cond p = true ->
  c11_ok_param (param_for p) = true /\ param_type (param_for p) = p.
Proof.
  intros p HU Hc. unfold param_cond in Hc. rewrite !andb_true_iff, !negb_true_iff in Hc.
  destruct Hc as [[[Hnf Hna] Hnv] Hv].
  destruct (HU (DDirect (DIdent None)) Hv eq_refl eq_refl) as [H1 [_ H4]].
  unfold param_for. cbn [c11_ok_param param_type].
  cbn [dtl dtl_dd apply_dtl fold_right] in H4.
  split.
  - rewrite H1. cbn [andb]. apply negb_true_iff.
    destruct (dtl (snd (decl_for p (DDirect (DIdent None))))) as [|s l] eqn:E; [|apply andb_false_r].
    cbn [apply_dtl fold_right] in H4. rewrite <- H4 in Hnv. cbn [is_void_ty] in Hnv.
    destruct (fst (decl_for p (DDirect (DIdent None)))); try reflexivity. discriminate Hnv.
  - unfold apply_dtl in *. rewrite H4. apply adjust_id; assumption.
Qed.

Lemma plist_for_ok : forall l p, Forall U (p :: l) -> forallb param_cond (p :: l) = true ->
  c11_ok_plist (plist_for p l) = true /\ plist_types (plist_for p l) = p :: l.
Proof.
  induction l as [|p' l IH]; intros p HU Hc; cbn [forallb] in Hc; apply andb_prop in Hc; destruct Hc as [Hcp Hcl];
    destruct (param_for_ok p (Forall_inv HU) Hcp) as [H1 H3]; cbn [plist_for c11_ok_plist plist_types].
  - rewrite H3. auto.
  - destruct (IH p' (Forall_inv_tail HU) Hcl) as [G1 G3]. rewrite H1, H3, G1, G3. auto.
Qed.

Lemma params_for_ok : forall ps k, Forall U ps -> forallb param_cond ps = true ->
  match k, ps with
  | FNoProto, [] => true | FNoProto, _ :: _ => false | FProto, _ => true
  | FVariadic, [] => false | FVariadic, _ :: _ => true
  end = true ->
  c11_ok_params (params_for ps k) = true /\
  param_types (params_for ps k) = ps /\ kind_of (params_for ps k) = k.
Proof.
  intros ps k HU Hc Hk. destruct ps as [|p l].
  - destruct k; try discriminate Hk; cbn; auto.
  - destruct (plist_for_ok l p HU Hc) as [G1 G3].
    cbn [params_for c11_ok_params param_types kind_of].
    destruct k; try discriminate Hk; auto.
Qed.

Theorem unparse_all : forall t, U t.
Proof.
  (* the parameter types of a function type sit in a list, for which Coq's induction principle for [ty] has no
     hypothesis: the outer [fix] provides it ([IHps]) and is cleared at once.  That it is applied to elements of [ps] only
     is what the guard check at Qed verifies. *)
  fix IH 1. induction t as [l|q t IHt|n t IHt|r IHr ps k].
  4: assert (IHps : Forall U ps) by (clear - IH; induction ps as [|p l IHl]; constructor; [apply IH|exact IHl]).
  all: clear IH.
  - intros inner _ Hc _. cbn [decl_for fst snd]. auto.
  - intros inner Hv Hc _. cbn [decl_for valid_ty] in *.
    destruct (IHt (DPtr q inner) Hv Hc eq_refl) as [H1 [H3 H4]].
    split; [exact H1|]. split; [exact H3|].
    rewrite H4. cbn [dtl]. apply apply_dtl_snoc.
  - intros inner Hv Hc Hnf. cbn [decl_for valid_ty is_fun is_arr orb] in *. rewrite andb_true_r in Hnf.
    rewrite !andb_true_iff in Hv. destruct Hv as [[_ Hv] Hn0].
    destruct (IHt (DDirect (DArray (as_direct inner) n)) Hv) as [H1 [H3 H4]].
    + cbn [c11_ok c11_ok_dd]. rewrite as_direct_func, Hnf, (as_direct_c11 inner Hc), Hn0. reflexivity.
    + reflexivity.
    + split; [exact H1|]. split.
      * rewrite H3. cbn [name_of name_of_dd]. apply as_direct_name.
      * rewrite H4. cbn [dtl dtl_dd]. rewrite as_direct_dtl. apply apply_dtl_snoc.
  - intros inner Hv Hc Hnf. rewrite decl_for_fun.
    cbn [valid_ty is_fun orb] in Hv, Hnf. rewrite andb_true_r in Hnf.
    rewrite !andb_true_iff, !negb_true_iff in Hv. destruct Hv as [[[[Hrf Hra] Hvr] Hps] Hk].
    destruct (params_for_ok ps k IHps Hps Hk) as [G1 [G3 G4]].
    destruct (IHr (DDirect (DFunc (as_direct inner) (params_for ps k))) Hvr) as [H1 [H3 H4]].
    + cbn [c11_ok c11_ok_dd]. rewrite as_direct_func, Hnf, (as_direct_c11 inner Hc), G1. reflexivity.
    + cbn [is_func_decl andb]. rewrite Hrf, Hra. reflexivity.
    + split; [exact H1|]. split.
      * rewrite H3. cbn [name_of name_of_dd]. apply as_direct_name.
      * rewrite H4. cbn [dtl dtl_dd]. rewrite as_direct_dtl, G3, G4. apply apply_dtl_snoc.
Qed.
