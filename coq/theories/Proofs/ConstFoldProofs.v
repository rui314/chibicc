(* The translation-time evaluator computes the C11 type and value of every defined integer expression. *)
From Chibicc Require Import Base.Mach Spec.C11Int Model.ConstFold.
Local Open Scope Z_scope.

(* get_common_type decides by size; that is the rank-based rule of 6.3.1.8 *)
Lemma m_common_is_uac a b : m_common a b = uac a b.
Proof. destruct a, b; reflexivity. Qed.

Lemma m_promote t : m_common I32 t = promote t.
Proof. destruct t; reflexivity. Qed.

Lemma plus_promote t : (if size_of t <? 4 then I32 else t) = promote t.
Proof. destruct t; reflexivity. Qed.

Theorem m_type_is_c11 e : m_type e = type_of e.
Proof.
  induction e as [t v|o a IH|o a IHa b IHb|t a IH|c IHc a IHa b IHb|a IHa b IHb]; cbn [m_type type_of]; auto.
  - destruct o; rewrite ?IH, ?m_promote, ?plus_promote; reflexivity.
  - rewrite IHa, IHb. destruct (is_arith o); [apply m_common_is_uac|].
    destruct (is_shift o); [apply m_promote|reflexivity].
  - rewrite IHa, IHb. apply m_common_is_uac.
Qed.

(* the types usual arithmetic conversions and promotions end in: int and above *)
Definition big (t : ity) : Prop := t = I32 \/ t = U32 \/ t = I64 \/ t = U64.
Lemma big_not_bool t : big t -> t <> IBool. Proof. intros [H|[H|[H|H]]]; subst; discriminate. Qed.
Lemma promote_big t : big (promote t). Proof. destruct t; vm_compute; auto. Qed.

Lemma uac_comm a b : uac a b = uac b a. Proof. destruct a, b; reflexivity. Qed.

(* by size, the common type is one of the operand types, raised to int if smaller *)
Lemma uac_big a b : big (uac a b).
Proof.
  rewrite <- m_common_is_uac. unfold m_common. cbv zeta.
  assert (C : forall t, big (if size_of t <? 4 then I32 else t)) by (intros t; rewrite plus_promote; apply promote_big).
  destruct (negb _); [destruct (_ <? _)|destruct (negb _)]; apply C.
Qed.

Lemma promote_not_bool t : promote t <> IBool. Proof. apply big_not_bool, promote_big. Qed.
Lemma uac_not_bool a b : uac a b <> IBool. Proof. apply big_not_bool, uac_big. Qed.

Lemma mod_pow2_mod v m n : 0 <= m <= n -> (v mod 2 ^ n) mod 2 ^ m = v mod 2 ^ m.
Proof.
  intros H. symmetry. apply Znumtheory.Zmod_div_mod; try (apply Z.pow_pos_nonneg; lia).
  exists (2 ^ (n - m)). rewrite <- Z.pow_add_r by lia. f_equal. lia.
Qed.

Lemma mod_pow2_eq a b m n : 0 <= m <= n -> a mod 2 ^ n = b mod 2 ^ n -> a mod 2 ^ m = b mod 2 ^ m.
Proof. intros H E. rewrite <- (mod_pow2_mod a m n H), E. apply mod_pow2_mod, H. Qed.

Lemma pow2_double w : 0 < w -> 2 ^ w = 2 * 2 ^ (w - 1).
Proof. intros H. rewrite <- Z.pow_succ_r by lia. f_equal. lia. Qed.

Lemma mod_eqb_zero v m : - m < v < m -> (v mod m =? 0) = (v =? 0).
Proof.
  intros H. destruct (Z.lt_ge_cases v 0).
  - rewrite <- (Z.mod_unique v m (-1) (v + m)) by lia. lia.
  - rewrite Z.mod_small by lia. reflexivity.
Qed.

(* congruence modulo any m is kept by + - * and by what is built from them: - a is 0 - a, and Z.lnot a is - a - 1
   by conversion *)
Section Congruence.
Variable m : Z.
Lemma cong_add a a' b b' : a mod m = a' mod m -> b mod m = b' mod m -> (a + b) mod m = (a' + b') mod m.
Proof. intros H1 H2. rewrite Zplus_mod, H1, H2, <- Zplus_mod. reflexivity. Qed.
Lemma cong_sub a a' b b' : a mod m = a' mod m -> b mod m = b' mod m -> (a - b) mod m = (a' - b') mod m.
Proof. intros H1 H2. rewrite Zminus_mod, H1, H2, <- Zminus_mod. reflexivity. Qed.
Lemma cong_mul a a' b b' : a mod m = a' mod m -> b mod m = b' mod m -> (a * b) mod m = (a' * b') mod m.
Proof. intros H1 H2. rewrite Zmult_mod, H1, H2, <- Zmult_mod. reflexivity. Qed.
Lemma cong_opp a a' : a mod m = a' mod m -> (- a) mod m = (- a') mod m.
Proof. intros H. apply (cong_sub 0 0); [reflexivity|exact H]. Qed.
Lemma cong_lnot a a' : a mod m = a' mod m -> Z.lnot a mod m = Z.lnot a' mod m.
Proof. intros H. apply (cong_sub _ _ 1 1); [apply cong_opp; exact H|reflexivity]. Qed.
End Congruence.

(* modulo 2^n a number is its n low bits, so and, or, xor - any operation that works bit by bit - are kept too *)
Lemma cong_bits n a b : 0 <= n -> (a mod 2 ^ n = b mod 2 ^ n <-> (forall i, 0 <= i < n -> Z.testbit a i = Z.testbit b i)).
Proof.
  intros Hn. split.
  - intros H i Hi. rewrite <- (Z.mod_pow2_bits_low a n i), <- (Z.mod_pow2_bits_low b n i) by lia. rewrite H. reflexivity.
  - intros H. apply Z.bits_inj'. intros i Hi. destruct (Z.lt_ge_cases i n).
    + rewrite !Z.mod_pow2_bits_low by lia. apply H. lia.
    + rewrite !Z.mod_pow2_bits_high by lia. reflexivity.
Qed.

Lemma cong_bitwise (f : Z -> Z -> Z) (g : bool -> bool -> bool) n a a' b b' :
  (forall u v i, Z.testbit (f u v) i = g (Z.testbit u i) (Z.testbit v i)) -> 0 <= n ->
  a mod 2 ^ n = a' mod 2 ^ n -> b mod 2 ^ n = b' mod 2 ^ n -> f a b mod 2 ^ n = f a' b' mod 2 ^ n.
Proof. intros Hf Hn. rewrite !cong_bits by exact Hn. intros H1 H2 i Hi. rewrite !Hf, H1, H2 by exact Hi. reflexivity. Qed.

(* the two's complement reading of a residue is congruent to it *)
Lemma cong_wrap n (c : bool) z : (if c then z mod 2 ^ n - 2 ^ n else z mod 2 ^ n) mod 2 ^ n = z mod 2 ^ n.
Proof.
  destruct c; [|apply Zmod_mod].
  replace (z mod 2 ^ n - 2 ^ n) with (z mod 2 ^ n + (-1) * 2 ^ n) by ring. rewrite Z_mod_plus_full. apply Zmod_mod.
Qed.

(* 2^64, the modulus of the folder's int64_t arithmetic *)
Definition M64 := 18446744073709551616.
Definition eqm (a b : Z) : Prop := a mod M64 = b mod M64.
Lemma eqm_sym a b : eqm a b -> eqm b a. Proof. unfold eqm; congruence. Qed.
Lemma eqm_trans a b c : eqm a b -> eqm b c -> eqm a c. Proof. unfold eqm; congruence. Qed.

(* [sx w z] is the residue of z modulo 2^w that lies in [-2^(w-1), 2^(w-1)) *)
Lemma sx_range w z : 0 < w -> - 2 ^ (w - 1) <= sx w z < 2 ^ (w - 1).
Proof.
  intros H. unfold sx. cbv zeta. rewrite (pow2_double w H).
  assert (Hp : 0 < 2 ^ (w - 1)) by (apply Z.pow_pos_nonneg; lia). revert Hp. generalize (2 ^ (w - 1)). intros p Hp.
  pose proof (Z.mod_pos_bound z (2 * p) ltac:(lia)) as Hr. revert Hr. generalize (z mod (2 * p)). intros r Hr.
  destruct (Z.leb_spec p r); lia.
Qed.

Lemma sx_mod w z : sx w z mod 2 ^ w = z mod 2 ^ w.
Proof. apply cong_wrap. Qed.

Lemma sx_id w z : 0 < w -> - 2 ^ (w - 1) <= z < 2 ^ (w - 1) -> sx w z = z.
Proof.
  intros H. unfold sx. cbv zeta. rewrite (pow2_double w H). generalize (2 ^ (w - 1)). intros p Hz.
  destruct (Z.lt_ge_cases z 0).
  - rewrite <- (Z.mod_unique z (2 * p) (-1) (z + 2 * p)) by lia. destruct (Z.leb_spec p (z + 2 * p)); lia.
  - rewrite Z.mod_small by lia. destruct (Z.leb_spec p z); lia.
Qed.

Lemma sx_cong w a b : a mod 2 ^ w = b mod 2 ^ w -> sx w a = sx w b.
Proof. unfold sx. intros ->. reflexivity. Qed.

(* a type is a width and a signedness: conv and in_range in those terms *)
Lemma width_bounds t : 0 < width t <= 64.
Proof. destruct t; cbn [width]; lia. Qed.

Lemma conv_signed t v : is_signed t = true -> conv t v = sx (width t) v.
Proof. destruct t; try discriminate; reflexivity. Qed.

Lemma conv_unsigned t v : is_signed t = false -> t <> IBool -> conv t v = v mod 2 ^ width t.
Proof. destruct t; try discriminate; try congruence; reflexivity. Qed.

Lemma ity_cases t : t = IBool \/ is_signed t = true \/ is_signed t = false /\ t <> IBool.
Proof. destruct t; auto; right; right; (split; [reflexivity|discriminate]). Qed.

Lemma tmax_eq t : tmax t = if is_signed t then 2 ^ (width t - 1) - 1 else 2 ^ width t - 1.
Proof. destruct t; reflexivity. Qed.

Lemma range_signed t v : is_signed t = true -> in_range t v = true <-> - 2 ^ (width t - 1) <= v < 2 ^ (width t - 1).
Proof. intros Hs. unfold in_range, tmin. rewrite tmax_eq, Hs. lia. Qed.

(* _Bool included: its range is that of an unsigned type of width 1 *)
Lemma range_unsigned t v : is_signed t = false -> in_range t v = true <-> 0 <= v < 2 ^ width t.
Proof. intros Hs. unfold in_range, tmin. rewrite tmax_eq, Hs. lia. Qed.

Lemma mod_range t r : is_signed t = false -> in_range t (r mod 2 ^ width t) = true.
Proof. intros Hs. apply range_unsigned; [exact Hs|]. apply Z.mod_pos_bound, Z.pow_pos_nonneg; [lia|apply Z.lt_le_incl, width_bounds]. Qed.

Lemma in_range_sub a b v : represents_all a b = true -> in_range b v = true -> in_range a v = true.
Proof. unfold represents_all, in_range. lia. Qed.

Lemma conv_range t v : in_range t (conv t v) = true.
Proof.
  destruct (ity_cases t) as [-> | [Hs | [Hs Ht]]].
  - unfold conv. destruct (v =? 0); reflexivity.
  - rewrite conv_signed by exact Hs. apply range_signed; [exact Hs|]. apply sx_range, width_bounds.
  - rewrite conv_unsigned by assumption. apply mod_range, Hs.
Qed.

Lemma conv_in_range t v : in_range t v = true -> conv t v = v.
Proof.
  destruct (ity_cases t) as [-> | [Hs | [Hs Ht]]]; intros H.
  - apply (range_unsigned IBool) in H; [|reflexivity]. change (2 ^ width IBool) with 2 in H.
    unfold conv. destruct (Z.eqb_spec v 0); lia.
  - rewrite conv_signed by exact Hs. apply sx_id; [apply width_bounds|]. apply range_signed; assumption.
  - rewrite conv_unsigned by assumption. apply Z.mod_small, range_unsigned; assumption.
Qed.

Lemma conv_mod t v : t <> IBool -> conv t v mod 2 ^ width t = v mod 2 ^ width t.
Proof.
  intros Ht. destruct (ity_cases t) as [-> | [Hs | [Hs _]]]; [congruence| |].
  - rewrite conv_signed by exact Hs. apply sx_mod.
  - rewrite conv_unsigned by assumption. apply Zmod_mod.
Qed.

Lemma conv_cong t a b : t <> IBool -> a mod 2 ^ width t = b mod 2 ^ width t -> conv t a = conv t b.
Proof.
  intros Ht H. destruct (ity_cases t) as [-> | [Hs | [Hs _]]]; [congruence| |].
  - rewrite !conv_signed by exact Hs. apply sx_cong, H.
  - rewrite !conv_unsigned by assumption. exact H.
Qed.

(* conv t picks, from a residue class modulo 2^width t, the value of t.  Every reading of a bit pattern in the
   models (lo, sgn, sx of X86Int; wrap64, u64 here) is conv at some type, by computation. *)
Lemma conv_unique t r v : t <> IBool -> in_range t v = true -> r mod 2 ^ width t = v mod 2 ^ width t -> conv t r = v.
Proof. intros Ht Hv E. rewrite (conv_cong t r v Ht E). apply conv_in_range, Hv. Qed.

Lemma in_range_bounds t v : in_range t v = true -> - 9223372036854775808 <= v < M64.
Proof.
  assert (- 9223372036854775808 <= tmin t /\ tmax t < M64) by (destruct t; vm_compute; split; congruence).
  unfold in_range. lia.
Qed.

Lemma in_range_I64 t v : t <> U64 -> in_range t v = true -> in_range I64 v = true.
Proof. intros Ht. apply in_range_sub. destruct t; try reflexivity. congruence. Qed.

Lemma in_range_zero t : in_range t 0 = true.
Proof. destruct t; reflexivity. Qed.

Lemma in_range_toward_zero t x v : in_range t x = true -> 0 <= v <= x \/ x <= v <= 0 -> in_range t v = true.
Proof. pose proof (in_range_zero t). unfold in_range in *. lia. Qed.

Lemma promote_range t v : in_range t v = true -> in_range (promote t) v = true.
Proof. apply in_range_sub. destruct t; reflexivity. Qed.

Lemma arith_result_range t r v : arith_result t r = Some v -> in_range t v = true.
Proof.
  unfold arith_result. destruct (is_signed t) eqn:Es.
  - destruct (in_range t r) eqn:Er; [|discriminate]. intros [= <-]. exact Er.
  - intros [= <-]. apply mod_range, Es.
Qed.

Lemma b2z_range b : in_range I32 (b2z b) = true. Proof. destruct b; reflexivity. Qed.
Lemma cmp_range o x y : in_range I32 (eval_cmp o x y) = true.
Proof. destruct o; cbn [eval_cmp]; try reflexivity; apply b2z_range. Qed.

(* truncating division and the arithmetic right shift both move a value toward zero *)
Lemma rem_toward_zero x y : y <> 0 -> 0 <= Z.rem x y <= x \/ x <= Z.rem x y <= 0.
Proof.
  intros Hy. assert (Z.abs (Z.rem x y) <= Z.abs x) by (rewrite <- Z.rem_abs by exact Hy; apply Z.rem_le; lia).
  destruct (Z.le_ge_cases 0 x); [pose proof (Z.rem_nonneg x y Hy)|pose proof (Z.rem_nonpos x y Hy)]; lia.
Qed.

Lemma rem_range t x y : in_range t x = true -> y <> 0 -> in_range t (Z.rem x y) = true.
Proof. intros Hx Hy. apply (in_range_toward_zero t x); [exact Hx|apply rem_toward_zero, Hy]. Qed.

Lemma shr_range t x n : in_range t x = true -> 0 <= n -> in_range t (x / 2 ^ n) = true.
Proof.
  intros Hx Hn. apply (in_range_toward_zero t x); [exact Hx|].
  assert (Hp : 0 < 2 ^ n) by (apply Z.pow_pos_nonneg; lia). revert Hp. generalize (2 ^ n). intros p Hp.
  pose proof (Z.div_mod x p ltac:(lia)) as E. pose proof (Z.mod_pos_bound x p Hp) as B. nia.
Qed.

Lemma eval_bin_arith_range o t x y v : t <> IBool -> in_range t x = true -> in_range t y = true ->
  eval_bin_arith o t x y = Some v -> in_range t v = true.
Proof.
  intros Ht Hx Hy H. destruct o; try discriminate H; cbn [eval_bin_arith] in H.
  (* + - * end in arith_result, & | ^ in conv; / and % are left *)
  all: try (eapply arith_result_range; exact H); try (injection H as <-; apply conv_range).
  - destruct (y =? 0); [discriminate|]. eapply arith_result_range; exact H.
  - destruct (Z.eqb_spec y 0); [discriminate|]. destruct (in_range t (Z.quot x y)); [|discriminate].
    injection H as <-. apply rem_range; assumption.
Qed.

(* a defined shift has its count below the width; << is then the arithmetic result of x * 2^n
   (a negative x overflows or is excluded), >> the quotient rounded down *)
Lemma eval_shift_inv o t x n v : eval_shift o t x n = Some v ->
  0 <= n < width t /\ (o = Shl /\ arith_result t (x * 2 ^ n) = Some v \/ o = Shr /\ v = x / 2 ^ n).
Proof.
  unfold eval_shift, arith_result. destruct ((n <? 0) || (width t <=? n)) eqn:E; [discriminate|].
  intros H. split; [lia|]. destruct o; try discriminate H; [left|right; injection H as <-]; split; try reflexivity.
  destruct (is_signed t); [|exact H]. destruct (x <? 0); [discriminate|exact H].
Qed.

Lemma eval_shift_range o t x n v : in_range t x = true -> eval_shift o t x n = Some v -> in_range t v = true.
Proof.
  intros Hx H. apply eval_shift_inv in H as [Hn [[_ H] | [_ ->]]].
  - apply (arith_result_range t _ v H).
  - apply shr_range; [exact Hx|lia].
Qed.

(* && and || evaluate their right operand conditionally; every other binary operator evaluates both *)
Lemma binop_cases o : o = LAnd \/ o = LOr \/ o <> LAnd /\ o <> LOr.
Proof. destruct o; auto; right; right; (split; discriminate). Qed.

Lemma eval_Bin o a b : o <> LAnd -> o <> LOr ->
  eval (Bin o a b) =
  match eval a, eval b with
  | Some x, Some y =>
    if is_arith o then let t := uac (type_of a) (type_of b) in eval_bin_arith o t (conv t x) (conv t y)
    else if is_shift o then eval_shift o (promote (type_of a)) x y
    else let t := uac (type_of a) (type_of b) in Some (eval_cmp o (conv t x) (conv t y))
  | _, _ => None
  end.
Proof. destruct o; intros; try reflexivity; congruence. Qed.

Lemma other_is_cmp o : o <> LAnd -> o <> LOr -> is_arith o = false -> is_shift o = false -> is_cmp o = true.
Proof. destruct o; try discriminate; try congruence; reflexivity. Qed.

(* the int64_t view of a value: wrap64 is conv I64 *)
Lemma wrap64_range z : in_range I64 (wrap64 z) = true.
Proof. exact (conv_range I64 z). Qed.

Lemma wrap64_id z : in_range I64 z = true -> wrap64 z = z.
Proof. exact (conv_in_range I64 z). Qed.

Lemma wrap64_eqm z : eqm (wrap64 z) z.
Proof. exact (conv_mod I64 z ltac:(discriminate)). Qed.

(* conv depends only on the residue modulo 2^64 (2^width divides 2^64) *)
Lemma conv_eqm t a b : t <> IBool -> eqm a b -> conv t a = conv t b.
Proof.
  intros Ht H. apply conv_cong; [exact Ht|]. apply (mod_pow2_eq a b (width t) 64); [|exact H].
  pose proof (width_bounds t). lia.
Qed.

Lemma narrow_conv t z : narrow t z = if size_of t =? 8 then z else conv t z.
Proof. destruct t; reflexivity. Qed.

Lemma narrow_wrap t z : t <> IBool -> narrow t (wrap64 z) = wrap64 (conv t z).
Proof.
  intros Ht. rewrite narrow_conv. destruct (size_of t =? 8) eqn:E.
  - apply (conv_eqm I64); [discriminate|]. symmetry. destruct t; try discriminate E; exact (conv_mod _ z Ht).
  - rewrite (conv_eqm t _ _ Ht (wrap64_eqm z)). symmetry.
    apply wrap64_id, (in_range_I64 t); [intros ->; discriminate E|apply conv_range].
Qed.

Lemma arith_result_conv t r v : t <> IBool -> arith_result t r = Some v -> v = conv t r.
Proof.
  intros Ht. unfold arith_result. destruct (is_signed t) eqn:Es.
  - destruct (in_range t r) eqn:Er; [|discriminate]. intros [= <-]. symmetry. apply conv_in_range, Er.
  - intros [= <-]. symmetry. apply conv_unsigned; assumption.
Qed.

(* an operation that is a congruence modulo 2^64, computed on the folded operands and narrowed *)
Lemma fold_op_ok t z r : t <> IBool -> eqm z r -> narrow t (wrap64 z) = wrap64 (conv t r).
Proof. intros Ht He. rewrite narrow_wrap by exact Ht. rewrite (conv_eqm t z r Ht He). reflexivity. Qed.

Lemma fold_bit_ok t (f : Z -> Z -> Z) g x y : t <> IBool ->
  (forall u v i, Z.testbit (f u v) i = g (Z.testbit u i) (Z.testbit v i)) ->
  narrow t (wrap64 (f (wrap64 x) (wrap64 y))) = wrap64 (conv t (f x y)).
Proof. intros Ht Hf. apply fold_op_ok; [exact Ht|]. apply (cong_bitwise f g 64); [exact Hf|discriminate|apply wrap64_eqm..]. Qed.

Lemma ring_op_ok t z r v : t <> IBool -> eqm z r -> arith_result t r = Some v -> narrow t (wrap64 z) = wrap64 v.
Proof. intros Ht He Ha. rewrite (arith_result_conv t r v Ht Ha). apply fold_op_ok; assumption. Qed.

Lemma wrap_small t x : t <> U64 -> in_range t x = true -> wrap64 x = x.
Proof. intros Ht H. apply wrap64_id. eapply in_range_I64; eauto. Qed.

Lemma u64_unsigned t x : is_signed t = false -> in_range t x = true -> u64 (wrap64 x) = x.
Proof.
  intros Hs H. unfold u64. change two64 with M64. rewrite (wrap64_eqm x). apply Z.mod_small.
  pose proof (in_range_bounds t x H). apply (range_unsigned t x Hs) in H. lia.
Qed.

(* a value of type t is recovered from its int64_t pattern: as it stands, or through (uint64_t) for unsigned long *)
Lemma wrap64_inj t x y : in_range t x = true -> in_range t y = true -> (wrap64 x =? wrap64 y) = (x =? y).
Proof.
  intros Hx Hy. destruct (Z.eqb_spec x y) as [->|Hn]; [apply Z.eqb_refl|]. apply Z.eqb_neq. intro W. apply Hn.
  destruct (is_signed t) eqn:Hs.
  - rewrite <- (wrap_small t x), <- (wrap_small t y), W by (assumption || (intros ->; discriminate)). reflexivity.
  - rewrite <- (u64_unsigned t x Hs Hx), <- (u64_unsigned t y Hs Hy), W. reflexivity.
Qed.

(* so only 0 has the pattern 0: 0 is a value of every type, and wrap64 0 computes to 0 *)
Lemma wrap64_zero_iff t x : in_range t x = true -> (wrap64 x =? 0) = (x =? 0).
Proof. intros H. exact (wrap64_inj t x 0 H (in_range_zero t)). Qed.

(* narrow_to_type on the pattern of a value v of any type t': the pattern of v converted; for _Bool by the test against zero *)
Lemma cast_step t' t v : in_range t' v = true -> narrow t (wrap64 v) = wrap64 (conv t v).
Proof.
  intros H. destruct t; try (apply narrow_wrap; discriminate).
  unfold narrow, conv. rewrite (wrap64_zero_iff t' v H). destruct (v =? 0); reflexivity.
Qed.

Lemma arith_result_signed t r v : arith_result t r = Some v -> is_signed t = true -> in_range t r = true.
Proof. unfold arith_result. intros H Hs. rewrite Hs in H. destruct (in_range t r); [reflexivity|discriminate]. Qed.

(* eval_div on operands of a common type; the only quotient of two int64_t that is not one is INT64_MIN / -1 *)
Lemma m_div_ok t is_mod x y :
  in_range t x = true -> in_range t y = true -> y <> 0 -> (is_signed t = true -> in_range t (Z.quot x y) = true) ->
  m_div t is_mod (wrap64 x) (wrap64 y) = Val (wrap64 (if is_mod then Z.rem x y else Z.quot x y)).
Proof.
  intros Hx Hy Hy0 Hq. unfold m_div. rewrite (wrap64_zero_iff t y Hy), (proj2 (Z.eqb_neq y 0) Hy0).
  destruct (is_signed t) eqn:Es; cbn [negb].
  - assert (Ht : t <> U64) by (intros ->; discriminate).
    rewrite (wrap_small t x), (wrap_small t y) by assumption.
    destruct ((x =? - two63) && (y =? -1)) eqn:Eo; [exfalso|reflexivity].
    apply andb_true_iff in Eo as [E1 E2]. apply Z.eqb_eq in E1, E2. subst x y.
    apply (in_range_I64 t _ Ht) in Hq; [discriminate Hq|reflexivity].
  - rewrite (u64_unsigned t x), (u64_unsigned t y) by assumption.
    apply (range_unsigned t x Es) in Hx. apply (range_unsigned t y Es) in Hy.
    destruct is_mod; [rewrite Z.rem_mod_nonneg by lia|rewrite Z.quot_div_nonneg by lia]; reflexivity.
Qed.

Lemma binop_arith_ok o t x y v :
  t <> IBool -> is_arith o = true -> in_range t x = true -> in_range t y = true ->
  eval_bin_arith o t x y = Some v -> m_binop o t (wrap64 x) (wrap64 y) = Val (wrap64 v).
Proof.
  intros Ht Ho Hx Hy H.
  pose proof (wrap64_eqm x) as Ex. pose proof (wrap64_eqm y) as Ey.
  destruct o; try discriminate Ho; cbn [eval_bin_arith m_binop] in *.
  - f_equal. apply (ring_op_ok t _ (x + y)); [exact Ht|apply cong_add; assumption|exact H].
  - f_equal. apply (ring_op_ok t _ (x - y)); [exact Ht|apply cong_sub; assumption|exact H].
  - f_equal. apply (ring_op_ok t _ (x * y)); [exact Ht|apply cong_mul; assumption|exact H].
  - destruct (Z.eqb_spec y 0) as [|Hy0]; [discriminate|].
    rewrite (m_div_ok t false x y) by eauto using arith_result_signed. cbn [fbind]. f_equal.
    apply (ring_op_ok t _ (Z.quot x y)); [exact Ht|reflexivity|exact H].
  - destruct (Z.eqb_spec y 0) as [|Hy0]; [discriminate|].
    destruct (in_range t (Z.quot x y)) eqn:Eq; [|discriminate]. injection H as <-.
    rewrite (m_div_ok t true x y) by auto. cbn [fbind]. f_equal.
    rewrite (fold_op_ok t _ _ Ht eq_refl), conv_in_range by (apply rem_range; assumption). reflexivity.
  - injection H as <-. f_equal. exact (fold_bit_ok t Z.land andb x y Ht Z.land_spec).
  - injection H as <-. f_equal. exact (fold_bit_ok t Z.lor orb x y Ht Z.lor_spec).
  - injection H as <-. f_equal. exact (fold_bit_ok t Z.lxor xorb x y Ht Z.lxor_spec).
Qed.

Lemma binop_cmp_ok o t x y :
  is_cmp o = true -> in_range t x = true -> in_range t y = true ->
  m_binop o t (wrap64 x) (wrap64 y) = Val (wrap64 (eval_cmp o x y)).
Proof.
  intros Ho Hx Hy.
  assert (W : forall b : bool, wrap64 (b2z b) = (if b then 1 else 0)) by (intros []; reflexivity).
  destruct o; try discriminate Ho; cbn [m_binop eval_cmp]; rewrite W; f_equal.
  1-2: rewrite (wrap64_inj t x y) by assumption; destruct (x =? y); reflexivity.
  (* the order comparisons read the operands as int64_t or as uint64_t, by the signedness of the type *)
  all: destruct (is_signed t) eqn:Es;
    [rewrite (wrap_small t x), (wrap_small t y) by (assumption || (intros ->; discriminate))
    |rewrite (u64_unsigned t x), (u64_unsigned t y) by assumption]; reflexivity.
Qed.

Lemma shift_ok o t x n v : t <> IBool -> in_range t x = true ->
  eval_shift o t x n = Some v -> m_shift o t (wrap64 x) (wrap64 n) = Val (wrap64 v).
Proof.
  intros Ht Hx H. apply eval_shift_inv in H as [N H].
  assert (N64 : 0 <= n < 64) by (pose proof (width_bounds t); lia).
  assert (Wn : wrap64 n = n) by (apply wrap64_id, (range_signed I64 n eq_refl); cbn [width]; lia).
  unfold m_shift. rewrite Wn. replace ((n <? 0) || (64 <=? n)) with false by lia.
  destruct H as [[-> H] | [-> ->]]; f_equal.
  - apply (ring_op_ok t _ (x * 2 ^ n)); [exact Ht|apply cong_mul; [apply wrap64_eqm|reflexivity]|exact H].
  - (* x is read through (uint64_t) for unsigned long only; every other type fits int64_t *)
    rewrite <- (conv_in_range t (x / 2 ^ n)) by (apply shr_range; [exact Hx|lia]).
    destruct (negb (is_signed t) && (size_of t =? 8)) eqn:Eu.
    + apply andb_true_iff in Eu as [Es _]. apply negb_true_iff in Es.
      rewrite (u64_unsigned t x Es Hx). f_equal. apply fold_op_ok; [exact Ht|reflexivity].
    + rewrite (wrap_small t x) by (assumption || (intros ->; discriminate)). f_equal. apply fold_op_ok; [exact Ht|reflexivity].
Qed.

(* the cast add_type puts on an operand whose folded value represents va *)
Lemma cast_ok a va t :
  m_eval a = Val (wrap64 va) -> in_range (type_of a) va = true ->
  fbind (m_eval a) (fun x => Val (narrow t x)) = Val (wrap64 (conv t va)).
Proof.
  intros Hm Hr. rewrite Hm. cbn [fbind]. f_equal. exact (cast_step _ t va Hr).
Qed.

Lemma promote_ok a x : m_eval a = Val (wrap64 x) -> in_range (type_of a) x = true ->
  fbind (m_eval a) (fun z => Val (narrow (promote (type_of a)) z)) = Val (wrap64 x).
Proof. intros Hm Hr. rewrite (cast_ok a x _ Hm Hr), (conv_in_range _ x (promote_range _ _ Hr)). reflexivity. Qed.

(* the truth value of the right operand of && and || *)
Lemma truth_ok b y : m_eval b = Val (wrap64 y) -> in_range (type_of b) y = true ->
  fbind (m_eval b) (fun z => Val (if z =? 0 then 0 else 1)) = Val (wrap64 (b2z (negb (y =? 0)))).
Proof. intros -> Hr. cbn [fbind]. rewrite (wrap64_zero_iff _ y Hr). destruct (y =? 0); reflexivity. Qed.

Lemma m_eval_binop o a b : is_arith o = true \/ is_cmp o = true ->
  m_eval (Bin o a b) =
  let t := m_common (m_type a) (m_type b) in
  fbind (fbind (m_eval a) (fun x => Val (narrow t x)))
    (fun x => fbind (fbind (m_eval b) (fun y => Val (narrow t y))) (fun y => m_binop o t x y)).
Proof. destruct o; intros [H|H]; try discriminate H; reflexivity. Qed.

Lemma m_eval_shift o a b : is_shift o = true ->
  m_eval (Bin o a b) =
  let t := m_type (Bin o a b) in
  fbind (fbind (m_eval a) (fun x => Val (narrow t x))) (fun x => fbind (m_eval b) (fun n => m_shift o t x n)).
Proof. destruct o; try discriminate; reflexivity. Qed.

(* The value's range and the folder's result are proved together: the casts add_type inserts are right only on operands
   in range, so the folder's half needs the range of every operand as part of the induction hypothesis. *)
Theorem fold_range : forall e v, eval e = Some v -> in_range (type_of e) v = true /\ m_eval e = Val (wrap64 v).
Proof.
  induction e as [t v0|o a IH|o a IHa b IHb|t a IH|c IHc a IHa b IHb|a IHa b IHb]; intros v H.
  - cbn [eval] in H. destruct (in_range t v0) eqn:E; [|discriminate]. injection H as <-. split; [exact E|].
    cbn [m_eval]. rewrite (cast_step t t v0 E), conv_in_range by exact E. reflexivity.
  - cbn [eval] in H. destruct (eval a) as [x|]; [|discriminate]. destruct (IH x eq_refl) as [Rx Mx].
    destruct o; cbn [type_of m_eval m_type]; rewrite ?m_type_is_c11, ?m_promote, ?plus_promote, ?(promote_ok a x Mx Rx); cbn [fbind].
    + split; [apply (arith_result_range _ _ _ H)|]. f_equal.
      apply (ring_op_ok _ _ (- x)); [apply promote_not_bool|apply cong_opp, wrap64_eqm|exact H].
    + injection H as <-. split; [apply conv_range|]. f_equal. apply fold_op_ok; [apply promote_not_bool|apply cong_lnot, wrap64_eqm].
    + injection H as <-. split; [apply b2z_range|]. rewrite Mx. cbn [fbind]. rewrite (wrap64_zero_iff _ x Rx). destruct (x =? 0); reflexivity.
    + injection H as <-. split; [apply promote_range, Rx|reflexivity].
  - destruct (binop_cases o) as [-> | [-> | [N1 N2]]].
    + (* && : the right operand only if the left one is not 0 *)
      cbn [eval] in H. destruct (eval a) as [x|]; [|discriminate]. destruct (IHa x eq_refl) as [Rx Mx].
      cbn [type_of is_arith is_shift m_eval]. rewrite Mx. cbn [fbind]. rewrite (wrap64_zero_iff _ x Rx).
      destruct (x =? 0); [injection H as <-; split; reflexivity|].
      destruct (eval b) as [y|]; [|discriminate]. injection H as <-. destruct (IHb y eq_refl) as [Ry My].
      split; [apply b2z_range|apply truth_ok; assumption].
    + cbn [eval] in H. destruct (eval a) as [x|]; [|discriminate]. destruct (IHa x eq_refl) as [Rx Mx].
      cbn [type_of is_arith is_shift m_eval]. rewrite Mx. cbn [fbind]. rewrite (wrap64_zero_iff _ x Rx).
      destruct (x =? 0); cbn [negb] in *; [|injection H as <-; split; reflexivity].
      destruct (eval b) as [y|]; [|discriminate]. injection H as <-. destruct (IHb y eq_refl) as [Ry My].
      split; [apply b2z_range|apply truth_ok; assumption].
    + rewrite (eval_Bin o a b N1 N2) in H. destruct (eval a) as [x|]; [|discriminate]. destruct (eval b) as [y|]; [|discriminate].
      destruct (IHa x eq_refl) as [Rx Mx]. destruct (IHb y eq_refl) as [Ry My]. cbn [type_of].
      destruct (is_arith o) eqn:Ao; [|destruct (is_shift o) eqn:So].
      * split; [apply (eval_bin_arith_range o _ _ _ v (uac_not_bool _ _) (conv_range _ x) (conv_range _ y) H)|].
        rewrite (m_eval_binop o a b (or_introl Ao)). cbv zeta. rewrite !m_type_is_c11, m_common_is_uac.
        rewrite (cast_ok a x _ Mx Rx), (cast_ok b y _ My Ry). cbn [fbind].
        apply binop_arith_ok; auto using uac_not_bool, conv_range.
      * split; [apply (eval_shift_range o _ x y v (promote_range _ _ Rx) H)|].
        rewrite (m_eval_shift o a b So). cbn [m_type]. rewrite Ao, So. cbv zeta. rewrite m_type_is_c11, m_promote.
        rewrite (promote_ok a x Mx Rx). cbn [fbind]. rewrite My. cbn [fbind].
        apply shift_ok; auto using promote_not_bool, promote_range.
      * injection H as <-. split; [apply cmp_range|].
        rewrite (m_eval_binop o a b (or_intror (other_is_cmp o N1 N2 Ao So))). cbv zeta. rewrite !m_type_is_c11, m_common_is_uac.
        rewrite (cast_ok a x _ Mx Rx), (cast_ok b y _ My Ry). cbn [fbind].
        apply binop_cmp_ok; auto using conv_range, other_is_cmp.
  - cbn [eval] in H. destruct (eval a) as [x|]; [|discriminate]. injection H as <-. destruct (IH x eq_refl) as [Rx Mx].
    split; [apply conv_range|apply cast_ok; assumption].
  - cbn [eval] in H. destruct (eval c) as [x|]; [|discriminate]. destruct (IHc x eq_refl) as [Rx Mx].
    cbn [type_of m_eval m_type]. rewrite Mx. cbn [fbind]. rewrite (wrap64_zero_iff _ x Rx), !m_type_is_c11, m_common_is_uac.
    destruct (x =? 0); cbn [negb] in *.
    + destruct (eval b) as [y|]; [|discriminate]. injection H as <-. destruct (IHb y eq_refl) as [Ry My].
      split; [apply conv_range|apply cast_ok; assumption].
    + destruct (eval a) as [y|]; [|discriminate]. injection H as <-. destruct (IHa y eq_refl) as [Ry My].
      split; [apply conv_range|apply cast_ok; assumption].
  - cbn [eval] in H. destruct (eval a) as [x|]; [|discriminate]. exact (IHb v H).
Qed.

Lemma range_eval e v : eval e = Some v -> in_range (type_of e) v = true.
Proof. intros H. apply (fold_range e v H). Qed.

Theorem fold_is_c11 : forall e v, eval e = Some v -> m_eval e = Val (wrap64 v).
Proof. intros e v H. apply (fold_range e v H). Qed.

(* the powers of two that bound the nine types, written out *)
Lemma pow_consts : 2 ^ 1 = 2 /\ 2 ^ 7 = 128 /\ 2 ^ 8 = 256 /\ 2 ^ 15 = 32768 /\ 2 ^ 16 = 65536 /\ 2 ^ 31 = 2147483648 /\
  2 ^ 32 = 4294967296 /\ 2 ^ 63 = 9223372036854775808 /\ 2 ^ 64 = 18446744073709551616 /\ 2 ^ 0 = 1.
Proof. repeat split; reflexivity. Qed.
