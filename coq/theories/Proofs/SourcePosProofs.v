From Chibicc Require Import Base.Mach Model.Lexer Model.Phases Model.SourcePos Proofs.PhasesProofs.
Local Open Scope N_scope.

Section P.
Variable pt : list (list N).

Lemma lex_pos_erase : forall f p bol sp,
  match lex_pos pt f p bol sp with
  | Some l => lex pt f p bol sp = LexOk (map fst l)
  | None => lex pt f p bol sp = LexErr
  end.
Proof.
  induction f as [|f IH]; intros p bol sp; cbn [lex_pos lex].
  - destruct p; reflexivity.
  - destruct p as [|c r]; [reflexivity|].
    destruct (starts_with (c :: r) [47; 47]); [apply IH|].
    destruct (starts_with (c :: r) [47; 42]).
    { destruct (skip_block_comment (skipn 2 (c :: r))); [apply IH|reflexivity]. }
    destruct (c =? 10); [apply IH|]. destruct (is_space c); [apply IH|].
    destruct (first_token pt (c :: r)) as [[k n]|]; [|reflexivity].
    specialize (IH (skipn n (c :: r)) false false).
    destruct (lex_pos pt f (skipn n (c :: r)) false false); rewrite IH; reflexivity.
Qed.

Lemma locate_sound s j ph k : locate s j = Some (ph, k) ->
  (line_at (phases12 s) j + k = ph)%nat.
Proof.
  unfold locate. destruct (nth_error (splice_idx 0 0 (canon s)) j) as [[b [[i k']|]]|] eqn:E1; try discriminate.
  destruct (nth_error (canon_idx 0 s) i) as [[b' o]|] eqn:E2; try discriminate.
  destruct (b =? b') eqn:Eb; try discriminate. apply N.eqb_eq in Eb. subst b'.
  intros H. injection H as <- <-. eapply phases_line_lag; eassumption.
Qed.

Lemma annotate_sound s l : forall r, annotate s (phases12 s) l = Some r ->
  forall tp, In tp r -> (tp_line tp + tp_pending tp = tp_phys tp)%nat.
Proof.
  induction l as [|[t rest] l IH]; cbn [annotate]; intros r H tp Hin.
  - injection H as <-. destruct Hin.
  - destruct (locate s (length (phases12 s) - rest)) as [[ph k]|] eqn:El; try discriminate.
    destruct (annotate s (phases12 s) l) as [r'|]; try discriminate. injection H as <-.
    destruct Hin as [<-|Hin]; [|eapply IH; [reflexivity|exact Hin]].
    cbn [tp_line tp_pending tp_phys]. apply locate_sound. exact El.
Qed.

(* the line number of every token, plus the splices pending at its first byte, is the physical
   line of that byte in the loaded file *)
Theorem token_lines_sound file l : token_lines pt file = Some l ->
  forall tp, In tp l -> (tp_line tp + tp_pending tp = tp_phys tp)%nat.
Proof.
  unfold token_lines. destruct (lex_pos pt _ _ true false); [|discriminate]. apply annotate_sound.
Qed.

Lemma annotate_toks s buf l : forall r, annotate s buf l = Some r -> map tp_tok r = map fst l.
Proof.
  induction l as [|[t rest] l IH]; cbn [annotate]; intros r H.
  - injection H as <-. reflexivity.
  - destruct (locate s _) as [[ph k]|]; try discriminate.
    destruct (annotate s buf l) as [r'|]; try discriminate. injection H as <-.
    cbn [map tp_tok fst]. f_equal. apply IH. reflexivity.
Qed.

Theorem token_lines_tokens file l : token_lines pt file = Some l ->
  tokenize pt (phases12 (load file)) = LexOk (map tp_tok l).
Proof.
  unfold token_lines, tokenize. pose proof (lex_pos_erase (S (length (phases12 (load file)))) (phases12 (load file)) true false) as He.
  destruct (lex_pos pt _ _ true false) as [l0|]; [|discriminate]. intros H. rewrite He. f_equal. symmetry. eapply annotate_toks. exact H.
Qed.
End P.

Lemma terms_before_app s t i : (i < length s)%nat -> terms_before (s ++ t) i = terms_before s i.
Proof.
  revert i; induction s as [|c r IH]; intros i Hi; [cbn in Hi; lia|].
  destruct i as [|i]; [reflexivity|]. cbn [app terms_before]. cbn [length] in Hi.
  rewrite IH by lia. f_equal. unfold ends_line. destruct r as [|d r']; [cbn in Hi; lia|]. reflexivity.
Qed.

(* the final new-line added by read_file moves no line *)
Theorem terminate_lines s i : (i < length s)%nat -> phys_line (terminate s) i = phys_line s i.
Proof.
  intros Hi. assert (E : terminate s = s \/ terminate s = s ++ [10]).
  { (* 10 is 1010 in binary: four binary digits of the last byte decide the match *)
    unfold terminate. destruct (rev s) as [|[|p] ?]; auto. do 4 (destruct p as [p|p|]; auto). }
  unfold phys_line. destruct E as [-> | ->]; [reflexivity|]. rewrite terms_before_app by exact Hi. reflexivity.
Qed.
