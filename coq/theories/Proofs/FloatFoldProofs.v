(* The floating constant folder (Model/FloatFold.v) against C11 (Spec/C11Float.v), node by node: every + - * / node of type
   float / double, the unary minus, every conversion INTO float / double (from float, double and every integer type, incl.
   the (unsigned long) route) and the truth test deliver the C11 value up to the choice of NaN, given operands that are
   carried exactly by the host's long double.  Whole trees: Proofs/FloatFoldTree.v. *)
From Coq Require Import ZArith Reals Bool List Lia.
From Flocq Require Import Core Binary Bits.
From Chibicc Require Import Spec.C11Int Spec.C11Float Spec.C11LDouble Model.ConstFold Proofs.ConstFoldProofs
     Model.X86Sse Model.FloatGen Model.FloatFold Proofs.X86SseProofs Proofs.FloatRoundProofs Proofs.FloatOpsProofs Proofs.FloatFoldConv.
Local Open Scope Z_scope.

(* the folder's result h carries the value v: an integer as the int64_t it wraps to, a float / double in a long double *)
Definition hmatch (v : val) (h : hv) : Prop :=
  match v, h with
  | VI z, HI z' => z' = wrap64 z
  | VS x, HF y => feq y (l_of_fp x)
  | VD x, HF y => feq y (l_of_fp x)
  | _, _ => False
  end.

Lemma carried_s y (x : binary32) : feq y (l_of_fp x) -> feq (s_of_l y) x.
Proof. intros H. eapply feq_trans; [apply s_of_l_feq; exact H|apply s_of_l_of_fp]. Qed.
Lemma carried_d y (x : binary64) : feq y (l_of_fp x) -> feq (d_of_l y) x.
Proof. intros H. eapply feq_trans; [apply d_of_l_feq; exact H|apply d_of_l_of_fp]. Qed.

(* the tail of eval_double changes nothing on a value of the node's type *)
Lemma round_to_s y (x : binary32) : feq y (l_of_fp x) -> feq (round_to TF32 y) (l_of_fp x).
Proof. intros H. apply l_of_fp_feq, carried_s, H. Qed.
Lemma round_to_d y (x : binary64) : feq y (l_of_fp x) -> feq (round_to TF64 y) (l_of_fp x).
Proof. intros H. apply l_of_fp_feq, carried_d, H. Qed.

Lemma h_arith_s o l r : h_arith TF32 o l r = option_map l_of_fp (arith_s o (s_of_l l) (s_of_l r)).
Proof. destruct o; reflexivity. Qed.
Lemma h_arith_d o l r : h_arith TF64 o l r = option_map l_of_fp (arith_d o (d_of_l l) (d_of_l r)).
Proof. destruct o; reflexivity. Qed.

Theorem arith_node_correct t o x y w hx hy : is_fp t = true -> is_arith o = true ->
  hmatch x (HF hx) -> hmatch y (HF hy) -> val_ok t x = true -> val_ok t y = true ->
  eval_common o t x y = Some w ->
  exists r, h_arith t o hx hy = Some r /\ hmatch w (HF (round_to t r)).
Proof.
  intros Ft Ao Hx Hy Vx Vy H. destruct t as [it| |]; [discriminate Ft| |].
  - destruct x as [?|a|?]; try discriminate Vx. destruct y as [?|b|?]; try discriminate Vy. cbn [hmatch] in Hx, Hy.
    cbn [eval_common] in H. rewrite Ao, arith_s_fop in H. rewrite h_arith_s, arith_s_fop.
    destruct (fop_of o) as [f|]; [|discriminate]. injection H as <-. eexists. split; [reflexivity|].
    cbn [hmatch]. apply round_to_s, l_of_fp_feq, barith_feq; apply carried_s; assumption.
  - destruct x as [?|?|a]; try discriminate Vx. destruct y as [?|?|b]; try discriminate Vy. cbn [hmatch] in Hx, Hy.
    cbn [eval_common] in H. rewrite Ao, arith_d_fop in H. rewrite h_arith_d, arith_d_fop.
    destruct (fop_of o) as [f|]; [|discriminate]. injection H as <-. eexists. split; [reflexivity|].
    cbn [hmatch]. apply round_to_d, l_of_fp_feq, barith_feq; apply carried_d; assumption.
Qed.

Theorem neg_node_correct t x w hx : is_fp t = true -> hmatch x (HF hx) -> val_ok t x = true ->
  eval_unary Neg t x = Some w -> hmatch w (HF (round_to t (opp_l hx))).
Proof.
  intros Ft Hx Vx H. destruct t as [it| |]; [discriminate Ft| |].
  - destruct x as [?|a|?]; try discriminate Vx. cbn [eval_unary] in H. injection H as <-. cbn [hmatch] in *.
    apply round_to_s. eapply feq_trans; [apply (opp_l_feq _ _ Hx)|].
    apply (opp_carried 24 128 eq_refl ltac:(lia) ltac:(lia)).
  - destruct x as [?|?|a]; try discriminate Vx. cbn [eval_unary] in H. injection H as <-. cbn [hmatch] in *.
    apply round_to_d. eapply feq_trans; [apply (opp_l_feq _ _ Hx)|].
    apply (opp_carried 53 1024 eq_refl ltac:(lia) ltac:(lia)).
Qed.

Lemma as_ld_int f z : in_range f z = true -> as_ld (TI f) (HI (wrap64 z)) = l_of_int z /\ Z.abs z < 2 ^ 64.
Proof.
  intros Hr. pose proof (in_range_bounds f z Hr) as B. unfold M64 in B. split; [|change (2 ^ 64) with 18446744073709551616; lia].
  cbn [as_ld]. destruct (m_unsigned f) eqn:U.
  - rewrite (u64_unsigned f z); [reflexivity|destruct f; try discriminate U; reflexivity|exact Hr].
  - rewrite (wrap_small f z); [reflexivity|intros ->; discriminate U|exact Hr].
Qed.

Theorem cast_to_fp_correct from t v w h : is_fp t = true -> val_ok from v = true -> hmatch v h -> convert t v = Some w ->
  exists h', h_cast from t h = Some h' /\ hmatch w h'.
Proof.
  intros Ft Vv Hm Hc. exists (HF (round_to t (as_ld from h))). split; [destruct t; [discriminate Ft|reflexivity..]|].
  destruct t as [it| |]; [discriminate Ft| |]; destruct v as [z|x|x], h as [z'|y]; try contradiction;
    injection Hc as <-; cbn [hmatch as_ld round_to] in *.
  - destruct from as [f| |]; try discriminate Vv. subst z'. destruct (as_ld_int f z Vv) as [E B]. cbn [as_ld] in E.
    rewrite E, (s_of_l_of_int z B). apply feq_refl.
  - apply round_to_s, Hm.
  - apply l_of_fp_feq. eapply feq_trans; [apply s_of_l_feq; exact Hm|apply s_of_l_of_d].
  - destruct from as [f| |]; try discriminate Vv. subst z'. destruct (as_ld_int f z Vv) as [E B]. cbn [as_ld] in E.
    rewrite E, (d_of_l_of_int z B). apply feq_refl.
  - apply l_of_fp_feq. eapply feq_trans; [apply d_of_l_feq; exact Hm|apply d_of_l_of_s].
  - apply round_to_d, Hm.
Qed.

Theorem truth_correct v h : (exists t, is_fp t = true /\ val_ok t v = true) -> hmatch v h -> h_truth h = truth v.
Proof.
  intros (t & Ft & Vv) Hm. destruct t as [it| |]; [discriminate Ft| |].
  - destruct v as [?|x|?]; try discriminate Vv. destruct h as [?|y]; [contradiction|]. cbn [hmatch h_truth truth] in *.
    rewrite (is_zero_feq _ _ Hm), (is_zero_carried 24 128 eq_refl ltac:(lia) ltac:(lia)). reflexivity.
  - destruct v as [?|?|x]; try discriminate Vv. destruct h as [?|y]; [contradiction|]. cbn [hmatch h_truth truth] in *.
    rewrite (is_zero_feq _ _ Hm), (is_zero_carried 53 1024 eq_refl ltac:(lia) ltac:(lia)). reflexivity.
Qed.

(* the root: write_gvar_data converts a floating initializer of an integer object to the object's type (C11 6.7.9p11) *)
Definition d_1_8e19 : binary64 := b64_of_bits 4895194658196988160.       (* 1.8e19 *)
(* `static unsigned long x = 1.8e19;`: with the cast of /repo 3687651 the folder stores the C11 value (0x8000000000000000 without it) *)
Example static_u64_witness :
  feval (fun _ => VI 0) (FLitD d_1_8e19) = Some (VD d_1_8e19) /\
  convert (TI U64) (VD d_1_8e19) = Some (VI 18000000000000000000) /\
  static_bits (TI U64) (FLitD d_1_8e19) = Some 18000000000000000000.
Proof. repeat split; vm_compute; reflexivity. Qed.
Example static_u64_with_cast : static_bits (TI U64) (FCast (TI U64) (FLitD d_1_8e19)) = Some 18000000000000000000.
Proof. vm_compute. reflexivity. Qed.
