(* mcomp_correct brought to the form C01_exprmem_correct states: any expression (prefix ++ / -- through desugar), its
   temporaries from index 0, fits derived from vars_in and temps_fit; and the boolean forms of the hypotheses, which
   the examples and tools/tie_exprmem.py evaluate. *)
From Coq Require Import ZArith Bool List Lia.
From Chibicc Require Import Base.Mach Spec.C11Int Spec.C11IntMem Model.X86Int Model.CodegenInt Gen.CastTable
     Model.ConstFold Proofs.ConstFoldProofs Proofs.CastTableProofs Proofs.CodegenIntProofs Model.ExprGen
     Model.ExprMem Proofs.ExprMemProofs Proofs.ExprMemCorrect Proofs.ExprMemIncDec.
Import ListNotations.
Local Open Scope Z_scope.

(* the frame holds the temporaries the parser creates for e: in creation order, of the right kinds *)
Definition temps_fit (F : frame) (e : mexpr) : Prop := kinds_at F 0 (temps_of (ftys F) e).

(* the kinds of the frame's temporaries start with those of e *)
Fixpoint kinds_prefixb (l ks : list tkind) : bool :=
  match l, ks with
  | [], _ => true
  | k :: l', k' :: ks' =>
    (match k, k' with TPtr, TPtr => true | TSaved a, TSaved b => ity_eqb a b | _, _ => false end) && kinds_prefixb l' ks'
  | _ :: _, [] => false
  end.
Definition temps_fitb (F : frame) (e : mexpr) : bool := kinds_prefixb (temps_of (ftys F) e) (map fst (ftemps F)).

Lemma ity_eqb_eq a b : ity_eqb a b = true -> a = b.
Proof. destruct a, b; intros H; try discriminate H; reflexivity. Qed.

Lemma kinds_prefixb_nth : forall l ks, kinds_prefixb l ks = true -> forall i k, nth_error l i = Some k -> nth_error ks i = Some k.
Proof.
  induction l as [|k0 l IH]; intros ks H i k Hi; [destruct i; discriminate Hi|].
  destruct ks as [|k' ks]; [discriminate H|]. cbn [kinds_prefixb] in H. apply andb_true_iff in H as [Hk Hl].
  destruct i as [|i]; cbn [nth_error] in *; [|exact (IH ks Hl i k Hi)].
  injection Hi as <-. destruct k0 as [|a], k' as [|b]; try discriminate Hk; [reflexivity|]. apply ity_eqb_eq in Hk. subst. reflexivity.
Qed.

Lemma kinds_at_frame F l : (forall i k, nth_error l i = Some k -> nth_error (map fst (ftemps F)) i = Some k) -> kinds_at F 0 l.
Proof.
  intros H i k Hi. apply H in Hi. cbn [Nat.add]. split.
  - unfold ntmps. rewrite <- (map_length fst). apply nth_error_Some. rewrite Hi. discriminate.
  - unfold tkind_at. rewrite <- (map_nth fst (ftemps F) (TPtr, 0) i). apply nth_error_nth. exact Hi.
Qed.

Lemma kinds_at_bound F n l : kinds_at F n l -> (n <= ntmps F)%nat -> (n + length l <= ntmps F)%nat.
Proof.
  intros H Hn. destruct l as [|k0 l]; [cbn [length]; lia|].
  destruct (nth_error (k0 :: l) (length l)) as [k|] eqn:E.
  - destruct (H _ _ E) as [Hb _]. cbn [length]. lia.
  - apply nth_error_None in E. cbn [length] in E. lia.
Qed.

Theorem mcompile_correct : forall F e env v env',
  wf_frame F -> vars_in (nvars F) e = true -> temps_fit F e ->
  meval (ftys F) env e = Some (v, env') ->
  forall s k m, agree F env m ->
  exists s' m', mrun (frbp F) (mcompile F e) (s, k, m) = Some (s', k, m') /\
                R (mtype (ftys F) e) v (rax s') /\ agree F env' m' /\ unchanged_outside F m m'.
Proof.
  intros F e env v env' WF Hv Ht H s k m Ha. unfold mcompile.
  rewrite <- (desugar_meval (ftys F) e env) in H.
  destruct (mcomputes_touch F (mcomp_correct F WF _ env v env' H 0%nat (fits_desugar F e 0%nat Hv Ht)) s k m Ha) as (s' & m' & E & HR & Ha' & Htouch).
  exists s', m'. split; [exact E|]. split; [rewrite <- (desugar_type (ftys F) e); exact HR|]. split; [exact Ha'|].
  apply (touch_mono Htouch); [lia|]. rewrite (proj1 (desugar_keeps (ftys F) e)), <- (temps_of_length (ftys F) e). apply kinds_at_bound; [exact Ht|lia].
Qed.

(* a checkable form of agree, for examples *)
Definition agreeb (F : frame) (env : venv) (m : mem) : bool :=
  Nat.eqb (length env) (nvars F) &&
  forallb (fun x => in_range (vty (ftys F) x) (vget env x) &&
                    (load_le m (vaddr F x) (nbytes (vty (ftys F) x)) =? urepr (vty (ftys F) x) (vget env x))) (seq 0 (nvars F)).
Lemma agreeb_sound F env m : agreeb F env m = true -> agree F env m.
Proof.
  unfold agreeb. intros H. apply andb_true_iff in H as [H1 H2]. apply Nat.eqb_eq in H1. split; [exact H1|].
  intros x Hx. apply (forallb_seq _ _ x) in H2; [|exact Hx]. apply andb_true_iff in H2 as [A B]. apply Z.eqb_eq in B. auto.
Qed.

(* a memory that agrees with a store: write every variable *)
Fixpoint init_mem (F : frame) (env : venv) (n : nat) (m : mem) : mem :=
  match n with
  | O => m
  | S k => store_le (init_mem F env k m) (vaddr F k) (nbytes (vty (ftys F) k)) (vget env k)
  end.
