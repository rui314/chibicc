(* The x87 code gen_expr emits for long double trees (Model/LDoubleGen.v) computes the value of Spec/C11LDouble.v:
   the tree's value ends on top of the register stack with everything below it, the integer / SSE registers'
   stack and the x87 depth discipline intact; comparisons, !, and the conversions out of long double deliver the
   C11 result.  The long double on the register stack is the C11 value itself: the x87 model and the specification take
   the same NaN, and a NaN of an SSE operand becomes that one on the way in (X86SseProofs.l_of_fp_eq); what leaves for %xmm0 is equal up
   to the choice of NaN, as everywhere on the SSE side.  As for float / double the arithmetic is Flocq's on both
   sides; proved here: operand order on the register stack (fsubrp / fdivrp / fcomip), the flag decoding, the rows
   of the cast table into and out of long double (the unsigned 64-bit ones from Flocq's real-number specifications),
   and that at most 8 registers are used when the tree needs at most 8. *)
From Coq Require Import ZArith Reals Bool List Lia.
From Flocq Require Import Core Binary Bits.
From Chibicc Require Import Base.Mach Spec.C11Int Spec.C11Float Spec.C11LDouble Model.X86Int Model.CodegenInt Gen.CastTable
     Model.ConstFold Proofs.ConstFoldProofs Proofs.CastTableProofs Proofs.CodegenIntProofs
     Model.X86Sse Model.FloatGen Model.FloatFlat Model.X87 Model.LDoubleGen
     Proofs.X86SseProofs Proofs.FloatRoundProofs Proofs.X86SseRowsProofs Proofs.FloatOpsProofs Proofs.FloatGenProofs.
Local Open Scope Z_scope.

Lemma arith80_spec o f x y : fop_of o = Some f -> arith_l o x y = Some (arith80 f x y).
Proof. destruct o; try discriminate; intros [= <-]; reflexivity. Qed.

Section Rows.
Variable mem : Z -> Z.
Variable lmem : Z -> binary80.

Lemma lexec_LS p : forall s m', sexec mem p (ms s) = Some m' -> lexec mem lmem (map LS p) s = Some (with_ms s m').
Proof.
  induction p as [|i p IH]; intros s m' H; cbn [map lexec sexec] in *.
  - injection H as <-. destruct s; reflexivity.
  - cbn [lexec1]. destruct (sexec1 mem i (ms s)) as [m1|]; [|discriminate].
    rewrite (IH (with_ms s m1) m' H). reflexivity.
Qed.
Lemma lexec_app p q s : lexec mem lmem (p ++ q) s = match lexec mem lmem p s with Some s' => lexec mem lmem q s' | None => None end.
Proof. revert s. induction p as [|i p IH]; intros s; cbn [app lexec]; [reflexivity|]. destruct (lexec1 mem lmem i s); [apply IH|reflexivity]. Qed.
Lemma lexec_one i s : lexec mem lmem [i] s = lexec1 mem lmem i s.
Proof. cbn [lexec]. destruct (lexec1 mem lmem i s); reflexivity. Qed.

(* a push on a register stack with a free place; s0 is s up to the machine registers *)
Lemma push_ok s s0 x : (length (st87 s) < 8)%nat -> st87 s0 = st87 s ->
  exists m', push87 s0 x = Some {| st87 := x :: st87 s; ms := m' |}.
Proof.
  intros Hd E. unfold push87. rewrite E. destruct (Nat.ltb_spec (length (st87 s)) 8); [|lia].
  eexists. reflexivity.
Qed.

(* unsigned long from 2^63 on: fildq reads it as negative, and adding 2^64 back (two64_l, the float 0x5f800000 as fadds
   loads it: mantissa 2^63 at exponent 1) is exact, all three numbers being long doubles *)
Lemma u64_high z : 2 ^ 63 <= z < 2 ^ 64 -> arith80 FAdd (l_of_int (z - 2 ^ 64)) two64_l = l_of_int z.
Proof.
  intros C. change (2 ^ 64) with (2 * 2 ^ 63) in C.
  destruct (l_of_int_exact (z - 2 ^ 64)) as (A1 & A2 & _); [change (2 ^ 64) with (2 * 2 ^ 63); lia|].
  destruct (const_val two64_l (2 ^ 63) 1 (2 ^ 64)) as (B2 & B1); [reflexivity|discriminate|reflexivity|].
  destruct (l_of_int_exact z) as (C1 & C2 & C3); [change (2 ^ 64) with (2 * 2 ^ 63); lia|].
  apply Bplus_exact_pos; try assumption.
  - rewrite C3. apply Z.ltb_ge. lia.
  - rewrite A1, B1, C1, <- plus_IZR, Z.sub_add. reflexivity.
  - rewrite C1. apply IZR_lt. lia.
Qed.

Lemma lcast_in_row t : lcast_in t =
  [LRowIn match t with
          | TI (IBool | U64) => InU64 | TI U32 => InU32 | TI I64 => InQ64 | TI _ => InL32
          | TF32 => InSS | TF64 => InSD
          end].
Proof. destruct t as [[]| |]; vm_compute; reflexivity. Qed.

(* the row of the cast table into long double: the value of any other arithmetic type arrives exactly *)
Lemma row_in_ok t v s : val_ok t v = true -> Rv t v (ms s) -> (length (st87 s) < 8)%nat ->
  exists m', lexec mem lmem (lcast_in t) s = Some {| st87 := l_of_val v :: st87 s; ms := m' |}.
Proof.
  intros Hv HR Hd. rewrite lcast_in_row, lexec_one. cbn [lexec1]. destruct t as [it| |].
  - destruct (val_ok_int it v Hv) as (z & -> & Hz). cbn [Rv l_of_val] in *. destruct it; cbn [row_in].
    (* _Bool and unsigned long: the unsigned 64-bit row *)
    1, 9: destruct (R_u64_exact _ z _ Hz HR) as [Er Rz]; [auto|]; rewrite Er; unfold reg64; rewrite (Z.mod_small z _ Rz);
          destruct (z <? 2 ^ 63) eqn:C;
          [apply push_ok; [exact Hd|reflexivity]
          |apply Z.ltb_ge in C; rewrite u64_high by lia; apply push_ok; [exact Hd|reflexivity]].
    1-5: rewrite (sgn32_val _ z _ Hz HR eq_refl); apply push_ok; [exact Hd|reflexivity].
    + rewrite (u32_val z _ Hz HR). apply push_ok; [exact Hd|reflexivity].
    + rewrite (sgn64_val z _ Hz HR). apply push_ok; [exact Hd|reflexivity].
  - destruct v as [?|x|?]; try discriminate Hv. cbn [l_of_val]. rewrite <- (l_of_fp_eq _ _ HR). apply push_ok; [exact Hd|reflexivity].
  - destruct v as [?|?|x]; try discriminate Hv. cbn [l_of_val]. rewrite <- (l_of_fp_eq _ _ HR). apply push_ok; [exact Hd|reflexivity].
Qed.
End Rows.

Section Value.
Variable mem : Z -> Z.
Variable lmem : Z -> binary80.
Variable rho : nat -> val.
Variable lrho : nat -> binary80.
Hypothesis Hmem : forall n, mem (addr_of n) = obj_bits (rho n).
Hypothesis Hlmem : forall n, lmem (addr_of n) = lrho n.

Lemma lrun_app p q st : lrun mem lmem (p ++ q) st = match lrun mem lmem p st with Some st' => lrun mem lmem q st' | None => None end.
Proof. revert st. induction p as [|i p IH]; intros st; cbn [app lrun]; [reflexivity|]. destruct (lrun1 mem lmem i st); [apply IH|reflexivity]. Qed.

Lemma lrun_LI p : forall s k s', lexec mem lmem p s = Some s' -> lrun mem lmem (map LI p) (s, k) = Some (s', k).
Proof.
  induction p as [|i p IH]; intros s k s' H; cbn [map lrun lexec] in *.
  - injection H as <-. reflexivity.
  - cbn [lrun1 fst snd]. destruct (lexec1 mem lmem i s) as [s1|]; [|discriminate]. apply IH. exact H.
Qed.

(* "the code pushes x": everything else of the x87 stack and the machine stack is as found *)
Definition pushes (c : list litem) (x : binary80) : Prop :=
  forall s k, exists x' m', lrun mem lmem c (s, k) = Some ({| st87 := x' :: st87 s; ms := m' |}, k) /\ feq x' x.

Theorem lcompile_correct : forall e x, leval rho lrho e = Some x ->
  forall s k, (length (st87 s) + lneed e <= 8)%nat ->
  exists m', lrun mem lmem (lcompile e) (s, k) = Some ({| st87 := x :: st87 s; ms := m' |}, k).
Proof.
  induction e as [c|n|e|a IHa|o a IHa b IHb]; intros x H s k Hd; cbn [leval lcompile lneed] in *.
  - injection H as <-. cbn [lrun lrun1 lexec1 fst snd].
    destruct (push_ok s (set_rax_l s (encode80 c / 2 ^ 64)) c ltac:(lia) eq_refl) as (m' & ->). exists m'. reflexivity.
  - injection H as <-. cbn [lrun lrun1 lexec1 fst snd]. rewrite Hlmem.
    destruct (push_ok s (set_rax_l s (addr_of n)) (lrho n) ltac:(lia) eq_refl) as (m' & ->). exists m'. reflexivity.
  - (* an operand of another type: its code, then the row into long double *)
    destruct (feval rho e) as [v|] eqn:Ev; [|discriminate]. injection H as <-.
    destruct (compile_correct mem rho Hmem e v Ev (ms s) k) as (m1 & E1 & R1).
    cbn [lrun lrun1 fst snd]. rewrite E1. rewrite mf_type_is_c11.
    destruct (row_in_ok mem lmem (ftype_of e) v (with_ms s m1) (feval_ok rho e v Ev) R1 ltac:(cbn [st87 with_ms]; lia)) as (m' & E2).
    rewrite (lrun_LI _ _ k _ E2). exists m'. reflexivity.
  - (* unary minus: fchs *)
    destruct (leval rho lrho a) as [xa|] eqn:Ea; [|discriminate]. injection H as <-.
    destruct (IHa xa eq_refl s k Hd) as (m' & E1).
    rewrite lrun_app, E1. cbn [lrun lrun1 lexec1 fst snd st87 ms]. eexists. reflexivity.
  - (* lhs, then rhs above it; the operator combines st(1) op st(0) *)
    destruct (leval rho lrho a) as [xa|] eqn:Ea; [|discriminate]. destruct (leval rho lrho b) as [xb|] eqn:Eb; [|discriminate].
    destruct (IHa xa eq_refl s k ltac:(lia)) as (m1 & E1).
    rewrite lrun_app, E1.
    destruct (IHb xb eq_refl {| st87 := xa :: st87 s; ms := m1 |} k ltac:(cbn [st87 length]; lia)) as (m2 & E2).
    rewrite lrun_app, E2. cbn [st87].
    destruct (fop_of o) as [f|] eqn:Fo; [|destruct o; discriminate].
    rewrite (arith80_spec o f xa xb Fo) in H. injection H as <-.
    cbn [lrun lrun1 lexec1 fst snd st87 ms]. eexists. reflexivity.
Qed.
End Value.

(* fistp under truncation stores the integral part, two's complement, when it fits the destination *)
Lemma fist_val n x z : int_part x = Some z -> - 2 ^ (n - 1) <= z < 2 ^ (n - 1) -> fist n x = z mod 2 ^ n.
Proof.
  intros I Hz. unfold fist. rewrite I.
  assert (C : (- 2 ^ (n - 1) <=? z) && (z <? 2 ^ (n - 1)) = true) by (apply andb_true_intro; split; [apply Z.leb_le|apply Z.ltb_lt]; lia).
  rewrite C. reflexivity.
Qed.
(* into a cell of the signed type w (n bits) it stores every value of a type all of whose values w has *)
Lemma fist_in w t n x z : width w = n -> is_signed w = true -> represents_all w t = true ->
  int_part x = Some z -> in_range t z = true -> fist n x = z mod 2 ^ n.
Proof. intros <- Hs Hw I Hz. apply (fist_val _ x z I), (range_signed w z Hs), (in_range_sub w t z Hw Hz). Qed.

(* it is cvttsd2si's conversion on the 80-bit format *)
Lemma fist_cvtt w (x : binary80) : cvtt w x = fist (bits w) x.
Proof. destruct x; reflexivity. Qed.

Lemma two63_l_val : is_finite 64 16384 two63_l = true /\ B2R 64 16384 two63_l = IZR (2 ^ 63).
Proof. destruct (l_of_int_exact (2 ^ 63) eq_refl) as (A & B & _). split; assumption. Qed.

Section Consumers.
Variable mem : Z -> Z.
Variable lmem : Z -> binary80.

Lemma lcmp_code_setcc o : (o = OEq \/ o = ONe \/ o = OLt \/ o = OLe) ->
  lcmp_code o = LCompare false :: LFstp0 :: map LS (setcc o ++ [SI IMovzbRax]).
Proof. intros [-> | [-> | [-> | ->]]]; reflexivity. Qed.

(* fcomip; fstp %st(0); setcc; movzb : with lhs below rhs on the register stack *)
Lemma lcmp_code_ok o x y s r : (o = OEq \/ o = ONe \/ o = OLt \/ o = OLe) ->
  st87 s = y :: x :: r ->
  exists m', lexec mem lmem (lcmp_code o) s = Some {| st87 := r; ms := m' |} /\ Rv (TI I32) (VI (cmp_l o x y)) m'.
Proof.
  intros Ho Hs. rewrite (lcmp_code_setcc o Ho). cbn [lexec lexec1]. rewrite Hs.
  destruct (setcc_ok mem o (Bcompare 64 16384 y x) [SI IMovzbRax] (ms s) Ho) as (m2 & E & A).
  rewrite <- compopp_swap, fcmp_b2z in A.
  eexists. split; [apply (lexec_LS mem lmem _ {| st87 := r; ms := _ |}); cbn [ms]; rewrite E; reflexivity|].
  unfold cmp_l. rewrite fcmp_b2z. apply R_b2z, A.
Qed.

Lemma l_cmp_zero_ok x s r : st87 s = x :: r -> (length r + 1 < 8)%nat ->
  exists m', lexec mem lmem l_cmp_zero s = Some {| st87 := r; ms := m' |} /\ f_zf (ix m') = is_zero x.
Proof.
  intros Hs Hd.
  destruct (zero_flag_ok mem (Bcompare 64 16384 (B754_zero 64 16384 false) x) (ms s)) as (m2 & E & Z).
  exists m2. split.
  - change l_cmp_zero with ([LFldz; LCompare true; LFstp0] ++ map LS (setcc OEq ++ [SCmp1Al])). rewrite lexec_app.
    cbn [lexec lexec1]. unfold push87. rewrite Hs. cbn [length]. destruct (Nat.ltb_spec (S (length r)) 8); [|lia].
    cbn [st87 ms]. apply (lexec_LS mem lmem _ {| st87 := r; ms := _ |}), E.
  - rewrite Z, compopp_swap. unfold is_zero.
    destruct (Bcompare 64 16384 x (B754_zero 64 16384 false)) as [[]|]; reflexivity.
Qed.

Lemma lcast_out_row t : t <> TI IBool -> lcast_out t =
  [LRowOut match t with
           | TI (IBool | I8) => OutI8 | TI U8 => OutU8 | TI I16 => OutI16 | TI U16 => OutU16 | TI I32 => OutI32
           | TI U32 => OutU32 | TI I64 => OutI64 | TI U64 => OutU64 | TF32 => OutSS | TF64 => OutSD
           end].
Proof. intros N. destruct t as [[]| |]; try congruence; vm_compute; reflexivity. Qed.

Lemma rax_l_ok t z v r m : R t z v ->
  exists m', Some (set_rax_l {| st87 := r; ms := m |} v) = Some {| st87 := r; ms := m' |} /\ Rv (TI t) (VI z) m'.
Proof. intros H. eexists. split; [reflexivity|exact H]. Qed.

(* the rows of the cast table out of long double, and the _Bool path: fistp of 16, 32 or 64 bits, then the load that
   narrows or extends the stored integer to the type *)
Lemma lcast_out_ok t x v s r : convert_l t x = Some v -> st87 s = x :: r -> (length r + 1 < 8)%nat ->
  exists m', lexec mem lmem (lcast_out t) s = Some {| st87 := r; ms := m' |} /\ Rv t v m'.
Proof.
  intros Hc Hs Hd. destruct t as [it| |].
  - destruct (ity_eqb it IBool) eqn:Eb.
    + assert (it = IBool) as -> by (destruct it; try discriminate; reflexivity). cbn [convert_l] in Hc. injection Hc as <-.
      change (lcast_out (TI IBool)) with (l_cmp_zero ++ map LS [SI (ISet CNE); SI IMovzxEax]).
      rewrite lexec_app. destruct (l_cmp_zero_ok x s r Hs Hd) as (m1 & -> & Z1).
      destruct (setne_movzx mem m1) as (m2 & E2 & A2).
      exists m2. split; [apply (lexec_LS mem lmem _ {| st87 := r; ms := m1 |}); exact E2|].
      apply Rbool_b2z. rewrite A2, Z1. reflexivity.
    + assert (Hc' : to_int it (int_part x) = Some v) by (destruct it; try discriminate Eb; exact Hc).
      destruct (to_int_some _ _ _ Hc') as (z & I & Hin & ->).
      rewrite lcast_out_row, lexec_one by (intros [= ->]; discriminate). cbn [lexec1]. unfold row_out. rewrite Hs.
      destruct it; try discriminate Eb.
      * rewrite (fist_in I16 I8 16 x z eq_refl eq_refl eq_refl I Hin). apply rax_l_ok, (R_sx_low I8 16 z eq_refl eq_refl eq_refl Hin).
      * rewrite (fist_in I16 U8 16 x z eq_refl eq_refl eq_refl I Hin). apply rax_l_ok, (R_zx_low U8 16 z eq_refl eq_refl Hin).
      * rewrite (fist_in I16 I16 16 x z eq_refl eq_refl eq_refl I Hin). apply rax_l_ok, (R_sx_low I16 16 z eq_refl eq_refl eq_refl Hin).
      * rewrite (fist_in I32 U16 32 x z eq_refl eq_refl eq_refl I Hin). apply rax_l_ok, (R_zx_low U16 32 z eq_refl eq_refl Hin).
      * rewrite (fist_in I32 I32 32 x z eq_refl eq_refl eq_refl I Hin). apply rax_l_ok, (R_lo32 I32); [exact Hin|reflexivity].
      * rewrite (fist_in I64 U32 64 x z eq_refl eq_refl eq_refl I Hin). apply rax_l_ok, (R_zx_low U32 64 z eq_refl eq_refl Hin).
      * rewrite (fist_in I64 I64 64 x z eq_refl eq_refl eq_refl I Hin). apply rax_l_ok, (R_imm I64 z (ix (ms s)) Hin).
      * (* unsigned long: the branching row, by the argument that serves cvttss2si / cvttsd2si *)
        unfold binary80 in *. match goal with |- context [Nat.ltb ?a 8] => replace (Nat.ltb a 8) with true by (symmetry; apply Nat.ltb_lt; cbn [length]; lia) end.
        destruct two63_l_val as [FK VK].
        destruct (cvtt_u64 64 16384 prec80 emax80 (fun _ _ => nan80) x two63_l z FK VK eq_refl I (u64_range z Hin)) as (c & CC & Rc).
        rewrite !fist_cvtt in Rc. cbn [bits] in Rc. rewrite (compopp_swap x two63_l), CC.
        destruct c; cbn [option_map CompOpp]; apply rax_l_ok; unfold arith80; rewrite Rc; apply (R_self U64 z Hin eq_refl).
  - cbn [convert_l] in Hc. injection Hc as <-. rewrite lcast_out_row, lexec_one by discriminate. cbn [lexec1]. unfold row_out. rewrite Hs.
    eexists. split; [reflexivity|]. cbn [Rv with_ms ms with_x0 x0]. rewrite f32_bits_lane. apply feq_refl.
  - cbn [convert_l] in Hc. injection Hc as <-. rewrite lcast_out_row, lexec_one by discriminate. cbn [lexec1]. unfold row_out. rewrite Hs.
    eexists. split; [reflexivity|]. cbn [Rv with_ms ms with_x0 x0]. rewrite f64_put. apply feq_refl.
Qed.
End Consumers.

Section Whole.
Variable mem : Z -> Z.
Variable lmem : Z -> binary80.
Variable rho : nat -> val.
Variable lrho : nat -> binary80.
Hypothesis Hmem : forall n, mem (addr_of n) = obj_bits (rho n).
Hypothesis Hlmem : forall n, lmem (addr_of n) = lrho n.

Lemma cmp_l_swap x y : cmp_l OLt y x = cmp_l OGt x y /\ cmp_l OLe y x = cmp_l OGe x y.
Proof. unfold cmp_l. rewrite (compopp_swap x y). destruct (Bcompare 64 16384 x y) as [[]|]; split; reflexivity. Qed.

(* two operands on the register stack, then the compare of one of == != < <= ; either may be the one computed second
   (> and >= exchange them), above the other's value: one register beyond the larger need *)
Lemma lcmp_pair_ok o a b xa xb :
  leval rho lrho a = Some xa -> leval rho lrho b = Some xb -> (o = OEq \/ o = ONe \/ o = OLt \/ o = OLe) ->
  forall s k, (length (st87 s) + Nat.max (lneed a) (lneed b) + 1 <= 8)%nat ->
  exists m', lrun mem lmem (lcompile a ++ lcompile b ++ map LI (lcmp_code o)) (s, k) = Some ({| st87 := st87 s; ms := m' |}, k) /\
             Rv (TI I32) (VI (cmp_l o xa xb)) m'.
Proof.
  intros Ea Eb Ho s k Hd.
  destruct (lcompile_correct mem lmem rho lrho Hmem Hlmem a xa Ea s k ltac:(lia)) as (m1 & E1).
  rewrite lrun_app, E1.
  destruct (lcompile_correct mem lmem rho lrho Hmem Hlmem b xb Eb {| st87 := xa :: st87 s; ms := m1 |} k ltac:(cbn [st87 length]; lia)) as (m2 & E2).
  rewrite lrun_app, E2. cbn [st87].
  destruct (lcmp_code_ok mem lmem o xa xb {| st87 := xb :: xa :: st87 s; ms := m2 |} (st87 s) Ho eq_refl) as (m3 & E3 & R3).
  exists m3. split; [apply lrun_LI; exact E3|exact R3].
Qed.

(* a == b, a != b, a < b, a <= b, a > b, a >= b on long double operands: the int result in %rax, the register stack as found *)
Theorem lcmp_correct o a b v : lwell_typed a = true -> lwell_typed b = true -> is_cmp o = true ->
  leval_cmp rho lrho o a b = Some v ->
  forall s k, (length (st87 s) + Nat.max (lneed a) (lneed b) + 1 <= 8)%nat ->
  exists m', lrun mem lmem (lcompile_cmp o a b) (s, k) = Some ({| st87 := st87 s; ms := m' |}, k) /\ Rv (TI I32) v m'.
Proof.
  intros _ _ Ho H s k Hd. unfold leval_cmp in H.
  destruct (leval rho lrho a) as [xa|] eqn:Ea; [|discriminate]. destruct (leval rho lrho b) as [xb|] eqn:Eb; [|discriminate].
  injection H as <-. destruct (cmp_l_swap xa xb) as [S1 S2].
  destruct o; try discriminate Ho; cbn [lcompile_cmp].
  1-4: apply (lcmp_pair_ok _ a b xa xb Ea Eb); auto.
  - (* a > b is b < a *) rewrite <- S1. apply (lcmp_pair_ok OLt b a xb xa Eb Ea); [auto|lia].
  - rewrite <- S2. apply (lcmp_pair_ok OLe b a xb xa Eb Ea); [auto|lia].
Qed.

(* the value of a tree, then code that pops it and leaves a C value in the machine registers; the consumer may push one
   value of its own above it (fldz of cmp_zero, flds 2^63 of the unsigned long row): room for 2 registers *)
Lemma lconsume a xa c t v : leval rho lrho a = Some xa ->
  (forall s r, st87 s = xa :: r -> (length r + 1 < 8)%nat ->
     exists m', lexec mem lmem c s = Some {| st87 := r; ms := m' |} /\ Rv t v m') ->
  forall s k, (length (st87 s) + Nat.max (lneed a) 2 <= 8)%nat ->
  exists m', lrun mem lmem (lcompile a ++ map LI c) (s, k) = Some ({| st87 := st87 s; ms := m' |}, k) /\ Rv t v m'.
Proof.
  intros Ea Hc s k Hd.
  destruct (lcompile_correct mem lmem rho lrho Hmem Hlmem a xa Ea s k ltac:(lia)) as (m1 & E1).
  rewrite lrun_app, E1.
  destruct (Hc {| st87 := xa :: st87 s; ms := m1 |} (st87 s) eq_refl ltac:(unfold binary80 in *; lia)) as (m2 & E2 & R2).
  exists m2. split; [apply lrun_LI; exact E2|exact R2].
Qed.

Theorem lnot_correct a v : lwell_typed a = true -> leval_not rho lrho a = Some v ->
  forall s k, (length (st87 s) + Nat.max (lneed a) 2 <= 8)%nat ->
  exists m', lrun mem lmem (lcompile_not a) (s, k) = Some ({| st87 := st87 s; ms := m' |}, k) /\ Rv (TI I32) v m'.
Proof.
  intros _ H. unfold leval_not in H. destruct (leval rho lrho a) as [xa|] eqn:Ea; [|discriminate]. injection H as <-.
  apply (lconsume a xa _ _ _ Ea). intros s r Hs Hd.
  destruct (l_cmp_zero_ok mem lmem xa s r Hs Hd) as (m2 & E2 & Z2). destruct (sete_movzx mem m2) as (m3 & E3 & A3).
  exists m3. split.
  - rewrite lexec_app, E2. apply (lexec_LS mem lmem [SI (ISet CE); SI IMovzxRax] {| st87 := r; ms := m2 |}). exact E3.
  - cbn [Rv]. rewrite A3, Z2. apply R_b2z. reflexivity.
Qed.

Theorem lcast_correct t a v : lwell_typed a = true -> leval_cast rho lrho t a = Some v ->
  forall s k, (length (st87 s) + Nat.max (lneed a) 2 <= 8)%nat ->
  exists m', lrun mem lmem (lcompile_cast t a) (s, k) = Some ({| st87 := st87 s; ms := m' |}, k) /\ Rv t v m'.
Proof.
  intros _ H. unfold leval_cast in H. destruct (leval rho lrho a) as [xa|] eqn:Ea; [|discriminate].
  apply (lconsume a xa _ _ _ Ea). intros s r Hs Hd. apply (lcast_out_ok mem lmem t xa v s r H Hs Hd).
Qed.
End Whole.
