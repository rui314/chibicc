(* C05 (initializers): the theorems.  Complete types: the simulation of InitSim gives the tree as a replay of the
   spec's log, InitRead reads it.  Arrays of unknown bound: the tree is the replay of the log of the unbounded array
   on as many nodes as the log reaches, which is the completed type's tree. *)
From Coq Require Import List Arith Bool Lia.
From Chibicc Require Import Spec.InitSyntax Spec.InitSpec Spec.InitValid Model.InitCursor
  Proofs.InitTree Proofs.InitLocal Proofs.InitSim Proofs.InitRead.
Import ListNotations.

Lemma new_initializer_flag : forall U, wf U = true -> new_initializer U true = new_initializer U false.
Proof.
  intros U Hwf. destruct U as [k|[n|] e|ms|ms]; try reflexivity; [discriminate Hwf|].
  rewrite !(new_initializer_struct _ ms (wf_members ms Hwf)). reflexivity.
Qed.

(* parse.c's tree is the replay of the C11 event log on the empty tree, whether the log is clean or not *)
Theorem initializer_is_replay : forall T v,
  wf T = true -> ok_init T [] v = true ->
  initializer T v = Some (replay (new_initializer T false) (spec_events T v)).
Proof.
  intros T v Hwf Hok. unfold initializer. rewrite (new_initializer_flag T Hwf).
  rewrite (levels_I2 (S (tdepth T + idepth v)) T (new_initializer T false) v INil _ INil (shaped_empty T Hwf) Hwf
             ltac:(cbn [idepth_items]; lia) (in_item T _ [] v INil [] INil Hok (in_end T _ _))).
  rewrite app_nil_r. reflexivity.
Qed.

Lemma complete_wf : forall T ev, wf T = true -> complete T ev = T.
Proof.
  intros T ev Hwf. destruct T as [k|[n|] e|ms|ms]; try reflexivity; [discriminate Hwf|].
  cbn [complete]. f_equal. apply wf_members in Hwf.
  generalize 0 as i. induction ms as [|m ms IH]; intro i; [reflexivity|].
  cbn [forallb] in Hwf. apply andb_prop in Hwf. destruct Hwf as [Hm Hms].
  cbn [complete_last]. destruct m as [k|[n|] e|ms1|ms1]; try (rewrite (IH Hms); destruct ms; reflexivity).
  discriminate Hm.
Qed.

Lemma type_of_wf : forall T t, wf T = true -> type_of T t = T.
Proof.
  intros T t Hwf. destruct T as [k|[n|] e|ms|ms]; try reflexivity; [discriminate Hwf|].
  destruct t as [y|f e cs|cs|mem cs]; try reflexivity. cbn [type_of]. f_equal. apply wf_members in Hwf.
  revert cs. induction ms as [|m ms IH]; intro cs; [destruct cs; reflexivity|].
  cbn [forallb] in Hwf. apply andb_prop in Hwf. destruct Hwf as [Hm Hms].
  destruct m as [k|[n|] e|ms1|ms1]; try (destruct cs as [|c cs]; [reflexivity|rewrite (IH Hms cs); reflexivity]).
  discriminate Hm.
Qed.

Theorem model_is_spec_complete : forall T v,
  wf T = true -> ok_init T [] v = true -> clean T (spec_events T v) = true ->
  model T v = Some (spec T v).
Proof.
  intros T v Hwf Hok Hclean. unfold model, spec.
  rewrite (initializer_is_replay T v Hwf Hok). rewrite (complete_wf T _ Hwf), (type_of_wf T _ Hwf).
  f_equal. f_equal. apply (leaves_of_replay T (spec_events T v) Hwf Hclean).
Qed.

(* Arrays of unknown bound (6.7.9p22).
   count_array_init_elements, which runs the parser on a dummy element, returns the spec's bound (largest index with
   an explicit initializer, plus one: hmax of the log).  array_initializer1 then runs on that many nodes, and InitSim's
   array_loop1_ok follows it with the spec of the UNBOUNDED array, whose log reaches no further; no statement about
   the spec of the sized array is needed, `spec` itself reads the unbounded array's log on the completed type. *)

Lemma step_bound_head : forall a e, step_bound [] a e = Nat.max a (head1 (event_path e)).
Proof.
  intros a e. unfold step_bound. cbn [strip]. destruct e as [[|i q] x|[|i q]]; cbn [event_path head1]; try reflexivity; lia.
Qed.

Lemma bound_acc : forall E a, fold_left (step_bound []) E a = Nat.max a (hmax E).
Proof.
  induction E as [|e E IH]; intro a; [cbn; lia|].
  cbn [fold_left]. rewrite IH, step_bound_head, hmax_cons. lia.
Qed.

Lemma bound_hmax : forall E, bound E [] = hmax E.
Proof. intro E. apply bound_acc. Qed.

(* the first item of the braced list of an array of unknown bound reaches an element: the bound is positive *)
Lemma first_item_head : forall e ds v tl E, inside (TArray None e) true (Some [0]) (ICons ds v tl) E INil -> 0 < hmax E.
Proof.
  intros e ds v tl E H. destruct ds as [|d ds].
  - destruct (inside_child (TArray None e) _ 0 e eq_refl _ (Some []) E INil H) as [E1 [tok1 [E2 [H1 [_ ->]]]]].
    apply (reach_le 0). exact (proj1 (inside_taken e _ [] v tl E1 tok1 H1)).
  - inversion H as [| | |c0 d1 ds1 v1 tl1 Ev p E' tok0 Hrun Hin|]; subst. rewrite hmax_app.
    destruct (desig_run_head _ d ds v Ev p Hrun) as [k [r [_ ->]]]. lia.
Qed.

Lemma diverge_bound : forall e n q p, diverge_at_union (TArray None e) q p = false ->
  diverge_at_union (TArray (Some n) e) q p = false.
Proof.
  intros e n [|i q] [|j p] H; try reflexivity.
  cbn [diverge_at_union child in_bound] in H |- *. destruct (i =? j); [|exact H].
  destruct (i <? n); [exact H|reflexivity].
Qed.

Lemma clean_bound : forall e n ev, clean (TArray None e) ev = true -> clean (TArray (Some n) e) ev = true.
Proof.
  intros e n ev H. unfold clean in *. apply andb_prop in H. destruct H as [H1 H2]. rewrite H1. cbn [andb].
  unfold clean_union. apply forallb_forall. intros e1 He1. apply forallb_forall. intros e2 He2.
  apply negb_true_iff, diverge_bound, (clean_union_pair _ ev); assumption.
Qed.

Section Count.
  Variable I2c : I2T.
  Variable Dc : DT.
  Variable d : nat.
  Hypothesis HI2 : I2_in I2c d.
  Hypothesis HD : D_in Dc d.

  (* count_array_init_elements' loop returns how far the log reaches.  Its round is the round of array_initializer1
     (InitSim.item_child) on a node list that holds the dummy at every index the item's log reaches: item_child says which
     of initializer2 / designation is called on the dummy, and a range over the elements gives the dummy v once. *)
  Lemma count_ok : forall fuel e dummy i mx tok E,
    shaped e dummy -> wf e = true -> ilength tok < fuel -> S (tdepth e) + idepth_items tok <= d ->
    inside (TArray None e) true (Some [i]) tok E INil ->
    count_loop I2c Dc fuel dummy i mx tok = Some (Nat.max mx (hmax E)).
  Proof.
    induction fuel as [|fuel IH]; intros e dummy i mx tok E Hsh Hwf Hfuel Hdep H; [lia|].
    destruct tok as [|ds v tl]; [rewrite (inside_nil _ _ _ _ _ H); cbn [count_loop hmax fold_right]; f_equal; lia|].
    set (W := TArray None e) in *. cbn [ilength] in Hfuel. cbn [idepth_items] in Hdep.
    (* the rest of the list, from element S k on, the dummy having received the events whose log is Ev *)
    assert (Hrest : forall k dummy' tok' Ev E2, shaped e dummy' -> isuffix tok' tl -> hmax Ev = S k -> E = Ev ++ E2 ->
              inside W true (Some [S k]) tok' E2 INil ->
              count_loop I2c Dc fuel dummy' (S k) (Nat.max mx (S k)) tok' = Some (Nat.max mx (hmax E))).
    { intros k dummy' tok' Ev E2 Hsh' Hsuf Hm HL H2. pose proof (isuffix_length _ _ Hsuf). pose proof (isuffix_idepth _ _ Hsuf).
      rewrite (IH e dummy' (S k) _ tok' E2 Hsh' Hwf ltac:(lia) ltac:(lia) H2), HL, hmax_app, Hm, Nat.max_assoc. reflexivity. }
    destruct (item_child I2c Dc d HI2 HD W (repeat dummy (hmax E)) None i ds v tl E)
      as [Hrange|[k [V [n [r [HV [Hn [Hcall Hpost]]]]]]]];
      [cbn [tdepth W idepth_items]; lia|exact H| | |].
    { intros k V HV Hle. injection HV as <-. exists dummy. split; [apply nth_error_repeat; lia|split; assumption]. }
    - destruct Hrange as [a [b [n0 [e0 [E2 [-> [Heq [Hr [Hoke [HL H2]]]]]]]]]]. injection Heq as <- <-.
      destruct (range_ok_inv None e a b v Hr) as [Hle [_ Hsingle]].
      cbn [count_loop]. rewrite (D_single_of_D Dc d HD e dummy v tl Hsh Hwf ltac:(cbn [idepth_items]; lia) Hoke Hsingle).
      apply (Hrest b _ tl (range_events e v a b) E2); try assumption; [apply shaped_replay; exact Hsh|apply suf_refl|].
      apply hmax_range; [exact Hle|apply spec_init_nonempty; exact Hoke].
    - injection HV as <-. apply nth_error_In, repeat_spec in Hn. subst n.
      destruct Hpost as [E1 [tok1 [E2 [-> [HE1 [HL [H2 Hsuf1]]]]]]].
      assert (Hstep : count_loop I2c Dc (S fuel) dummy i mx (ICons ds v tl)
                      = count_loop I2c Dc fuel (replay dummy E1) (S k) (Nat.max mx (S k)) tok1).
      { destruct Hcall as [[-> [-> Hr]]|[ds' [-> Hr]]]; cbn [count_loop desig_of W]; rewrite Hr; reflexivity. }
      rewrite Hstep. apply (Hrest k _ tok1 (map (at_ [k]) E1) E2); try assumption; [apply shaped_replay; exact Hsh|apply hmax_at; exact HE1].
  Qed.
End Count.

(* the log of the unbounded array is as clean on the array of the spec's bound: the tree is read there *)
Lemma model_is_spec_sized : forall e v cs ev n,
  spec_events (TArray None e) v = ev -> bound ev [] = n -> wf e = true -> 0 < n ->
  initializer (TArray None e) v = Some (NArray false e cs) -> NArray false e cs = replayed (TArray (Some n) e) ev ->
  clean (TArray None e) ev = true ->
  model (TArray None e) v = Some (spec (TArray None e) v).
Proof.
  intros e v cs ev n Hev Hb Hwfe Hn Hinit HR Hclean. set (Wn := TArray (Some n) e) in *.
  assert (HwfWn : wf Wn = true) by (cbn [wf Wn]; rewrite (proj2 (Nat.ltb_lt 0 n) Hn), Hwfe; reflexivity).
  assert (Hsh : shaped Wn (NArray false e cs)) by (rewrite HR; apply shaped_replay, shaped_empty; exact HwfWn).
  apply shaped_array in Hsh. destruct Hsh as [_ [Hlen _]]. injection Hlen as Hlen.
  unfold model, spec. rewrite Hinit, Hev. cbn [complete type_of]. rewrite Hb, <- Hlen, HR.
  f_equal. f_equal. apply (leaves_of_replay Wn ev HwfWn). apply clean_bound. exact Hclean.
Qed.

(* a braced list for an array of unknown bound: count_array_init_elements finds the length n, the maximum over the
   spec's log, and array_initializer1 then runs on n nodes as the spec does on the unbounded array *)
Lemma initializer_unknown : forall e l n,
  wf e = true -> ok_items (TArray None e) (Some [0]) l = true ->
  hmax (spec_items (TArray None e) (Some [0]) l) = n ->
  exists cs, initializer (TArray None e) (IList l) = Some (NArray false e cs) /\
             NArray false e cs = replay (NArray false e (repeat (new_initializer e false) n)) (spec_items (TArray None e) (Some [0]) l).
Proof.
  intros e l n Hwfe Hokl Hmax.
  pose proof (braced_str_elem None e l eq_refl Hokl) as Hie.
  pose proof (shaped_empty e Hwfe) as Hshe. pose proof (ok_items_inside _ l _ Hokl) as Hin.
  unfold initializer. set (d0 := tdepth (TArray None e) + idepth (IList l)).
  assert (Hd0 : S (tdepth e) + idepth_items l <= d0) by (unfold d0; cbn [tdepth idepth]; lia).
  pose proof (levels_I2 d0) as HI. pose proof (levels_ok d0) as HD.
  cbn [level]. destruct (level d0) as [i2c dc]. cbn [fst snd] in HI, HD |- *.
  assert (Hall : Forall (shaped e) (repeat (new_initializer e false) n)).
  { apply Forall_forall. intros c Hc. apply repeat_spec in Hc. subst c. exact Hshe. }
  destruct (array_loop1_ok i2c dc d0 HI HD (S (ilength l)) None e _ 0 l _ Hall Hwfe (Nat.lt_succ_diag_r _) Hd0 Hin)
    as [cs [Hr Hw2]].
  { intros k _ Hk. rewrite repeat_length. lia. }
  exists cs. split; [|exact Hw2].
  change (new_initializer (TArray None e) true) with (NArray true e []).
  rewrite (init2_array_braced i2c dc true e [] l INil Hie).
  unfold array_initializer1, unflex, count_array_init_elements.
  rewrite (new_initializer_flag e Hwfe).
  rewrite (count_ok i2c dc d0 HI HD (S (ilength l)) e (new_initializer e false) 0 0 l _ Hshe Hwfe
             (Nat.lt_succ_diag_r _) Hd0 Hin).
  cbn [Nat.max]. rewrite Hmax, Hr. reflexivity.
Qed.

Theorem model_is_spec_unknown : forall e l,
  wf e = true -> ok_items (TArray None e) (Some [0]) l = true -> l <> INil ->
  (forall s, l = ICons [] (IStr s) INil -> is_char_array (TArray None e) = false) ->
  clean (TArray None e) (spec_events (TArray None e) (IList l)) = true ->
  model (TArray None e) (IList l) = Some (spec (TArray None e) (IList l)).
Proof.
  intros e l Hwfe Hokl Hlne Hnstr Hclean. set (T := TArray None e) in *.
  set (Einf := spec_items T (Some [0]) l). set (n := hmax Einf).
  assert (Hn : 0 < n) by (destruct l as [|ds v tl]; [congruence|exact (first_item_head e ds v tl _ (ok_items_inside _ _ _ Hokl))]).
  destruct (initializer_unknown e l n Hwfe Hokl eq_refl) as [cs [Hinit Htree]].
  assert (Hev : spec_events T (IList l) = Clear [] :: Einf).
  { unfold spec_events. rewrite (spec_init_braced T l ltac:(intros k; discriminate) Hnstr). cbn [fst]. rewrite map_at_nil. reflexivity. }
  apply (model_is_spec_sized e (IList l) cs _ n Hev (bound_hmax _) Hwfe Hn Hinit).
  - exact Htree.
  - rewrite <- Hev. exact Hclean.
Qed.

Lemma string_events_bounded : forall q s i n, i + length s = n ->
  string_events q i (Some n) s = string_events q i None s.
Proof.
  intros q s. induction s as [|c s IH]; intros i n H.
  - cbn [string_events zero_fill length] in *. replace (n - i) with 0 by lia. reflexivity.
  - cbn [string_events in_bound length] in *. assert (Hb : i <? n = true) by (apply Nat.ltb_lt; lia). rewrite Hb.
    f_equal. apply IH. lia.
Qed.

Lemma hmax_string : forall s i, s <> [] -> hmax (string_events [] i None s) = i + length s.
Proof.
  induction s as [|c s IH]; intros i H; [congruence|].
  cbn [string_events in_bound app length]. rewrite hmax_cons. cbn [event_path head1]. destruct s as [|c' s].
  - cbn. lia.
  - rewrite IH by discriminate. cbn [length]. lia.
Qed.

(* a character array of unknown bound and a string literal, bare or in braces (p14, p22) *)
Theorem model_is_spec_unknown_string : forall (s : list nat) (braced : bool),
  s <> [] ->
  let T := TArray None (TScalar 1) in
  let v := if braced then IList (ICons [] (IStr s) INil) else IStr s in
  clean T (spec_events T v) = true -> model T v = Some (spec T v).
Proof.
  intros s braced Hs T v Hclean.
  set (e := TScalar 1) in *. set (n := length s).
  assert (Hn : 0 < n) by (destruct s; [congruence|cbn; lia]).
  assert (Hev : spec_events T v = string_events [] 0 None s) by (destruct braced; reflexivity).
  assert (Hbound : bound (string_events [] 0 None s) [] = n) by (rewrite bound_hmax; exact (hmax_string s 0 Hs)).
  set (cs := repeat (new_initializer e false) n).
  assert (Hlen : length cs = n) by apply repeat_length.
  assert (Hall : Forall (shaped e) cs).
  { apply Forall_forall. intros c Hc. apply repeat_spec in Hc. subst c. apply shaped_scalar. exists 1. reflexivity. }
  destruct (string_fill_ok e cs s Hall ltac:(rewrite Hlen; reflexivity)) as [cs' [Hsf Hrep]].
  rewrite Hlen, (string_events_bounded [] s 0 n eq_refl) in Hrep.
  assert (Hinit : initializer T v = Some (NArray false e cs')).
  { unfold initializer. cbn [level]. destruct (level (tdepth T + idepth v)) as [i2c dc].
    cbn [fst]. change (new_initializer T true) with (NArray true e []).
    destruct braced; unfold v, initializer2, string_initializer; cbn [is_integer_elem e]; fold e; fold n; fold cs; rewrite Hsf; reflexivity. }
  apply (model_is_spec_sized e v cs' _ n Hev Hbound eq_refl Hn Hinit).
  - symmetry. exact Hrep.
  - rewrite <- Hev. exact Hclean.
Qed.

Theorem model_is_spec : forall T v, valid T v = true -> model T v = Some (spec T v).
Proof.
  intros T v Hv. unfold valid in Hv. apply andb_prop in Hv. destruct Hv as [Hv Hclean].
  apply andb_prop in Hv. destruct Hv as [Hv Hok]. apply andb_prop in Hv. destruct Hv as [Hwf Htop].
  destruct T as [k|[n|] e|ms|ms]; try (apply model_is_spec_complete; assumption).
  cbn [wf_top] in Hwf. destruct v as [x|s|l]; try discriminate.
  - (* char s[] = "..." *)
    cbn [top_ok] in Htop. apply is_char_array_elem in Htop. subst e.
    cbn [ok_init sub str_ok] in Hok. destruct s as [|c s]; [discriminate|].
    apply (model_is_spec_unknown_string (c :: s) false); [discriminate|exact Hclean].
  - destruct (ok_braced_cases (TArray None e) l I Hok) as [[s [-> [Hca [Hsne _]]]]|[Hokl [Hlne Hnstr]]].
    + apply is_char_array_elem in Hca. subst e.
      apply (model_is_spec_unknown_string s true); [exact Hsne|exact Hclean].
    + apply model_is_spec_unknown; assumption.
Qed.

(* the inputs of the examples stated in Properties/Properties_C05_initcur.v: two that `clean` excludes and on which
   parse.c deviates from 6.7.9 (ex_override, ex_switch), the others inside `valid` *)

(* struct Q { struct { int a, b; } p; int c; } q = { 1, 2, 3, .p = { 5 } };
   6.7.9p19/p21: the braced initializer for q.p overrides the earlier 1 and 2: q.p.b is 0; parse.c keeps the 2 *)
Definition ex_override_ty : ty := TStruct [TStruct [TScalar 0; TScalar 0]; TScalar 0].
Definition ex_override_init : init :=
  IList (ICons [] (IExpr 1) (ICons [] (IExpr 2) (ICons [] (IExpr 3)
        (ICons [DField 0] (IList (ICons [] (IExpr 5) INil)) INil)))).

(* int x[2][6] = { [1][2 ... 4] = 7, 8 };   gcc (whose extension ranges are): 8 goes to x[1][5], after the range;
   so does parse.c since /repo 43bd8ea (designation goes on at end + 1; before: begin + 1, i.e. x[1][3]), and the
   model.  A designator list ENDING in a range is inside `valid`. *)
Definition ex_range_ty : ty := TArray (Some 2) (TArray (Some 6) (TScalar 0)).
Definition ex_range_init : init :=
  IList (ICons [DIndex 1; DRange 2 4] (IExpr 7) (ICons [] (IExpr 8) INil)).

(* struct { struct { int a[2]; int b; } s[2]; union { int i; long l; } u; int c; } x[] =
     { 1, 2, 3, [1].s[1].a[1] = 4, 5, [1].u.l = 6, 7, { .c = 8, .s[0] = { { 9 } } }, [0].c = 10 };  *)
Definition ex_valid_ty : ty :=
  TArray None (TStruct [TArray (Some 2) (TStruct [TArray (Some 2) (TScalar 0); TScalar 0]);
                        TUnion [TScalar 0; TScalar 2]; TScalar 0]).
Definition ex_valid_init : init :=
  IList (ICons [] (IExpr 1) (ICons [] (IExpr 2) (ICons [] (IExpr 3)
        (ICons [DIndex 1; DField 0; DIndex 1; DField 0; DIndex 1] (IExpr 4) (ICons [] (IExpr 5)
        (ICons [DIndex 1; DField 1; DField 1] (IExpr 6) (ICons [] (IExpr 7)
        (ICons [] (IList (ICons [DField 2] (IExpr 8)
                         (ICons [DField 0; DIndex 0] (IList (ICons [] (IList (ICons [] (IExpr 9) INil)) INil)) INil)))
        (ICons [DIndex 0; DField 2] (IExpr 10) INil))))))))).

(* struct { char s[2][3]; } x = { "ab" };   6.7.9p20 + p14 (and gcc): "ab" initializes x.s[0], reached by brace
   elision through the array s.  Since /repo 50fe612 initializer2 hands a string literal to string_initializer only
   for an array of integers (before, parse.c stopped here with an internal error); the model does the same: the input
   is inside `valid` and model = spec. *)
Definition ex_strarr_ty : ty := TStruct [TArray (Some 2) (TArray (Some 3) (TScalar 1))].
Definition ex_strarr_init : init := IList (ICons [] (IStr [97; 98; 0]) INil).

(* struct R { char name[8]; } r = { "default", .name = "ab" };   the second literal initializes the whole array again:
   the bytes behind "ab" are zero (p19, p21; /repo 2e393ab) - inside `valid` *)
Definition ex_stroverride_ty : ty := TStruct [TArray (Some 8) (TScalar 1)].
Definition ex_stroverride_init : init :=
  IList (ICons [] (IStr [100; 101; 102; 97; 117; 108; 116; 0]) (ICons [DField 0] (IStr [97; 98; 0]) INil)).

(* struct { char name[4]; int n; } t[] = { "ab", 1, { "cdef", 2 }, [3].name = { "g" } };  char u[] = "hi"; *)
Definition ex_str_ty : ty := TArray None (TStruct [TArray (Some 4) (TScalar 1); TScalar 0]).
Definition ex_str_init : init :=
  IList (ICons [] (IStr [97; 98; 0]) (ICons [] (IExpr 1)
        (ICons [] (IList (ICons [] (IStr [99; 100; 101; 102; 0]) (ICons [] (IExpr 2) INil)))
        (ICons [DIndex 3; DField 0] (IList (ICons [] (IStr [103; 0]) INil)) INil)))).

(* struct { union { struct { int x, y; } s; long l; } u; int c; } v = { .u.s.x = 1, .u.l = 2, .u.s.y = 3 };
   the initializer for u.l overrides the one for the overlapping u.s.x (p19); when u.s becomes the initialized member
   again, x is zero (gcc, clang: 0 3).  parse.c finds the stale 1 in the children of u.s: 1 3.  Same root as the
   braced override: an overridden subobject is never reset. *)
Definition ex_switch_ty : ty := TStruct [TUnion [TStruct [TScalar 0; TScalar 0]; TScalar 2]; TScalar 0].
Definition ex_switch_init : init :=
  IList (ICons [DField 0; DField 0; DField 0] (IExpr 1) (ICons [DField 0; DField 1] (IExpr 2)
        (ICons [DField 0; DField 0; DField 1] (IExpr 3) INil))).

(* int a[][2] = { [1 ... 2] = { 1, 2 }, 3 };   4 elements: zeros, {1,2}, {1,2}, {3,0} *)
Definition ex_rng_ty : ty := TArray None (TArray (Some 2) (TScalar 0)).
Definition ex_rng_init : init :=
  IList (ICons [DRange 1 2] (IList (ICons [] (IExpr 1) (ICons [] (IExpr 2) INil))) (ICons [] (IExpr 3) INil)).
