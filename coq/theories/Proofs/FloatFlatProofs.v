(* The jump code of && || ?: (and of everything else gen_expr composes for int / float / double trees) does what
   the code tree of FloatGen.v does; with FloatGenProofs: the jump-level code of a whole expression, placed
   anywhere in a program, computes the C11 value. *)
From Coq Require Import ZArith Bool List Lia.
From Flocq Require Import Core Binary Bits.
From Chibicc Require Import Base.Mach Spec.C11Int Spec.C11Float Model.X86Int Model.CodegenInt Model.X86Sse Model.FloatGen Model.FloatFlat
     Proofs.FlatSim Proofs.FloatOpsProofs Proofs.FloatGenProofs.
Local Open Scope Z_scope.

Definition fembedded (P : list finstr) (p : nat) (code : list finstr) : Prop :=
  forall i ins, nth_error code i = Some ins -> nth_error P (p + i) = Some ins.

Lemma cmpz_length t : length (cmpz t) = czlen t. Proof. apply map_length. Qed.

Lemma flatten_length : forall c p, length (flatten c p) = fsize c.
Proof.
  induction c as [l| | | | |a IHa b IHb|a IHa ta b IHb tb|a IHa ta b IHb tb|c IHc tc a IHa b IHb]; intros p; cbn [flatten fsize]; try reflexivity.
  - apply map_length.
  - rewrite app_length, IHa, IHb. reflexivity.
  - rewrite !app_length, IHa, IHb, !cmpz_length. cbn [length]. lia.
  - rewrite !app_length, IHa, IHb, !cmpz_length. cbn [length]. lia.
  - rewrite !app_length, IHc, IHa, IHb, !cmpz_length. cbn [length]. lia.
Qed.

(* the machine as FlatSim.v sees it *)
Definition zf (st : fstate) : bool := f_zf (ix (fst st)).
Definition imm (st : fstate) (v : Z) : fstate := (imm_rax (fst st) v, snd st).
Definition jc (w : bool) : nat -> finstr := if w then FJz else FJnz.

Section Sim.
Variable mem : Z -> Z.

Lemma fstar_trans P a b c : fstar mem P a b -> fstar mem P b c -> fstar mem P a c.
Proof. induction 1 as [|st st' st'' Hs _ IH]; intros H2; [exact H2|]. eapply fstar_step; [exact Hs|apply IH; exact H2]. Qed.
Lemma fstar_one P a b : fstep mem P a = Some b -> fstar mem P a b.
Proof. intros H. eapply fstar_step; [exact H|apply fstar_refl]. Qed.

Lemma jc_star P q w t st : nth_error P q = Some (jc w t) -> fstar mem P (q, st) ((if eqb (zf st) w then t else q + 1)%nat, st).
Proof. destruct st as [s k]. intros H. apply fstar_one. unfold fstep, zf, fst. rewrite H, Nat.add_1_r. destruct w, (f_zf (ix s)); reflexivity. Qed.
Lemma jmp_star P q t st : nth_error P q = Some (FJmp t) -> fstar mem P (q, st) (t, st).
Proof. destruct st as [s k]. intros H. apply fstar_one. unfold fstep. rewrite H. reflexivity. Qed.
Lemma imm_star P q v st : nth_error P q = Some (FImm v) -> fstar mem P (q, st) ((q + 1)%nat, imm st v).
Proof. destruct st as [s k]. intros H. apply fstar_one. unfold fstep. rewrite H, Nat.add_1_r. reflexivity. Qed.

Lemma run_straight P : forall l p s k s', sexec mem l s = Some s' -> fembedded P p (map FI l) ->
  fstar mem P (p, (s, k)) ((p + length l)%nat, (s', k)).
Proof.
  induction l as [|i l IH]; intros p s k s' He Hemb; cbn [sexec] in He.
  - injection He as <-. cbn [length]. rewrite Nat.add_0_r. apply fstar_refl.
  - destruct (sexec1 mem i s) as [s1|] eqn:E1; [|discriminate]. cbn [map] in Hemb. apply code_at_cons in Hemb as [Hi Hl].
    eapply fstar_step; [unfold fstep; rewrite Hi, E1; rewrite <- Nat.add_1_r; reflexivity|].
    cbn [length]. replace (p + S (length l))%nat with (p + 1 + length l)%nat by lia. apply IH; assumption.
Qed.

Lemma run_cmpz P t p s k z s2 : test_zero mem t s = Some (z, s2) -> fembedded P p (cmpz t) ->
  fstar mem P (p, (s, k)) ((p + czlen t)%nat, (s2, k)) /\ zf (s2, k) = z.
Proof.
  unfold test_zero, cmpz. intros H Hemb. destruct (sexec mem (m_cmp_zero t) s) as [s'|] eqn:E; [|discriminate]. injection H as <- <-.
  split; [|reflexivity]. apply (run_straight P _ p s k s' E Hemb).
Qed.

Theorem flatten_simulates : forall c st st', frun mem c st = Some st' ->
  forall P p, fembedded P p (flatten c p) -> fstar mem P (p, st) ((p + fsize c)%nat, st').
Proof.
  induction c as [l| | | | |a IHa b IHb|a IHa ta b IHb tb|a IHa ta b IHb tb|c IHc tc a IHa b IHb]; intros [s k] st' H P p Hemb;
    cbn [frun fst snd] in H; cbn [flatten app] in Hemb.
  (* push %rax and pop %rdi: one step of the machine does what frun does; pushf and popf (cases 4, 5) are two instructions each *)
  2-3: apply code_at_cons in Hemb as [Hi _]; apply fstar_one; unfold fstep; rewrite Hi, Nat.add_1_r.
  - destruct (sexec mem l s) as [s'|] eqn:E; [|discriminate]. injection H as <-. apply run_straight; assumption.
  - injection H as <-. reflexivity.
  - destruct k as [|v k']; [discriminate|]. injection H as <-. reflexivity.
  - injection H as <-. apply code_at_cons in Hemb as [H1 Hemb]. apply code_at_cons in Hemb as [H2 _].
    eapply fstar_step; [unfold fstep; rewrite H1, <- Nat.add_1_r; reflexivity|].
    apply fstar_one. unfold fstep. rewrite H2, <- Nat.add_1_r, <- Nat.add_assoc. reflexivity.
  - destruct k as [|v k']; [discriminate|]. injection H as <-. apply code_at_cons in Hemb as [H1 Hemb]. apply code_at_cons in Hemb as [H2 _].
    eapply fstar_step; [unfold fstep; rewrite H1, <- Nat.add_1_r; reflexivity|].
    apply fstar_one. unfold fstep. rewrite H2, <- Nat.add_1_r, <- Nat.add_assoc. reflexivity.
  - destruct (frun mem a (s, k)) as [st1|] eqn:Ea; [|discriminate]. apply code_at_app in Hemb as [Ha Hb]. rewrite flatten_length in Hb.
    eapply fstar_trans; [apply (IHa _ _ Ea P p Ha)|]. cbn [fsize]. rewrite Nat.add_assoc. apply (IHb _ _ H P _ Hb).
  - destruct (frun mem a (s, k)) as [[s1 k1]|] eqn:Ea; [|discriminate].
    destruct (test_zero mem ta s1) as [[z s2]|] eqn:T1; [|discriminate].
    eapply (logic_sim fstar_trans jc_star jmp_star imm_star true) with (pb := (p + fsize a + czlen ta + 1)%nat);
      [exact Hemb|apply flatten_length|apply cmpz_length|apply flatten_length|apply cmpz_length|cbn [fsize]; lia
      |exact (IHa _ _ Ea P p)|exact (run_cmpz P ta _ s1 k1 z s2 T1)|].
    destruct z; cbn [eqb].
    + injection H as <-. reflexivity.
    + destruct (frun mem b (s2, k1)) as [[s3 k3]|] eqn:Eb; [|discriminate].
      destruct (test_zero mem tb s3) as [[z2 s4]|] eqn:T2; [|discriminate]. injection H as <-.
      exists (s3, k3), z2, (s4, k3). split; [exact (IHb _ _ Eb P _)|]. split; [exact (run_cmpz P tb _ s3 k3 z2 s4 T2)|reflexivity].
  - destruct (frun mem a (s, k)) as [[s1 k1]|] eqn:Ea; [|discriminate].
    destruct (test_zero mem ta s1) as [[z s2]|] eqn:T1; [|discriminate].
    eapply (logic_sim fstar_trans jc_star jmp_star imm_star false) with (pb := (p + fsize a + czlen ta + 1)%nat);
      [exact Hemb|apply flatten_length|apply cmpz_length|apply flatten_length|apply cmpz_length|cbn [fsize]; lia
      |exact (IHa _ _ Ea P p)|exact (run_cmpz P ta _ s1 k1 z s2 T1)|].
    destruct z; cbn [eqb].
    + destruct (frun mem b (s2, k1)) as [[s3 k3]|] eqn:Eb; [|discriminate].
      destruct (test_zero mem tb s3) as [[z2 s4]|] eqn:T2; [|discriminate]. injection H as <-.
      exists (s3, k3), z2, (s4, k3). split; [exact (IHb _ _ Eb P _)|]. split; [exact (run_cmpz P tb _ s3 k3 z2 s4 T2)|reflexivity].
    + injection H as <-. reflexivity.
  - destruct (frun mem c (s, k)) as [[s1 k1]|] eqn:Ec; [|discriminate].
    destruct (test_zero mem tc s1) as [[z s2]|] eqn:T1; [|discriminate].
    eapply (cond_sim fstar_trans jc_star jmp_star) with (pa := (p + fsize c + czlen tc + 1)%nat) (nb := fsize b);
      [exact Hemb|apply flatten_length|apply cmpz_length|apply flatten_length|cbn [fsize]; lia
      |exact (IHc _ _ Ec P p)|exact (run_cmpz P tc _ s1 k1 z s2 T1)|].
    destruct z; [exact (IHb _ _ H P _)|exact (IHa _ _ H P _)].
Qed.

Theorem expr_code_correct rho : (forall n, mem (addr_of n) = obj_bits (rho n)) ->
  forall e v, well_typed e = true -> feval rho e = Some v ->
  forall P p, fembedded P p (flatten (compile e) p) ->
  forall s k, exists s', fstar mem P (p, (s, k)) ((p + fsize (compile e))%nat, (s', k)) /\ Rv (ftype_of e) v s'.
Proof.
  intros Hmem e v _ H P p Hemb s k. destruct (compile_correct mem rho Hmem e v H s k) as (s' & Hr & HR).
  exists s'. split; [|exact HR]. apply (flatten_simulates _ _ _ Hr P p Hemb).
Qed.
End Sim.
