(* C15 (symbol emission): the computable candidate of the specification, closure_live (|ds|+1 rounds of the
   naive closure), decides emitted_fun - for every unit, no validity needed.  So the main theorem can be
   read with live := closure_live ds, a function of the declarations alone.  Every stage holds emitted functions
   only; a stage that one more round leaves as it is (closed) holds all of them; and a round that does not find its
   stage closed adds a function name (mu counts them), of which there are at most |ds|. *)
From Coq Require Import List Bool Arith ZArith Lia.
From Chibicc Require Import Base.ListFacts Model.Linkage Proofs.LinkageProofs Proofs.LinkageComplete Spec.LinkSpec Model.Emit Proofs.EmitAsm Proofs.EmitParse Proofs.EmitProofs Proofs.EmitAnon.
Import ListNotations.

Lemma iter_n_succ {A} (f : A -> A) k : forall x, iter_n k f (f x) = f (iter_n k f x).
Proof. induction k as [|k IH]; intros x; [reflexivity|]. cbn [iter_n]. apply IH. Qed.

Section Closure.
Variable ds : list decl.
Let F := fun_names ds.
Let R := closure_round ds.
Definition stage (k : nat) : list nat := iter_n k R [].

Lemma stage_succ k : stage (S k) = R (stage k).
Proof. unfold stage. cbn [iter_n]. apply iter_n_succ. Qed.

Lemma fun_names_In n : In n F <-> is_fun_name ds n = true.
Proof.
  unfold F, fun_names, is_fun_name. rewrite nodup_In, in_flat_map. split.
  - intros ([m od|m sc il fz b] & Hd & Hn); [contradiction|]. destruct Hn as [<-|[]].
    assert (H : In (mkFD sc il b) (funseq m ds)) by (apply funseq_In; exists fz; exact Hd). destruct (funseq m ds); [contradiction|reflexivity].
  - destruct (funseq n ds) as [|[sc il b] s] eqn:E; [discriminate|]. intros _.
    assert (H : In (mkFD sc il b) (funseq n ds)) by (rewrite E; left; reflexivity). apply funseq_In in H as (fz & H).
    exists (DFun n sc il fz b). split; [exact H|left; reflexivity].
Qed.

Lemma R_In s n : In n (R s) <->
  In n F /\ (In n s \/ skippable (funseq n ds) = false \/ addr_taken_at_file_scope ds n = true
             \/ exists g, In g s /\ existsb (refs_item n) (body_of (funseq g ds)) = true).
Proof.
  unfold R, closure_round. rewrite filter_In. split; intros [HF H]; (split; [exact HF|]).
  - apply orb_true_iff in H as [H|H]; [apply orb_true_iff in H as [H|H]; [apply orb_true_iff in H as [H|H]|]|].
    + left. apply existsb_nat_In. exact H.
    + right. left. apply negb_true_iff. exact H.
    + right. right. left. exact H.
    + right. right. right. apply existsb_exists. exact H.
  - destruct H as [H|[H|[H|H]]].
    + apply existsb_nat_In in H. unfold nmem. rewrite H. reflexivity.
    + rewrite H, orb_true_r. reflexivity.
    + rewrite H, orb_true_r. reflexivity.
    + apply existsb_exists in H. rewrite H. apply orb_true_r.
Qed.
Lemma R_mono s s' n : (forall x, In x s -> In x s') -> In n (R s) -> In n (R s').
Proof.
  intros Hs H. apply R_In. apply R_In in H as [HF [H|[H|[H|(g & Hg & Hb)]]]]; (split; [exact HF|]);
    [left; apply Hs; exact H|right; left; exact H|right; right; left; exact H|].
  right. right. right. exists g. split; [apply Hs; exact Hg|exact Hb].
Qed.

Lemma stage_F k n : In n (stage k) -> In n F.
Proof. destruct k; [intros []|]. rewrite stage_succ. intros H. apply R_In in H. apply H. Qed.
Lemma stage_mono k n : In n (stage k) -> In n (stage (S k)).
Proof. intros H. rewrite stage_succ. apply R_In. split; [eapply stage_F; exact H|left; exact H]. Qed.

Lemma stage_sound k : forall n, In n (stage k) -> emitted_fun ds n.
Proof.
  induction k as [|k IH]; intros n H; [destruct H|]. rewrite stage_succ in H. apply R_In in H as [HF [H|[H|[H|(g & Hg & Hb)]]]].
  - apply IH. exact H.
  - apply em_always; [apply fun_names_In; exact HF|exact H].
  - apply em_addr; [apply fun_names_In; exact HF|exact H].
  - apply (em_ref ds g n (IH g Hg) Hb). apply fun_names_In. exact HF.
Qed.

Definition closed (s : list nat) : Prop := forall n, In n (R s) -> In n s.
Lemma closed_complete s : closed s -> forall n, emitted_fun ds n -> In n s.
Proof.
  intros C n H. induction H as [n Hf Hs|n Hf Ha|g n Hg IH Hb Hf]; apply C, R_In; (split; [apply fun_names_In; exact Hf|]).
  - right. left. exact Hs.
  - right. right. left. exact Ha.
  - right. right. right. exists g. split; assumption.
Qed.
Lemma closed_next k : closed (stage k) -> closed (stage (S k)).
Proof.
  intros C n H. rewrite stage_succ. apply (R_mono (stage (S k))); [|exact H]. intros x Hx. rewrite stage_succ in Hx. apply C. exact Hx.
Qed.

Definition mu (s : list nat) : nat := length (filter (fun n => nmem n s) F).
Lemma mu_le s : (mu s <= length F)%nat.
Proof. unfold mu. clear. induction F as [|x r IH]; [cbn; lia|]. cbn [filter]. destruct (nmem x s); cbn [length]; lia. Qed.

Definition closedb (s : list nat) : bool := forallb (fun n => nmem n s) (R s).
Lemma closedb_closed s : closedb s = true <-> closed s.
Proof.
  unfold closedb, closed. rewrite forallb_forall. split; intros H n Hn; apply existsb_nat_In, H, Hn.
Qed.

Lemma progress k : closedb (stage k) = true \/ (k <= mu (stage k))%nat.
Proof.
  induction k as [|k IH]; [right; lia|].
  destruct (closedb (stage k)) eqn:Cb; [left; apply closedb_closed, closed_next, closedb_closed; exact Cb|].
  right. destruct IH as [C|Hk]; [discriminate|].
  (* some n enters at round k+1 *)
  assert (Hex : exists n, In n (R (stage k)) /\ nmem n (stage k) = false).
  { unfold closedb in Cb. clear - Cb. induction (R (stage k)) as [|x r IH]; [discriminate|]. cbn [forallb] in Cb.
    destruct (nmem x (stage k)) eqn:E; [destruct (IH Cb) as (n & Hn & Hnot); exists n; split; [right; exact Hn|exact Hnot]|].
    exists x. split; [left; reflexivity|exact E]. }
  destruct Hex as (n & Hn & Hnot). rewrite <- stage_succ in Hn.
  enough (mu (stage k) < mu (stage (S k)))%nat by lia.
  unfold mu. apply (filter_length_lt _ _ F n).
  - intros y Hy. apply existsb_nat_In, stage_mono, existsb_nat_In. exact Hy.
  - eapply stage_F. exact Hn.
  - apply existsb_nat_In. exact Hn.
  - exact Hnot.
Qed.

Lemma fun_names_length : (length F <= length ds)%nat.
Proof.
  unfold F, fun_names. etransitivity; [apply NoDup_incl_length; [apply NoDup_nodup|intros x Hx; apply nodup_In in Hx; exact Hx]|].
  clear. induction ds as [|d r IH]; [cbn; lia|]. cbn [flat_map]. rewrite app_length. destruct d; cbn [length]; lia.
Qed.

Theorem closure_live_ok : live_ok ds (closure_live ds).
Proof.
  intros n. unfold closure_live. fold R. fold (stage (S (length ds))). unfold nmem. rewrite existsb_nat_In. split; [apply stage_sound|].
  apply closed_complete. apply closedb_closed. destruct (progress (S (length ds))) as [C|Hk]; [exact C|].
  pose proof (mu_le (stage (S (length ds)))). pose proof fun_names_length. lia.
Qed.
End Closure.

(* the headline theorem with the specification as a function of the declarations alone *)
Theorem emit_symtab_computable ds o :
  valid ds = true -> kb_extern_init_static ds = false ->
  forall n, symtab_of (emit o (parse_flags ds)) n = to_result (spec_entry (closure_live ds) ds o n).
Proof. intros H1 H2 n. apply emit_symtab_correct; try assumption. apply closure_live_ok. Qed.

(* as a table: the lines nm prints for the identifiers of the unit *)
Definition nm_table (text : list directive) (names : list nat) : list (nat * entry) :=
  flat_map (fun n => match symtab_of text n with Present e => [(n, e)] | _ => [] end) names.

Theorem emit_table_correct ds o :
  valid ds = true -> kb_extern_init_static ds = false ->
  nm_table (emit o (parse_flags ds)) (declared_names ds) = spec_symtab (closure_live ds) ds o
  /\ forall n, ~ In n (declared_names ds) -> symtab_of (emit o (parse_flags ds)) n = Absent.
Proof.
  intros H1 H2. split.
  - unfold nm_table, spec_symtab. apply flat_map_ext. intros n. rewrite (emit_symtab_computable ds o H1 H2 n).
    destruct (spec_entry (closure_live ds) ds o n); reflexivity.
  - intros n Hn. rewrite (emit_symtab_computable ds o H1 H2 n). unfold spec_entry, declared_names in *. rewrite nodup_In in Hn.
    destruct (funseq n ds) eqn:Ef; [|exfalso; apply Hn, funseq_declared; rewrite Ef; discriminate].
    destruct (objseq n ds) eqn:Eo; [reflexivity|exfalso; apply Hn, objseq_declared; rewrite Eo; discriminate].
Qed.

(* the anonymous objects, with the owner-function rule (62ebd1d) *)
Theorem anon_placements_correct ds o live : valid ds = true -> live_ok ds live ->
  anon_placements (emit o (parse_flags ds)) = spec_anon live ds.
Proof.
  intros Hv Hl. rewrite anon_placements_model, <- (anon_entries_spec live ds 0). f_equal. apply filter_ext_in. intros x Hx.
  destruct (unit_anons_def ds 0 x Hx) as [_ Ho]. unfold owner_live, placed. destruct (ob_owner x) as [g|]; [|reflexivity].
  specialize (Ho g eq_refl). destruct (funseq g ds) as [|d1 s'] eqn:E; [contradiction|].
  destruct (prog_fun_obj ds Hv live Hl g d1 s' E) as (b & Ef & _). rewrite find_fun_filter, Ef. reflexivity.
Qed.
Theorem anon_placements_computable ds o : valid ds = true -> anon_placements (emit o (parse_flags ds)) = spec_anon (closure_live ds) ds.
Proof. intros Hv. apply anon_placements_correct; [exact Hv|apply closure_live_ok]. Qed.
