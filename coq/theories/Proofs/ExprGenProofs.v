(* gen_expr on integer expression trees (Model/ExprGen.v) is gen_expr on expressions over objects (Model/ExprMem.v)
   restricted to the trees that mention no object: on the image of_expr e the two models emit the same code
   (mcomp_of_expr, up to the embedding inj of the code without memory instructions into the code with them), and
   the machine with memory runs embedded code as the machine without does, leaving the memory alone (mrun_inj).
   So the theorem about trees is read off the one about expressions over objects (mcomp_correct), at the frame
   that holds no object; ExprFlatProofs.v reads the jump code off in the same way. *)
From Coq Require Import ZArith List Lia.
From Chibicc Require Import Base.Mach Spec.C11Int Spec.C11IntMem Model.X86Int Model.CodegenInt Gen.CastTable
     Model.ConstFold Proofs.ConstFoldProofs Proofs.CastTableProofs Model.ExprGen Model.ExprMem
     Proofs.ExprMemProofs Proofs.ExprMemCorrect Proofs.ExprMemOrder.
Import ListNotations.
Local Open Scope Z_scope.

Fixpoint inj (c : gcode) : mcode :=
  match c with
  | GIns p => CIns p
  | GImm v => CImm v
  | GPush => CPush
  | GPopRdi => CPopRdi
  | GSeq a b => CSeq (inj a) (inj b)
  | GAnd a ta b tb => CAnd (inj a) ta (inj b) tb
  | GOr a ta b tb => COr (inj a) ta (inj b) tb
  | GCond c tc a b => CCond (inj c) tc (inj a) (inj b)
  end.

Lemma mrun_inj rbp m : forall c s k,
  mrun rbp (inj c) (s, k, m) = match grun c (s, k) with Some (s', k') => Some (s', k', m) | None => None end.
Proof.
  induction c as [p|v| | |a IHa b IHb|a IHa ta b IHb tb|a IHa ta b IHb tb|c IHc tc a IHa b IHb]; intros s k;
    cbn [inj mrun grun fst snd]; rewrite ?IHa, ?IHc.
  - destruct (exec p s); reflexivity.
  - reflexivity.
  - reflexivity.
  - destruct k; reflexivity.
  - destruct (grun a (s, k)) as [[s1 k1]|]; [apply IHb|reflexivity].
  - destruct (grun a (s, k)) as [[s1 k1]|]; [|reflexivity]. destruct (test_zero ta s1) as [[[|] s2]|]; try reflexivity.
    rewrite IHb. destruct (grun b (s2, k1)) as [[s3 k3]|]; [|reflexivity]. destruct (test_zero tb s3) as [[z s4]|]; reflexivity.
  - destruct (grun a (s, k)) as [[s1 k1]|]; [|reflexivity]. destruct (test_zero ta s1) as [[[|] s2]|]; try reflexivity.
    rewrite IHb. destruct (grun b (s2, k1)) as [[s3 k3]|]; [|reflexivity]. destruct (test_zero tb s3) as [[z s4]|]; reflexivity.
  - destruct (grun c (s, k)) as [[s1 k1]|]; [|reflexivity]. destruct (test_zero tc s1) as [[[|] s2]|]; [apply IHb|apply IHa|reflexivity].
Qed.

(* both models give a tree its C11 type *)
Lemma of_expr_type G e : mm_type G (of_expr e) = m_type e.
Proof. rewrite mm_type_is_c11, m_type_is_c11. apply meval_pure. Qed.

Lemma inj_cast a b : inj (ccast a b) = mcast a b.
Proof. unfold ccast, mcast. destruct (gen_cast cast_table a b); reflexivity. Qed.

Lemma inj_cbin o t ca ta cb tb r : inj (cbin o t ca ta cb tb r) = mcbin o t (inj ca) ta (inj cb) tb r.
Proof. unfold cbin, mcbin. cbn [inj]. rewrite inj_cast. destruct r; [rewrite inj_cast|]; reflexivity. Qed.

Theorem mcomp_of_expr F : forall e n, mcomp F n (of_expr e) = inj (compile e).
Proof.
  induction e as [t v|o a IHa|o a IHa b IHb|t a IHa|c IHc a IHa b IHb|a IHa b IHb]; intros n.
  - reflexivity.
  - destruct o; cbn [of_expr mcomp compile inj mm_type m_type]; rewrite IHa, ?inj_cast, !of_expr_type; reflexivity.
  - destruct o; cbn [of_expr mcomp compile inj bin_code is_shift]; rewrite ?inj_cbin, IHa, IHb, !of_expr_type; reflexivity.
  - cbn [of_expr mcomp compile inj]. rewrite IHa, inj_cast, of_expr_type. reflexivity.
  - cbn [of_expr mcomp compile inj]. rewrite IHc, IHa, IHb, !inj_cast, !of_expr_type. reflexivity.
  - cbn [of_expr mcomp compile inj]. rewrite IHa, IHb. reflexivity.
Qed.

Lemma of_expr_fits F : forall e n, fits F n (of_expr e).
Proof. induction e as [t v|o a IHa|o a IHa b IHb|t a IHa|c IHc a IHa b IHb|a IHa b IHb]; intros n; cbn [of_expr fits]; auto. Qed.

Definition no_frame : frame := {| frbp := 0; fvars := []; ftemps := [] |}.
Lemma no_frame_wf : wf_frame no_frame.
Proof. unfold wf_frame, nvars, ntmps. cbn [no_frame fvars ftemps length]. repeat split; intros; lia. Qed.

Theorem compile_correct : forall e v, eval e = Some v ->
  forall s k, exists s', grun (compile e) (s, k) = Some (s', k) /\ R (type_of e) v (rax s').
Proof.
  intros e v H s k. destruct (meval_pure [] e) as [Ty Ev].
  assert (Hm : meval (ftys no_frame) [] (of_expr e) = Some (v, [])) by (change (ftys no_frame) with (@nil ity); rewrite (Ev []), H; reflexivity).
  assert (A : agree no_frame [] (fun _ => 0)) by (split; [reflexivity|intros x Hx; inversion Hx]).
  destruct (mcomputes_touch no_frame (mcomp_correct no_frame no_frame_wf _ _ _ _ Hm 0%nat (of_expr_fits _ e 0%nat)) s k _ A)
    as (s' & m' & E & HR & _).
  rewrite mcomp_of_expr, mrun_inj in E. change (ftys no_frame) with (@nil ity) in HR. rewrite Ty in HR.
  destruct (grun (compile e) (s, k)) as [[s1 k1]|]; [|discriminate E]. injection E as -> -> _. exists s'. auto.
Qed.
