From Chibicc Require Import Base.Mach Model.Include.

Lemma nth_error_skipn {A} i : forall (l : list A) m, nth_error (skipn i l) m = nth_error l (i + m).
Proof. induction i as [|i IH]; intros l m; [reflexivity|]. destruct l as [|x l]; [destruct m; reflexivity|]. apply IH. Qed.

Section Resolve.
Variables D N : Type.
Variable ex : D -> N -> bool.

(* search_from counts on from i; k is the position of the hit in paths *)
Lemma search_from_spec : forall paths i n j d, search_from D N ex i paths n = Some (j, d) ->
  exists k, j = (i + k)%nat /\ nth_error paths k = Some d /\ ex d n = true /\
    forall k' d', (k' < k)%nat -> nth_error paths k' = Some d' -> ex d' n = false.
Proof.
  induction paths as [|p r IH]; intros i n j d H; cbn in H; [discriminate|]. destruct (ex p n) eqn:E.
  - injection H as <- <-. exists 0%nat. repeat split; [lia|exact E|]. intros k' d' Hk; lia.
  - destruct (IH _ _ _ _ H) as (k & -> & Hn & He & Hb). exists (S k). repeat split; [lia|exact Hn|exact He|].
    intros [|k'] d' Hk Hd; cbn in Hd; [injection Hd as <-; exact E|]. eapply Hb; [|exact Hd]. lia.
Qed.

Lemma search_from_none : forall paths i n, search_from D N ex i paths n = None -> forall d, In d paths -> ex d n = false.
Proof.
  induction paths as [|p r IH]; intros i n H d Hin; [destruct Hin|]. cbn in H. destruct (ex p n) eqn:E; [discriminate|].
  destruct Hin as [<-|Hin]; [exact E|]. eapply IH; eassumption.
Qed.

Lemma resolve_search dq cur paths n :
  resolve D N ex dq cur paths n = option_map snd (search_from D N ex 0 ((if dq then [cur] else []) ++ paths) n).
Proof.
  unfold resolve. destruct dq; [|reflexivity]. cbn [andb app search_from]. destruct (ex cur n); [reflexivity|].
  (* the index at which search_from starts counting does not matter for the directory found *)
  generalize 0%nat 1%nat. induction paths as [|p r IH]; intros i j; cbn [search_from]; [reflexivity|].
  destruct (ex p n); [reflexivity|apply IH].
Qed.

(* the file included is the first existing one in the order: directory of the including file
   (only for "..."), -I directories in order, standard directories, -idirafter directories *)
Theorem resolve_first_match dq cur dash_i std after n d :
  resolve D N ex dq cur (include_paths D dash_i std after) n = Some d ->
  ex d n = true /\
  exists k, nth_error ((if dq then [cur] else []) ++ dash_i ++ std ++ after) k = Some d /\
    forall j d', (j < k)%nat -> nth_error ((if dq then [cur] else []) ++ dash_i ++ std ++ after) j = Some d' -> ex d' n = false.
Proof.
  rewrite resolve_search. unfold include_paths. destruct (search_from D N ex 0 _ n) as [[j d0]|] eqn:Es; [|discriminate].
  intros H. injection H as <-. destruct (search_from_spec _ _ _ _ _ Es) as (k & _ & Hn & He & Hb).
  split; [exact He|]. exists k. split; assumption.
Qed.

Theorem resolve_none dq cur paths n : resolve D N ex dq cur paths n = None ->
  (dq = true -> ex cur n = false) /\ forall d, In d paths -> ex d n = false.
Proof.
  rewrite resolve_search. destruct (search_from D N ex 0 _ n) eqn:Es; [discriminate|]. intros _.
  pose proof (search_from_none _ _ _ Es) as H. split.
  - intros ->. apply H. left. reflexivity.
  - intros d Hd. apply H, in_or_app. right. exact Hd.
Qed.

(* #include_next finds the first existing file strictly after the previous hit *)
Theorem resolve_next_spec idx paths n d : resolve_next D N ex idx paths n = Some d ->
  ex d n = true /\ exists k, (idx <= k)%nat /\ nth_error paths k = Some d /\
    forall j d', (idx <= j < k)%nat -> nth_error paths j = Some d' -> ex d' n = false.
Proof.
  unfold resolve_next. destruct (search_from D N ex idx (skipn idx paths) n) as [[j d0]|] eqn:Es; [|discriminate]. cbn. intros H. injection H as <-.
  destruct (search_from_spec _ _ _ _ _ Es) as (k & -> & Hn & He & Hb). split; [exact He|]. exists (idx + k)%nat.
  rewrite nth_error_skipn in Hn. split; [lia|]. split; [exact Hn|].
  intros j d' Hj Hd. apply (Hb (j - idx)%nat d'); [lia|]. rewrite nth_error_skipn. replace (idx + (j - idx))%nat with j by lia. exact Hd.
Qed.
End Resolve.
