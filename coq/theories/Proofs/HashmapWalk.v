(* The probe loop of hashmap.c.  A walk asks of a slot only its class [cl]: it ends the walk, is passed over, or
   holds the key.  [WInv]: every stored key is where its own probe finds it.  Then a store into the slot a probe
   ended at ([write_slot]) leaves the walk of every other key as it was, and the array, read as a dictionary
   through the probe ([absf]), changes at that one key. *)
From Coq Require Import List PeanoNat NArith Bool Lia.
From Chibicc Require Import Model.Hashmap.
Import ListNotations.

Lemma length_set_nth {A} j (x : A) l : length (set_nth j x l) = length l.
Proof. revert j; induction l as [|a l IH]; intros [|j]; simpl; auto. Qed.

Lemma nth_set_nth_eq {A} j (x d : A) l : j < length l -> nth j (set_nth j x l) d = x.
Proof. revert j; induction l as [|a l IH]; intros [|j] H; simpl in *; try lia; auto. apply IH; lia. Qed.

Lemma nth_set_nth_neq {A} i j (x d : A) l : i <> j -> nth i (set_nth j x l) d = nth i l d.
Proof.
  revert i j; induction l as [|a l IH]; intros i j H; simpl.
  - destruct j; reflexivity.
  - destruct j as [|j]; destruct i as [|i]; simpl; try reflexivity; try lia. apply IH; lia.
Qed.

Lemma option_ext {A} (a b : option A) : (forall v, a = Some v <-> b = Some v) -> a = b.
Proof.
  intros H. destruct a as [v|], b as [w|]; auto; [symmetry | symmetry |]; apply H; reflexivity.
Qed.

Section Walk.
Variable K V : Type.
Variable keqb : K -> K -> bool.
Hypothesis keqb_eq : forall a b, keqb a b = true <-> a = b.

Notation slot := (slot K V).
Notation walk := (walk K V keqb).

Lemma keqb_spec a b : reflect (a = b) (keqb a b).
Proof. apply iff_reflect. symmetry. apply keqb_eq. Qed.

Lemma keqb_refl k : keqb k k = true.
Proof. apply keqb_eq; reflexivity. Qed.

Lemma keqb_neq x k : x <> k -> keqb x k = false.
Proof. intros H. destruct (keqb_spec x k); [contradiction | reflexivity]. Qed.

(* All the probe loop looks at in a slot: does it end the walk, is it passed over, is it the key's. *)
Inductive cls := CEmpty | CSkip | CHit.
Definition cl (k : K) (s : slot) : cls :=
  match s with
  | Empty => CEmpty | Tomb => CSkip
  | Full k' _ => if keqb k k' then CHit else CSkip
  end.

Lemma cl_self k v : cl k (Full k v) = CHit.
Proof. simpl. rewrite keqb_refl. reflexivity. Qed.

Lemma cl_hit k s : cl k s = CHit <-> exists v, s = Full k v.
Proof.
  split; [|intros [v ->]; apply cl_self].
  destruct s as [| |k' v]; simpl; try discriminate.
  destruct (keqb_spec k k') as [<-|]; [eauto | discriminate].
Qed.

Lemma cl_other k x s : x <> k -> (exists v, s = Full k v) -> cl x s = CSkip.
Proof. intros Hn [v ->]; simpl. rewrite keqb_neq by auto. reflexivity. Qed.

Lemma walk_found_iff k bs ps t j v :
  walk k bs ps t = Found j v <->
  exists pre post, ps = pre ++ j :: post /\
    Forall (fun q => cl k (nth q bs Empty) = CSkip) pre /\ nth j bs Empty = Full k v.
Proof.
  split.
  - revert t; induction ps as [|a ps IH]; intros t H; simpl in H; [discriminate|].
    destruct (nth a bs Empty) as [| |k' v0] eqn:E; [discriminate| |destruct (keqb k k') eqn:Ek].
    2:{ injection H as <- <-. apply keqb_eq in Ek as <-. exists [], ps. auto. }
    (* left: a tombstone, another key; the walk goes on past either *)
    all: apply IH in H as (pre & post & -> & Hp & Hj); exists (a :: pre), post.
    all: repeat split; auto; constructor; auto; rewrite E; simpl; try rewrite Ek; reflexivity.
  - intros (pre & post & -> & Hp & Hj). revert t; induction Hp as [|a pre Ha Hp IH]; intros t; simpl.
    + rewrite Hj, keqb_refl. reflexivity.
    + destruct (nth a bs Empty) as [| |k' v0]; simpl in Ha; try discriminate; auto.
      destruct (keqb k k'); [discriminate | auto].
Qed.

Lemma walk_stop_tomb k bs ps t0 e t :
  walk k bs ps t0 = Stop e t ->
  t = t0 \/ t0 = None /\ exists q, t = Some q /\ nth q bs Empty = Tomb.
Proof.
  revert t0; induction ps as [|a ps IH]; intros t0 H; simpl in H; [discriminate|].
  destruct (nth a bs Empty) as [| |k' v0] eqn:E.
  - injection H as _ <-. auto.
  - destruct t0; apply IH in H as [->|[[=] _]]; eauto.
  - destruct (keqb k k'); [discriminate | eauto].
Qed.

(* the slot get_or_insert_entry claims for an absent key *)
Definition claim (e : nat) (t : option nat) : nat := match t with Some x => x | None => e end.

Lemma walk_stop_claim k bs ps e t v :
  Forall (fun j => j < length bs) ps ->
  walk k bs ps None = Stop e t ->
  claim e t < length bs /\
  nth (claim e t) bs Empty = match t with Some _ => Tomb | None => Empty end /\
  walk k (set_nth (claim e t) (Full k v) bs) ps None = Found (claim e t) v.
Proof.
  intros Hb; induction ps as [|a ps IH]; intros H; simpl in H; [discriminate|].
  apply Forall_cons_iff in Hb as [Ha Hb'].
  destruct (nth a bs Empty) as [| |k' v0] eqn:E.
  - injection H as <- <-. simpl. rewrite nth_set_nth_eq, keqb_refl by auto. auto.
  - apply walk_stop_tomb in H as [->|[[=] _]]. simpl. rewrite nth_set_nth_eq, keqb_refl by auto. auto.
  - destruct (keqb k k') eqn:Ek; [discriminate|].
    destruct (IH Hb' H) as (Hc & Es & Hw). repeat split; auto.
    simpl. rewrite nth_set_nth_neq, E, Ek; auto.
    intros ->. rewrite E in Es. destruct t; discriminate.
Qed.

Lemma walk_not_exhausted k bs ps t e :
  In e ps -> nth e bs Empty = Empty -> walk k bs ps t <> (@Exhausted V).
Proof.
  revert t; induction ps as [|a ps IH]; intros t Hin He; simpl in *; try tauto.
  destruct Hin as [->|Hin].
  - rewrite He; discriminate.
  - destruct (nth a bs Empty) as [| |k' v0]; try discriminate; auto.
    destruct (keqb k k'); try discriminate; auto.
Qed.

Lemma walk_notomb k bs ps e t :
  (forall q, nth q bs Empty <> Tomb) ->
  walk k bs ps None = Stop e t -> t = None.
Proof.
  intros Hn H. apply walk_stop_tomb in H as [->|(_ & q & _ & Hq)]; [reflexivity | elim (Hn q Hq)].
Qed.

Variable hash : K -> N.
Notation probe := (probe K V keqb hash).

Lemma walk_i_eq k bs h cap : forall f i t,
  walk_i K V keqb k bs h cap i f t = walk k bs (map (fun i => idx h i cap) (seq i f)) t.
Proof.
  induction f as [|f IH]; intros i t; simpl; auto.
  destruct (nth (idx h i cap) bs Empty) as [| |k' v]; auto.
  destruct (keqb k k'); auto.
Qed.

Lemma probe_eq k bs : probe k bs = walk k bs (pseq (hash k) (length bs)) None.
Proof. unfold Hashmap.probe, pseq. apply walk_i_eq. Qed.

Lemma pseq_bound h n : Forall (fun j => j < n) (pseq h n).
Proof.
  unfold pseq; apply Forall_forall; intros j Hj. apply in_map_iff in Hj as [i [<- Hi]].
  apply in_seq in Hi. unfold idx.
  assert (Hn : N.of_nat n <> 0%N) by lia.
  pose proof (N.mod_upper_bound (((h + N.of_nat i) mod two64)) (N.of_nat n) Hn). lia.
Qed.

Lemma probe_found k bs j v : probe k bs = Found j v -> j < length bs /\ nth j bs Empty = Full k v.
Proof.
  rewrite probe_eq. intros H. apply walk_found_iff in H as (pre & post & E & _ & Hj). split; auto.
  pose proof (pseq_bound (hash k) (length bs)) as Hb. rewrite E in Hb. apply Forall_elt in Hb. exact Hb.
Qed.

Lemma probe_found_ext k bs bs' j v v' :
  length bs' = length bs -> probe k bs = Found j v ->
  (forall q, cl k (nth q bs Empty) = CSkip -> cl k (nth q bs' Empty) = CSkip) ->
  nth j bs' Empty = Full k v' -> probe k bs' = Found j v'.
Proof.
  rewrite !probe_eq. intros -> H Hskip Hj. apply walk_found_iff in H as (pre & post & E & Hp & _).
  apply walk_found_iff. exists pre, post. repeat split; auto.
  eapply Forall_impl; [|exact Hp]. exact Hskip.
Qed.

(* Every stored key is where its own probe finds it.  So a key has one slot ([iw_unique]), and the array read
   through the probe holds exactly the entries stored in it ([absf_some]). *)
Definition Iw (bs : list slot) (k : K) : Prop :=
  forall j v, j < length bs -> nth j bs Empty = Full k v -> probe k bs = Found j v.
Definition WInv (bs : list slot) : Prop := forall k, Iw bs k.

Lemma iw_unique bs k j j' v v' :
  Iw bs k -> j < length bs -> j' < length bs ->
  nth j bs Empty = Full k v -> nth j' bs Empty = Full k v' -> j = j' /\ v = v'.
Proof.
  intros H Hj Hj' E E'. pose proof (H _ _ Hj E) as P1. pose proof (H _ _ Hj' E') as P2.
  rewrite P1 in P2; inversion P2; auto.
Qed.

Lemma winv_empty n : WInv (repeat Empty n).
Proof. intros k j v _ E. rewrite nth_repeat in E. discriminate. Qed.

(* Slot c is not x's and receives a content the probe for x passes over: x's slots stay as
   they are, so x is found as before and denotes the same. *)
Lemma full_set_other bs c s x j v :
  c < length bs -> cl x (nth c bs Empty) <> CHit -> cl x s = CSkip ->
  (nth j (set_nth c s bs) Empty = Full x v <-> nth j bs Empty = Full x v).
Proof.
  intros Hc Hold Hnew.
  destruct (Nat.eq_dec j c) as [->|Hne]; [|rewrite nth_set_nth_neq by auto; reflexivity].
  rewrite nth_set_nth_eq by auto.
  split; intros E.
  - rewrite E, cl_self in Hnew. discriminate.
  - rewrite E, cl_self in Hold. elim Hold. reflexivity.
Qed.

Lemma iw_set_other bs c s x :
  c < length bs -> cl x (nth c bs Empty) <> CHit -> cl x s = CSkip ->
  Iw bs x -> Iw (set_nth c s bs) x.
Proof.
  intros Hc Hold Hnew H j v Hj E. rewrite length_set_nth in Hj. apply full_set_other in E; auto.
  apply probe_found_ext with bs v; auto using length_set_nth.
  - intros q Hq. destruct (Nat.eq_dec q c) as [->|Hne].
    + rewrite nth_set_nth_eq; auto.
    + rewrite nth_set_nth_neq; auto.
  - apply full_set_other; auto.
Qed.

(* the dictionary a bucket array denotes, read through the probe as hashmap_get2 reads it *)
Definition absf (bs : list slot) (k : K) : option V :=
  match bs with
  | [] => None
  | _ => match probe k bs with Found _ v => Some v | _ => None end
  end.

(* the probe of an empty array is exhausted at once: no case of its own *)
Lemma absf_probe bs k : absf bs k = match probe k bs with Found _ v => Some v | _ => None end.
Proof. destruct bs; reflexivity. Qed.

Lemma absf_some bs k v : WInv bs ->
  (absf bs k = Some v <-> exists j, j < length bs /\ nth j bs Empty = Full k v).
Proof.
  intros HW. rewrite absf_probe. split.
  - destruct (probe k bs) as [j v0| |] eqn:E; try discriminate.
    intros [= <-]. exists j. apply probe_found, E.
  - intros (j & Hj & E). rewrite (HW k j v Hj E). reflexivity.
Qed.

Lemma absf_repeat_empty n x : absf (repeat Empty n) x = None.
Proof.
  destruct (absf (repeat Empty n) x) as [v|] eqn:E; auto.
  apply absf_some in E as (j & _ & Ej); auto using winv_empty.
  rewrite nth_repeat in Ej. discriminate.
Qed.

Lemma absf_set_other bs c s x :
  c < length bs -> cl x (nth c bs Empty) <> CHit -> cl x s = CSkip ->
  WInv bs -> WInv (set_nth c s bs) ->
  absf (set_nth c s bs) x = absf bs x.
Proof.
  intros Hc Hold Hnew HW HW'. apply option_ext. intros v.
  rewrite !absf_some by auto. rewrite length_set_nth.
  split; intros (j & Hj & E); exists j; split; auto; apply (full_set_other bs c s x j v); auto.
Qed.

Definition upd (d : K -> option V) (k : K) (o : option V) : K -> option V :=
  fun x => if keqb x k then o else d x.

Lemma upd_eq d k o : upd d k o k = o.
Proof. unfold upd. rewrite keqb_refl. reflexivity. Qed.

Lemma upd_neq d k o x : x <> k -> upd d k o x = d x.
Proof. intros H. unfold upd. rewrite keqb_neq by auto. reflexivity. Qed.

Lemma upd_same d k x : upd d k (d k) x = d x.
Proof. destruct (keqb_spec x k) as [->|]; [apply upd_eq | apply upd_neq; auto]. Qed.

Lemma upd_fresh d k v x w :
  d k = None -> (upd d k (Some v) x = Some w <-> d x = Some w \/ (k, v) = (x, w)).
Proof.
  intros Hk. destruct (keqb_spec x k) as [->|Hne]; [rewrite upd_eq, Hk | rewrite upd_neq by auto].
  - split; [intros [= ->]; auto | intros [[=]|[= ->]]; reflexivity].
  - split; [auto | intros [|[= <- _]]; [auto | elim Hne; reflexivity]].
Qed.

Definition slot_of (k : K) (o : option V) : slot :=
  match o with Some v => Full k v | None => Tomb end.

Lemma cl_slot_of x k o : x <> k -> cl x (slot_of k o) = CSkip.
Proof. intros H. destruct o as [v|]; [|reflexivity]. unfold slot_of. apply (cl_other k); eauto. Qed.

(* Slot c, the only place where k may live and not the home of any other key, receives k's
   new binding o (a tombstone for none).  The other keys walk past c as before; for k itself
   the caller shows that the probe now ends at c.  [d] is the dictionary the array holds, known
   only pointwise (see [Rep] in HashmapInv.v). *)
Lemma write_slot bs d c k o :
  WInv bs -> (forall x, absf bs x = d x) -> c < length bs ->
  (forall j v, j < length bs -> nth j bs Empty = Full k v -> j = c) ->
  (forall x, x <> k -> cl x (nth c bs Empty) <> CHit) ->
  (forall v, o = Some v -> probe k (set_nth c (Full k v) bs) = Found c v) ->
  WInv (set_nth c (slot_of k o) bs) /\
  forall x, absf (set_nth c (slot_of k o) bs) x = upd d k o x.
Proof.
  intros HW Hd Hc Honly Hold Hprobe.
  assert (Hk : forall j v, j < length bs ->
            nth j (set_nth c (slot_of k o) bs) Empty = Full k v -> j = c /\ o = Some v).
  { intros j v Hj E. destruct (Nat.eq_dec j c) as [->|Hjc].
    - rewrite nth_set_nth_eq in E by auto. destruct o; [injection E as ->; auto | discriminate].
    - rewrite nth_set_nth_neq in E by auto. elim Hjc; eauto. }
  assert (HW' : WInv (set_nth c (slot_of k o) bs)).
  { intros x. destruct (keqb_spec x k) as [->|Hne]; [|apply iw_set_other; auto using cl_slot_of].
    intros j v Hj E. rewrite length_set_nth in Hj.
    destruct (Hk j v Hj E) as [-> ->]. apply Hprobe. reflexivity. }
  split; auto. intros x.
  destruct (keqb_spec x k) as [->|Hne];
    [rewrite upd_eq | rewrite upd_neq, <- Hd by auto; apply absf_set_other; auto using cl_slot_of].
  apply option_ext. intros v. rewrite absf_some, length_set_nth by auto. split.
  - intros (j & Hj & E). apply (Hk j v Hj E).
  - intros ->. exists c. rewrite nth_set_nth_eq; auto.
Qed.

(* the key is present: its slot is overwritten or turned into a tombstone *)
Lemma write_found bs d k j v0 o :
  WInv bs -> (forall x, absf bs x = d x) -> probe k bs = Found j v0 ->
  j < length bs /\ nth j bs Empty = Full k v0 /\
  WInv (set_nth j (slot_of k o) bs) /\
  forall x, absf (set_nth j (slot_of k o) bs) x = upd d k o x.
Proof.
  intros HW Hd Pr. destruct (probe_found _ _ _ _ Pr) as [Hj E]. split; [|split]; auto.
  apply write_slot; auto.
  - intros j' v' Hj' E'. destruct (iw_unique bs k j' j v' v0 (HW k)); auto.
  - intros x Hne. rewrite E, (cl_other k x) by eauto. discriminate.
  - intros v _. apply probe_found_ext with bs v0; auto using length_set_nth, nth_set_nth_eq.
    intros q Hq. rewrite nth_set_nth_neq; auto. intros ->. rewrite E, cl_self in Hq. discriminate.
Qed.

(* the key is absent: it takes the first tombstone met, else the terminating empty slot *)
Lemma write_stop bs d k e t v :
  WInv bs -> (forall x, absf bs x = d x) -> probe k bs = Stop e t ->
  claim e t < length bs /\
  nth (claim e t) bs Empty = match t with Some _ => Tomb | None => Empty end /\
  WInv (set_nth (claim e t) (Full k v) bs) /\
  forall x, absf (set_nth (claim e t) (Full k v) bs) x = upd d k (Some v) x.
Proof.
  intros HW Hd Pr. pose proof Pr as Pw. rewrite probe_eq in Pw.
  destruct (walk_stop_claim _ _ _ _ _ v (pseq_bound _ _) Pw) as (Hc & E & Pw').
  split; [|split]; auto. apply (write_slot bs d _ k (Some v)); auto.
  - intros j v' Hj E'. rewrite (HW k j v' Hj E') in Pr. discriminate.
  - intros x _. rewrite E. destruct t; discriminate.
  - intros v1 [= <-]. rewrite probe_eq, length_set_nth. exact Pw'.
Qed.

End Walk.
