From Coq Require Import List ZArith Bool Lia.
From Chibicc Require Import Model.Atomic.
Import ListNotations.
Local Open Scope Z_scope.

Section Proofs.
Variable M : Z.
Notation wrap := (wrap M).
Notation step := (step M).
Notation run := (run M).
Notation seq_apply := (seq_apply M).
Notation replay := (replay M).
Notation consistent := (consistent M).

Lemma replay_app m h e : replay m (h ++ [e]) = fst (seq_apply (e_op e) (replay m h)).
Proof. revert m; induction h as [|x h IH]; intros m; cbn [replay app]; auto. Qed.

Lemma consistent_app m h e :
  consistent m (h ++ [e]) <->
  consistent m h /\ e_before e = replay m h /\ e_result e = snd (seq_apply (e_op e) (replay m h)).
Proof.
  revert m; induction h as [|x h IH]; intros m; cbn [consistent replay app].
  - tauto.
  - rewrite IH. tauto.
Qed.

Lemma nth_error_upd ts : forall i t j, (i < length ts)%nat ->
  nth_error (upd_thread ts i t) j = if Nat.eqb j i then Some t else nth_error ts j.
Proof.
  unfold upd_thread. induction ts as [|a ts IH]; intros i t j Hi; [cbn in Hi; lia|].
  destruct i as [|i]; destruct j as [|j]; cbn [firstn skipn app nth_error Nat.eqb]; auto.
  apply IH. cbn in Hi. lia.
Qed.

Definition mine (i : nat) (h : list event) : list event := filter (fun e => Nat.eqb (e_tid e) i) h.

Lemma mine_app i h e : mine i (h ++ [e]) = mine i h ++ (if Nat.eqb (e_tid e) i then [e] else []).
Proof. unfold mine. rewrite filter_app. cbn [filter]. destruct (Nat.eqb (e_tid e) i); reflexivity. Qed.

Variable init : Z.
Variable progs0 : list (list aop).

Definition thread_ok (s : sys) (i : nat) (t : thread) : Prop :=
  nth_error progs0 i = Some (map e_op (mine i (hist s)) ++ prog t) /\
  results t = map e_result (mine i (hist s)).

Definition Inv (s : sys) : Prop :=
  consistent init (hist s) /\ replay init (hist s) = mem s /\
  (forall i t, nth_error (threads s) i = Some t -> thread_ok s i t).

Definition init_sys : sys :=
  {| mem := init; threads := map (fun p => {| prog := p; at_pc := PStart; results := [] |}) progs0; hist := [] |}.

Lemma inv_init : Inv init_sys.
Proof.
  split; [exact I|]. split; [reflexivity|]. intros i t H. cbn [threads init_sys] in H.
  rewrite nth_error_map in H. unfold thread_ok. destruct (nth_error progs0 i); inversion H. split; reflexivity.
Qed.

Lemma inv_stay s i t t' : Inv s -> nth_error (threads s) i = Some t -> prog t' = prog t -> results t' = results t ->
  Inv {| mem := mem s; threads := upd_thread (threads s) i t'; hist := hist s |}.
Proof.
  intros [Hc [Hr Ht]] Et Ep Eres. split; [exact Hc|]. split; [exact Hr|]. cbn [threads].
  intros j tj Hj. rewrite nth_error_upd in Hj by (apply nth_error_Some; congruence).
  destruct (Nat.eqb_spec j i) as [->|Hne]; [|exact (Ht j tj Hj)].
  injection Hj as <-. unfold thread_ok. rewrite Ep, Eres. exact (Ht i t Et).
Qed.

(* the step that completes an operation is its linearization point: the event it appends records what [seq_apply]
   gives on the memory of that very step *)
Lemma inv_finish s i t op rest m' r : Inv s -> nth_error (threads s) i = Some t -> prog t = op :: rest ->
  seq_apply op (mem s) = (m', r) ->
  Inv {| mem := m'; threads := upd_thread (threads s) i {| prog := rest; at_pc := PStart; results := results t ++ [r] |};
         hist := hist s ++ [{| e_tid := i; e_op := op; e_before := mem s; e_result := r |}] |}.
Proof.
  intros [Hc [Hr Ht]] Et Ep Hseq. unfold Inv; cbn [mem threads hist].
  split; [apply consistent_app; cbn [e_before e_result e_op]; rewrite Hr, Hseq; auto|].
  split; [rewrite replay_app; cbn [e_op]; rewrite Hr, Hseq; reflexivity|].
  intros j tj Hj. rewrite nth_error_upd in Hj by (apply nth_error_Some; congruence). unfold thread_ok; cbn [hist].
  rewrite mine_app; cbn [e_tid].
  destruct (Nat.eqb_spec j i) as [->|Hne].
  - injection Hj as <-. destruct (Ht i t Et) as [Hp Hres]. cbn [prog results]. rewrite Nat.eqb_refl, !map_app. cbn [map e_op e_result].
    rewrite <- app_assoc. cbn [app]. rewrite <- Ep, Hres. split; [exact Hp|reflexivity].
  - replace (Nat.eqb i j) with false by (symmetry; apply Nat.eqb_neq; congruence). rewrite app_nil_r.
    exact (Ht j tj Hj).
Qed.

Lemma inv_step s i : Inv s -> Inv (step s i).
Proof.
  intros HI. unfold Atomic.step.
  destruct (nth_error (threads s) i) as [t|] eqn:Et; [|exact HI].
  destruct (prog t) as [|op rest] eqn:Ep; [exact HI|].
  pose proof (fun pc' => inv_stay s i t {| prog := op :: rest; at_pc := pc'; results := results t |} HI Et (eq_sym Ep) eq_refl) as Hstay.
  pose proof (fun m' r => inv_finish s i t op rest m' r HI Et Ep) as Hfin.
  destruct op as [f rn|v|e d]; [destruct (at_pc t) as [|old]; [apply Hstay|]|apply Hfin; reflexivity|].
  - (* lock cmpxchg succeeds only on the value loaded, so f is applied to the memory of this very step *)
    destruct (mem s =? old) eqn:Em; [|apply Hstay].
    apply Z.eqb_eq in Em. apply Hfin. cbn [Atomic.seq_apply]. rewrite Em. reflexivity.
  - destruct (mem s =? e) eqn:Em; apply Hfin; cbn [Atomic.seq_apply]; rewrite Em; reflexivity.
Qed.

Theorem inv_run sched : Inv (run init_sys sched).
Proof.
  unfold Atomic.run. generalize inv_init. generalize init_sys.
  induction sched as [|i r IH]; intros s Hs; cbn [fold_left]; auto using inv_step.
Qed.

Lemma consistent_in m h ev : consistent m h -> In ev h -> e_result ev = snd (seq_apply (e_op ev) (e_before ev)).
Proof.
  revert m; induction h as [|a h IH]; intros m Hc Hin; [contradiction|]. destruct Hc as [Hb [Hr Hc]].
  destruct Hin as [->|Hin]; [rewrite Hb; exact Hr|exact (IH _ Hc Hin)].
Qed.

Lemma cas_failed m e d x : RCas false x = snd (seq_apply (Cas e d) m) -> x = m /\ m <> e.
Proof.
  cbn [Atomic.seq_apply]. destruct (m =? e) eqn:E; intros H; inversion H. split; [reflexivity|]. apply Z.eqb_neq. exact E.
Qed.

Definition is_add (op : aop) (c : Z) : Prop := exists rn, op = Rmw (fun m => m + c) rn.

(* additions commute with the wrap-around, so a history of additions leaves the wrapped sum *)
Lemma replay_adds h : forall m cs, m = wrap m -> Forall2 (fun e c => is_add (e_op e) c) h cs ->
  replay m h = wrap (m + fold_right Z.add 0 cs).
Proof.
  induction h as [|e h IH]; intros m cs Hm H; inversion H as [|? c ? cs' [rn Hop] H']; subst; cbn [replay fold_right].
  - rewrite Z.add_0_r. exact Hm.
  - rewrite Hop. cbn [Atomic.seq_apply fst]. rewrite (IH (wrap (m + c)) cs' (eq_sym (Zmod_mod _ _)) H').
    unfold Atomic.wrap. rewrite Zplus_mod_idemp_l, Z.add_assoc. reflexivity.
Qed.
End Proofs.
