(* How a value of an integer type sits in %rax, and the integer part of the cast table of codegen.c: every entry,
   run on the representation of a value of the source type, leaves the representation of the converted value. *)
From Chibicc Require Import Base.Mach Spec.C11Int Model.X86Int Model.CodegenInt Gen.CastTable
     Model.ConstFold Proofs.ConstFoldProofs.
Local Open Scope Z_scope.

(* how a C value of a type sits in %rax (the comments of load() in codegen.c) *)
Definition R (t : ity) (v r : Z) : Prop :=
  0 <= r < 2 ^ 64 /\
  match t with
  | IBool => r = v
  | I64 | U64 => r = v mod 2 ^ 64
  | _ => r mod 2 ^ 32 = v mod 2 ^ 32
  end.

(* R says: the register agrees with the value modulo 2^n, n the operand size of the type, 32 or 64
   (for _Bool more: it is the value).  R_eqmn takes that out of R, R_intro puts it in; the forms by size
   further down are their instances. *)
Definition wbits (t : ity) : Z := bits (opw t).

Lemma wbits_cases t : wbits t = 32 \/ wbits t = 64.
Proof. unfold wbits, opw. destruct (size_of t =? 8); auto. Qed.
Lemma wbits_small t : size_of t <> 8 -> wbits t = 32.
Proof. unfold wbits, opw. intros H. destruct (Z.eqb_spec (size_of t) 8); [contradiction|reflexivity]. Qed.
Lemma wbits_full t : size_of t = 8 -> wbits t = 64.
Proof. unfold wbits, opw. intros ->. reflexivity. Qed.

Lemma R_eqmn t v r : R t v r -> r mod 2 ^ wbits t = v mod 2 ^ wbits t.
Proof. intros [_ H]. destruct t; try exact H; subst r; [reflexivity|apply Zmod_mod..]. Qed.

Lemma R_intro t v r : t <> IBool -> 0 <= r < 2 ^ 64 -> r mod 2 ^ wbits t = v mod 2 ^ wbits t -> R t v r.
Proof.
  intros Ht Hr H. split; [exact Hr|]. destruct t; try congruence; try exact H;
    rewrite <- (Z.mod_small r (2 ^ 64) Hr); exact H.
Qed.

Lemma mod_pow2_small v m n : 0 <= m <= n -> (v mod 2 ^ m) mod 2 ^ n = v mod 2 ^ m.
Proof.
  intros H. apply Z.mod_small. pose proof (Z.mod_pos_bound v (2 ^ m) ltac:(apply Z.pow_pos_nonneg; lia)).
  pose proof (Z.pow_le_mono_r 2 m n eq_refl (proj2 H)). lia.
Qed.

(* anything congruent to the value, cut to k >= n bits, represents it: what an extension, a k-bit write or
   mov $v leaves *)
Lemma R_cut t v z k : t <> IBool -> wbits t <= k <= 64 -> z mod 2 ^ wbits t = v mod 2 ^ wbits t -> R t v (z mod 2 ^ k).
Proof.
  intros Ht Hk H. assert (0 <= wbits t) by (destruct (wbits_cases t); lia). apply R_intro; [exact Ht| |].
  - rewrite <- (mod_pow2_small z k 64) by lia. apply Z.mod_pos_bound. reflexivity.
  - rewrite mod_pow2_mod by lia. exact H.
Qed.

(* every representation fixes the low 32 bits; that is all a type narrower than long asks for *)
Lemma R_low t v r : R t v r -> r mod 2 ^ 32 = v mod 2 ^ 32.
Proof. intros H. apply (mod_pow2_eq r v 32 (wbits t)); [destruct (wbits_cases t); lia|apply R_eqmn, H]. Qed.

Lemma R_of_low t x r : t <> IBool -> size_of t <> 8 -> 0 <= r < 2 ^ 64 -> r mod 2 ^ 32 = x mod 2 ^ 32 -> R t x r.
Proof. intros Ht Hs Hb Hl. apply R_intro; [exact Ht|exact Hb|]. rewrite (wbits_small t Hs). exact Hl. Qed.

Lemma R_of_full t x r : size_of t = 8 -> r = x mod 2 ^ 64 -> R t x r.
Proof.
  intros Hs ->. apply R_cut; [intros ->; discriminate Hs|rewrite (wbits_full t Hs); split; apply Z.le_refl|reflexivity].
Qed.

Lemma R_mod t x k : t <> IBool -> size_of t <> 8 -> 32 <= k <= 64 -> R t x (x mod 2 ^ k).
Proof. intros Ht Hs Hk. apply R_cut; [exact Ht|rewrite (wbits_small t Hs); exact Hk|reflexivity]. Qed.

(* the values of a type lie in a window of length 2^n *)
Definition wmin (t : ity) : Z := if is_signed t then - 2 ^ (wbits t - 1) else 0.

Lemma in_range_fits t v : in_range t v = true -> wmin t <= v < wmin t + 2 ^ wbits t.
Proof.
  unfold in_range. intros H. apply andb_true_iff in H as [H1 H2]. apply Z.leb_le in H1, H2.
  assert (wmin t <= tmin t /\ tmax t < wmin t + 2 ^ wbits t) as [L U] by (destruct t; split; easy).
  lia.
Qed.

(* a register holding v : f, read at a type t that has all values of f and is no wider than the operand size
   of f, gives v back *)
Lemma read_val f t v r : t <> IBool -> in_range f v = true -> R f v r -> represents_all t f = true -> width t <= wbits f ->
  conv t r = v.
Proof.
  intros Ht Hv HR Hs Hw. apply conv_unique; [exact Ht|exact (in_range_sub t f v Hs Hv)|].
  apply (mod_pow2_eq r v _ (wbits f)); [pose proof (width_bounds t); lia|apply R_eqmn, HR].
Qed.

Lemma R_b2z b r : r = b2z b -> R I32 (b2z b) r.
Proof. intros ->. destruct b; (split; [split; [discriminate|reflexivity]|reflexivity]). Qed.
Lemma Rbool_b2z b r : r = b2z b -> R IBool (b2z b) r.
Proof. intros ->. destruct b; (split; [split; [discriminate|reflexivity]|reflexivity]). Qed.

(* mov $v, %rax *)
Lemma R_imm t v s : in_range t v = true -> R t v (rax (set_rax s (v mod 2 ^ 64))).
Proof.
  intros Hr. destruct (ity_eqb t IBool) eqn:E.
  - destruct t; try discriminate E. apply (range_unsigned IBool v eq_refl) in Hr. cbn [width] in Hr.
    split; [apply Z.mod_pos_bound; reflexivity|apply Z.mod_small; lia].
  - apply R_cut; [intros ->; discriminate E|destruct (wbits_cases t); lia|reflexivity].
Qed.

(* What the integer part of the table holds.  A cast to a type narrower than int extends the low
   bits of %eax, unless every value of the source type is a value of the target; a cast to int or
   unsigned int emits nothing; a cast to a 64-bit type extends %eax as the promoted source type
   says, unless the source is itself 64 bits wide.  _Bool as a source falls to getTypeId's
   default, the row of unsigned long. *)
Definition ext_insn (t : ity) : insn :=
  match t with I8 => IMovsbl | U8 => IMovzbl | I16 => IMovswl | U16 => IMovzwl | U32 => IMovEaxEax | _ => IMovsxd end.

Definition row (t : ity) : ity := match t with IBool => U64 | _ => t end.

Definition cast_insns (from to : ity) : list insn :=
  match to with
  | IBool => gen_cmp_zero from ++ [ISet CNE; IMovzxEax]
  | I32 | U32 => []
  | I64 | U64 => if size_of (row from) =? 8 then [] else [ext_insn (promote from)]
  | _ => if represents_all to (row from) then [] else [ext_insn to]
  end.

Lemma cast_table_insns from to : gen_cast cast_table from to = Some (cast_insns from to).
Proof. destruct from, to; reflexivity. Qed.

(* movsbl, movswl and the zero extensions write %eax; movsxd and mov %eax,%eax fill %rax *)
Definition ext_bits (t : ity) : Z := if size_of t =? 4 then 64 else 32.

Lemma ext_bits_bounds t : 32 <= ext_bits t <= 64.
Proof. unfold ext_bits. destruct (size_of t =? 4); lia. Qed.

Lemma width_le_32 t : size_of t <> 8 -> 0 <= width t <= 32.
Proof. destruct t; cbn [width]; intros H; try lia; now elim H. Qed.

Lemma exec_ext t s v : t <> IBool -> size_of t <> 8 -> rax s mod 2 ^ 32 = v mod 2 ^ 32 ->
  exec [ext_insn t] s = Some (set_rax s (conv t v mod 2 ^ ext_bits t)).
Proof.
  intros Ht Hs Hl.
  assert (E : conv t (rax s) = conv t v).
  { apply conv_cong; [exact Ht|]. apply (mod_pow2_eq _ _ (width t) 32); [apply width_le_32, Hs|exact Hl]. }
  rewrite <- E. destruct t; try congruence; try (now elim Hs); try reflexivity.
  (* the sign extensions hold by computation; a zero extension leaves conv itself, which is below 2^32 *)
  all: cbn [exec exec1 ext_insn]; rewrite conv_unsigned by (reflexivity || discriminate);
    rewrite mod_pow2_small by (cbn; lia); reflexivity.
Qed.

Lemma row_range t v : in_range t v = true -> in_range (row t) v = true.
Proof. destruct t; try (intros H; exact H). apply in_range_sub. reflexivity. Qed.

Lemma cast_to_narrow from to v s : to <> IBool -> size_of to <? 4 = true ->
  in_range from v = true -> R from v (rax s) ->
  exists s', exec (if represents_all to (row from) then [] else [ext_insn to]) s = Some s' /\ R to (conv to v) (rax s').
Proof.
  intros Ht Hs Hr HR. pose proof (R_low _ _ _ HR) as Hl. assert (Hs' : size_of to <> 8) by lia.
  destruct (represents_all to (row from)) eqn:E.
  - exists s. split; [reflexivity|]. apply R_of_low; [exact Ht|exact Hs'|exact (proj1 HR)|].
    rewrite conv_in_range; [exact Hl|]. apply (in_range_sub to (row from)); [exact E|apply row_range, Hr].
  - eexists. split; [apply exec_ext; eassumption|]. apply R_mod; [assumption..|apply ext_bits_bounds].
Qed.

Lemma cast_to_int from to v s : to <> IBool -> width to = 32 -> R from v (rax s) -> R to (conv to v) (rax s).
Proof.
  intros Ht Hw HR. apply R_of_low; [exact Ht|destruct to; discriminate|exact (proj1 HR)|].
  rewrite (R_low _ _ _ HR). symmetry. rewrite <- Hw. apply conv_mod, Ht.
Qed.

Lemma R_full from v r : size_of (row from) = 8 -> in_range from v = true -> R from v r -> r = v mod 2 ^ 64.
Proof.
  destruct from; try discriminate; intros _ Hr [_ H]; try exact H.
  subst r. symmetry. apply Z.mod_small. apply (range_unsigned IBool v eq_refl) in Hr. cbn [width] in Hr. lia.
Qed.

Lemma promote_size t : size_of (row t) <> 8 -> size_of (promote t) = 4.
Proof. destruct t; intros H; try reflexivity; now elim H. Qed.

Lemma cast_to_long from to v s : width to = 64 -> in_range from v = true -> R from v (rax s) ->
  exists s', exec (if size_of (row from) =? 8 then [] else [ext_insn (promote from)]) s = Some s' /\ R to (conv to v) (rax s').
Proof.
  intros Hw Hr HR. assert (Ht : to <> IBool) by (intros ->; discriminate).
  assert (Hs : size_of to = 8) by (destruct to; try discriminate; reflexivity).
  pose proof (conv_mod to v Ht) as Hc. rewrite Hw in Hc.
  destruct (Z.eqb_spec (size_of (row from)) 8) as [E|E].
  - exists s. split; [reflexivity|]. apply R_of_full; [exact Hs|]. rewrite Hc. apply (R_full from); assumption.
  - pose proof (promote_size from E) as Hp.
    eexists. split; [apply exec_ext; [apply promote_not_bool|lia|apply (R_low _ _ _ HR)]|].
    cbn [rax set_rax]. apply R_of_full; [exact Hs|].
    unfold ext_bits. rewrite Hp, Hc, (conv_in_range _ v (promote_range _ _ Hr)). reflexivity.
Qed.

(* cmp $0 reads the operand size of the type *)
Lemma cmp_zero_opw t : (if size_of t <=? 4 then W32 else W64) = opw t.
Proof. destruct t; reflexivity. Qed.

Lemma R_zero from v r : in_range from v = true -> R from v r ->
  (lo (if size_of from <=? 4 then W32 else W64) r =? 0) = (v =? 0).
Proof.
  intros Hr HR. rewrite cmp_zero_opw. unfold lo. fold (wbits from). rewrite (R_eqmn _ _ _ HR).
  apply mod_eqb_zero. pose proof (in_range_fits _ _ Hr) as F. unfold wmin in F.
  assert (0 < 2 ^ (wbits from - 1) /\ 2 ^ wbits from = 2 * 2 ^ (wbits from - 1))
    by (destruct (wbits_cases from) as [-> | ->]; split; reflexivity).
  destruct (is_signed from); lia.
Qed.

(* cmp $0 ; setne %al ; movzx %al, %eax.  The test reads %eax or %rax by the size of the source:
   the bits it reads are zero exactly when the value is (R_zero). *)
Lemma cast_to_bool from v s : in_range from v = true -> R from v (rax s) ->
  exists s', exec (gen_cmp_zero from ++ [ISet CNE; IMovzxEax]) s = Some s' /\ R IBool (conv IBool v) (rax s').
Proof.
  intros Hr HR. eexists. split; [reflexivity|].
  cbn [gen_cmp_zero app exec1 set_al set_rax cond rax f_zf]. rewrite (R_zero from v _ Hr HR).
  unfold conv. destruct (v =? 0); cbn [negb]; split; lia.
Qed.

Lemma cast_insns_ok from to v s : in_range from v = true -> R from v (rax s) ->
  exists s', exec (cast_insns from to) s = Some s' /\ R to (conv to v) (rax s').
Proof.
  intros Hr HR. destruct to; cbn [cast_insns].
  1: apply cast_to_bool; assumption.
  1-4: apply cast_to_narrow; (assumption || discriminate || reflexivity).
  1-2: exists s; split; [reflexivity|]; apply (cast_to_int from); (assumption || discriminate || reflexivity).
  all: apply cast_to_long; (assumption || reflexivity).
Qed.

Theorem cast_table_correct from to v s : in_range from v = true -> R from v (rax s) ->
  exists p s', gen_cast cast_table from to = Some p /\ exec p s = Some s' /\ R to (conv to v) (rax s').
Proof.
  intros Hr HR. destruct (cast_insns_ok from to v s Hr HR) as [s' H].
  exists (cast_insns from to), s'. split; [apply cast_table_insns|exact H].
Qed.
