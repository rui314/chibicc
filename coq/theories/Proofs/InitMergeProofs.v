From Chibicc Require Import Base.Mach Model.Bitfield Model.InitMerge Proofs.BitfieldProofs.
Local Open Scope Z_scope.

Definition wf_field (f : field) : Prop := let '(_, off, w) := f in 0 <= off /\ 0 < w /\ off + w <= 64.
Definition disjoint (f g : field) : Prop := let '(_, o1, w1) := f in let '(_, o2, w2) := g in o1 + w1 <= o2 \/ o2 + w2 <= o1.
Definition clear (u : Z) (f : field) : Prop := let '(_, off, w) := f in forall i, off <= i < off + w -> Z.testbit u i = false.

Lemma static_bits u v off w i : 0 <= off -> 0 < w -> off + w <= 64 -> 0 <= i -> i < 64 ->
  Z.testbit (static_merge u (v, off, w)) i = Z.testbit u i || ((off <=? i) && (i <? off + w) && Z.testbit v (i - off)).
Proof.
  intros Ho Hw Hs Hi Hi64. unfold static_merge.
  rewrite w64_bit, Z.lor_spec, Z.shiftl_spec, Z.land_spec, Z.testbit_ones by lia.
  replace (i <? 64) with true by lia.
  replace ((0 <=? i - off) && (i - off <? w)) with ((off <=? i) && (i <? off + w)) by lia.
  rewrite andb_true_r, (andb_comm (Z.testbit v _)). reflexivity.
Qed.

(* on a unit whose field bits are still zero, OR-ing the value in is the same as the masked store
   (both end in w64, so nothing need be known of the unit above bit 63) *)
Lemma merge_same u f : wf_field f -> clear u f -> static_merge u f = auto_merge u f.
Proof.
  destruct f as [[v off] w]. intros (Ho & Hw & Hs) Hc. apply Z.bits_inj'. intros i Hi. unfold auto_merge.
  destruct (Z.ltb_spec i 64) as [Hi64|Hi64].
  - rewrite static_bits, store_bits by lia.
    destruct (Z.leb_spec off i); destruct (Z.ltb_spec i (off + w)); cbn [andb]; rewrite ?orb_false_r; try reflexivity.
    rewrite (Hc i) by lia. reflexivity.
  - rewrite store_high by lia. apply w64_high, Hi64.
Qed.

Lemma auto_keeps_clear u f g : wf_field f -> wf_field g -> disjoint f g -> clear u g -> clear (auto_merge u f) g.
Proof.
  destruct f as [[v off] w], g as [[v2 off2] w2]. intros (Ho & Hw & Hs) (Ho2 & Hw2 & Hs2) Hd Hc i Hi.
  unfold auto_merge. rewrite store_keeps_other_bits by (cbn in Hd; lia). apply Hc. exact Hi.
Qed.

(* the two folds agree from any unit that is still zero at every field yet to come *)
Lemma merges_agree fs : forall u, Forall (clear u) fs -> Forall wf_field fs -> ForallOrdPairs disjoint fs ->
  fold_left static_merge fs u = fold_left auto_merge fs u.
Proof.
  induction fs as [|f r IH]; intros u Hc Hw Hd; [reflexivity|]. cbn [fold_left].
  inversion_clear Hc as [|? ? Hcf Hcr]. inversion_clear Hw as [|? ? Hwf Hwr]. inversion_clear Hd as [|? ? Hdf Hdr].
  rewrite (merge_same u f Hwf Hcf). apply IH; [|assumption..].
  rewrite Forall_forall in *. intros g Hg. apply auto_keeps_clear; auto.
Qed.

Theorem static_equals_auto : forall fs, Forall wf_field fs -> ForallOrdPairs disjoint fs -> static_unit fs = auto_unit fs.
Proof.
  intros fs. apply merges_agree. apply Forall_forall. intros [[v off] w] _ i _. apply Z.bits_0.
Qed.

