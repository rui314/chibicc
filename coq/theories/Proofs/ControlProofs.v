(* The compare-and-branch chain emitted for a switch reaches the case C11 selects; the
   declarations of a block touch only its own frame. *)
From Chibicc Require Import Base.Mach Model.Control.
Local Open Scope Z_scope.

(* a value of the promoted controlling type: signed or unsigned, w bits *)
Definition in_ty (w : Z) (sgn : bool) (v : Z) : Prop :=
  if sgn then - 2 ^ (w - 1) <= v < 2 ^ (w - 1) else 0 <= v < 2 ^ w.

(* C11 6.8.4.2 (+ GNU ranges): the case whose value, converted to the promoted controlling type, is equal
   to (resp. whose converted bounds enclose) the controlling value *)
Definition conv (w : Z) (sgn : bool) (v : Z) : Z := if sgn then (v + 2 ^ (w - 1)) mod 2 ^ w - 2 ^ (w - 1) else v mod 2 ^ w.
Definition matches (w : Z) (sgn : bool) (v : Z) (c : case) : Prop := conv w sgn (c_begin c) <= v <= conv w sgn (c_end c).

Definition wf_case (w : Z) (sgn : bool) (c : case) : Prop := conv w sgn (c_begin c) <= conv w sgn (c_end c).

(* Both types are a window [-o, 2^w - o) of length 2^w, o = 2^(w-1) or 0, and conv picks from a residue
   class its member in the window. *)
Definition off (w : Z) (sgn : bool) : Z := if sgn then 2 ^ (w - 1) else 0.

Lemma in_ty_off w sgn v : (w = 32 \/ w = 64) -> in_ty w sgn v -> - off w sgn <= v < - off w sgn + 2 ^ w.
Proof.
  intros Hw. assert (E : 2 ^ w = 2 * 2 ^ (w - 1)) by (destruct Hw as [-> | ->]; reflexivity).
  unfold in_ty, off. destruct sgn; lia.
Qed.
Lemma conv_off w sgn x : conv w sgn x = (x + off w sgn) mod 2 ^ w - off w sgn.
Proof. unfold conv, off. destruct sgn; [reflexivity|]. rewrite Z.add_0_r, Z.sub_0_r. reflexivity. Qed.
Lemma conv_in_window w sgn x : (w = 32 \/ w = 64) -> - off w sgn <= conv w sgn x < - off w sgn + 2 ^ w.
Proof.
  intros Hw. rewrite conv_off. assert (0 < 2 ^ w) by (destruct Hw as [-> | ->]; reflexivity).
  pose proof (Z.mod_pos_bound (x + off w sgn) (2 ^ w)). lia.
Qed.
Lemma conv_id w sgn v : (w = 32 \/ w = 64) -> in_ty w sgn v -> conv w sgn v = v.
Proof. intros Hw Hv. apply (in_ty_off w sgn v Hw) in Hv. rewrite conv_off, Z.mod_small by lia. ring. Qed.
Lemma conv_cong w sgn x : wrap w (conv w sgn x) = wrap w x.
Proof. unfold wrap. rewrite conv_off, Zminus_mod, Zmod_mod, <- Zminus_mod. f_equal. ring. Qed.
Lemma conv_wrap w sgn x y : wrap w x = wrap w y <-> conv w sgn x = conv w sgn y.
Proof.
  split; intros H.
  - unfold wrap in H. rewrite !conv_off, (Zplus_mod x), H, <- Zplus_mod. reflexivity.
  - rewrite <- (conv_cong w sgn x), H. apply conv_cong.
Qed.

Lemma window_diff m l x y : l <= x < l + m -> l <= y < l + m ->
  (x - y) mod m = if y <=? x then x - y else x - y + m.
Proof.
  intros Hx Hy. destruct (Z.leb_spec y x); [apply Z.mod_small; lia|].
  symmetry. apply (Z.mod_unique _ _ (-1)); lia.
Qed.

Lemma wrap_sub w sgn x y : (w = 32 \/ w = 64) ->
  wrap w (x - y) = if conv w sgn y <=? conv w sgn x then conv w sgn x - conv w sgn y else conv w sgn x - conv w sgn y + 2 ^ w.
Proof.
  intros Hw. rewrite <- (window_diff _ _ _ _ (conv_in_window w sgn x Hw) (conv_in_window w sgn y Hw)).
  unfold wrap. rewrite (Zminus_mod (conv w sgn x)). fold (wrap w (conv w sgn x)) (wrap w (conv w sgn y)).
  rewrite !conv_cong. apply Zminus_mod.
Qed.

Definition case_hit (w v : Z) (c : case) : bool :=
  if c_begin c =? c_end c then wrap w v =? wrap w (c_begin c) else wrap w (v - c_begin c) <=? wrap w (c_end c - c_begin c).

Lemma dispatch_cons w v c r dflt brk :
  dispatch w v (c :: r) dflt brk = if case_hit w v c then c_label c else dispatch w v r dflt brk.
Proof. unfold case_hit. cbn [dispatch]. destruct (c_begin c =? c_end c); reflexivity. Qed.

Lemma case_test w sgn v c : (w = 32 \/ w = 64) -> in_ty w sgn v -> wf_case w sgn c ->
  case_hit w v c = true <-> matches w sgn v c.
Proof.
  intros Hw Hv Hc. unfold case_hit, matches, wf_case in *.
  pose proof (in_ty_off w sgn v Hw Hv) as Wv.
  pose proof (conv_in_window w sgn (c_begin c) Hw) as Wb. pose proof (conv_in_window w sgn (c_end c) Hw) as We.
  destruct (c_begin c =? c_end c) eqn:E.
  - apply Z.eqb_eq in E. rewrite <- E, Z.eqb_eq, (conv_wrap w sgn), (conv_id w sgn v Hw Hv). lia.
  - rewrite Z.leb_le, !(wrap_sub w sgn), (conv_id w sgn v Hw Hv) by exact Hw.
    destruct (_ <=? v) eqn:E1; destruct (_ <=? conv w sgn (c_end c)) eqn:E2; lia.
Qed.

Theorem dispatch_first_match w sgn v cs dflt brk : (w = 32 \/ w = 64) -> in_ty w sgn v -> Forall (wf_case w sgn) cs ->
  (exists pre c post, cs = pre ++ c :: post /\ matches w sgn v c /\ Forall (fun c' => ~ matches w sgn v c') pre /\ dispatch w v cs dflt brk = c_label c)
  \/ (Forall (fun c' => ~ matches w sgn v c') cs /\ dispatch w v cs dflt brk = match dflt with Some l => l | None => brk end).
Proof.
  intros Hw Hv Hc. induction Hc as [|c r Hc0 Hr IH]; [right; split; [constructor|reflexivity]|].
  rewrite dispatch_cons. pose proof (case_test w sgn v c Hw Hv Hc0) as T. destruct (case_hit w v c).
  - left. exists [], c, r. split; [reflexivity|split; [apply T; reflexivity|split; [constructor|reflexivity]]].
  - assert (~ matches w sgn v c) by (intros M; apply T in M; discriminate).
    destruct IH as [(pre & c' & post & -> & M & Hp & D)|[Hn D]].
    + left. exists (c :: pre), c', post. split; [reflexivity|split; [exact M|split; [constructor; assumption|exact D]]].
    + right. split; [constructor; assumption|exact D].
Qed.

Section S.
Variables K V T : Type.
Notation scopes := (scopes K V T).

(* the declarations made inside a block, in order *)
Fixpoint declare (s : scopes) (ds : list (K * V + K * T)) : scopes :=
  match ds with
  | [] => s
  | inl (k, v) :: r => declare (push_var K V T s k v) r
  | inr (k, t) :: r => declare (push_tag K V T s k t) r
  end.

Lemma declare_top : forall ds f (s : scopes), tl (declare (f :: s) ds) = s.
Proof. induction ds as [|[[k v]|[k t]] r IH]; intros f s; cbn [declare push_var push_tag]; [reflexivity|apply IH..]. Qed.
End S.
