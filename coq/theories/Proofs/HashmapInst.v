(* The refinement theorem at the instance of Model/HashmapC.v, the one hashmap.c uses ([consts_ok],
   [C17_refines_proof]); the insertion rule hashmap.c had before /repo commit ae6c306 ([old_insert]) and the
   concrete histories of Properties_C17.v *)
From Coq Require Import List NArith Bool Lia.
From Chibicc Require Import Base.ListFacts Model.Hashmap Gen.HashmapConsts Model.HashmapC
     Proofs.HashmapWalk Proofs.HashmapInv Proofs.HashmapRefine.
Import ListNotations.
Local Open Scope N_scope.

Lemma bytes_eqb_eq : forall a b, bytes_eqb a b = true <-> a = b.
Proof. exact (eqb_list_eq N.eqb N.eqb_eq). Qed.

Definition c_lookup (m : cmap) (name : bytes) : option N := absf bytes N bytes_eqb fnv (buckets m) name.
Definition c_Inv := Inv bytes N bytes_eqb fnv hm_consts.

Lemma consts_ok : params_ok hm_consts.
Proof.
  unfold params_ok. split.
  - exists (N.log2 (init_size hm_consts)). vm_compute. reflexivity.
  - unfold int_max1. cbn [hm_consts init_size high_wm low_wm]. lia.
Qed.

Lemma C17_refines_proof : forall ops : list (op bytes N),
  N.of_nat (length ops) * 100 < 1073741824 ->
  exists m outs,
    c_run ops = Ok (m, outs) /\
    outs = spec_run bytes N bytes_eqb (fun _ => None) ops /\
    (forall name, c_lookup m name = fold_left (lastw bytes N bytes_eqb name) ops None) /\
    c_Inv m.
Proof.
  intros ops Hb.
  destruct (run_refines bytes N bytes_eqb bytes_eqb_eq fnv hm_consts consts_ok ops c_empty (fun _ => None))
    as (m & outs & Hr & Ho & HI & Hab); [apply inv_rep, inv_empty | exact Hb |].
  exists m, outs. auto.
Qed.

(* hashmap.c before /repo commit ae6c306: the first tombstone met is claimed at once, without looking
   further for the key; everything else ([rehash], get, delete) is the present model *)
Section Old.
Variable K V : Type.
Variable keqb : K -> K -> bool.
Variable hash : K -> N.
Variable P : hm_params.

Fixpoint old_walk (k : K) (bs : list (slot K V)) (ps : list nat) : walkres V :=
  match ps with
  | [] => Exhausted
  | j :: ps' =>
    match nth j bs Empty with
    | Full k' v => if keqb k k' then Found j v else old_walk k bs ps'
    | Tomb => Stop j (Some j)
    | Empty => Stop j None
    end
  end.

Definition old_insert (m : hmap K V) (k : K) (v : V) : res (hmap K V) :=
  match old_walk k (buckets m) (pseq (hash k) (length (buckets m))) with
  | Found j _ => Ok {| buckets := set_nth j (Full k v) (buckets m); used := used m |}
  | Stop _ (Some t) => Ok {| buckets := set_nth t (Full k v) (buckets m); used := used m |}
  | Stop j None => Ok {| buckets := set_nth j (Full k v) (buckets m); used := used m + 1 |}
  | Exhausted => Crash Unreachable
  end.

Definition old_put (m : hmap K V) (k : K) (v : V) : res (hmap K V) :=
  bind (match buckets m with
        | [] => Ok {| buckets := repeat Empty (N.to_nat (init_size P)); used := used m |}
        | _ =>
          if high_wm P <=? (used m * 100) / capacity m then rehash K V keqb hash P m else Ok m
        end)
       (fun m1 => old_insert m1 k v).

Fixpoint old_run_from (m : hmap K V) (ops : list (op K V)) : res (list (option V)) :=
  match ops with
  | [] => Ok []
  | Put k v :: r => bind (old_put m k v) (fun m' => bind (old_run_from m' r) (fun o => Ok (None :: o)))
  | Get k :: r => bind (hm_get K V keqb hash m k) (fun x => bind (old_run_from m r) (fun o => Ok (x :: o)))
  | Del k :: r => bind (hm_delete K V keqb hash m k) (fun m' => bind (old_run_from m' r) (fun o => Ok (None :: o)))
  end.
End Old.

Definition old_run (ops : list (op bytes N)) : res (list (option N)) :=
  old_run_from bytes N bytes_eqb fnv hm_consts c_empty ops.

(* "a" and "q" share the home slot 14 of a 16-slot table *)
Definition key_a : bytes := [97]. Definition key_q : bytes := [113].

(* under [old_insert] the second [Put key_q] takes the tombstone of "a" and leaves the first
   copy of "q" behind it, which [Get key_q] finds after the deletion *)
Definition defect_history : list (op bytes N) :=
  [Put key_a 1; Put key_q 2; Del key_a; Put key_q 3; Del key_q; Get key_q].

(* a history that collides, crosses a tombstone and grows *)
Definition demo_history : list (op bytes N) :=
  [Put key_a 1; Put key_q 2; Del key_a; Put key_q 3; Get key_a; Get key_q]
  ++ map (fun c => Put [c] (c + 1)) [98;99;100;101;102;103;104;105;106;107;108;109;110;111;112]
  ++ [Del [98]; Get [98]; Get [99]].

Definition demo_result := Eval vm_compute in c_run demo_history.
Lemma demo_run_eq : c_run demo_history = demo_result.
Proof. vm_compute. reflexivity. Qed.

Definition has_tomb (m : cmap) : bool :=
  existsb (fun s => match s with Tomb => true | _ => false end) (buckets m).

Lemma has_tomb_sound m : has_tomb m = true -> In Tomb (buckets m).
Proof.
  intros H. apply existsb_exists in H as [[| |] [Hin Hs]]; [discriminate | exact Hin | discriminate].
Qed.

Lemma demo_history_ok :
  exists m outs, c_run demo_history = Ok (m, outs) /\ c_Inv m /\
     16 < capacity m /\ In Tomb (buckets m) /\
     N.of_nat (length demo_history) * 100 < 1073741824.
Proof.
  assert (Hb : N.of_nat (length demo_history) * 100 < 1073741824) by reflexivity.
  destruct (C17_refines_proof demo_history Hb) as (m & outs & Hr & _ & _ & HI).
  exists m, outs. split; [exact Hr|]. split; [exact HI|].
  rewrite demo_run_eq in Hr. injection Hr as <- _.
  split; [reflexivity|]. split; [apply has_tomb_sound; reflexivity | exact Hb].
Qed.
