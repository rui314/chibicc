(* C10 (conditional inclusion): run on the text of a tree of if-sections, the directive dispatcher of Model/Cond.v
   outputs what [select] takes of the tree (cond_correct).  The claim proved by induction on the tree ([ok]) has any
   text behind the tree's and holds for every fuel above the length of the whole text ([within]), of which [run]'s
   is one. *)
From Chibicc Require Import Base.Mach Model.Cond.

Section P.
Variable P : Type.
Notation line := (line P). Notation item := (item P).
Arguments If {P}. Arguments Elif {P}. Arguments Else {P}. Arguments Endif {P}. Arguments Text {P}.
Arguments T {P}. Arguments Sec {P}.

(* [flat], [select] and every statement below are about LISTS of items: so is the induction.  Its recursion is
   on an item all the same: an element is no subterm of the list that holds it, a group is one of its section *)
Lemma items_ind (Q : list item -> Prop) :
  Q [] -> (forall p l, Q l -> Q (T p :: l)) ->
  (forall b body es els l, Q body -> Forall (fun e => Q (snd e)) es ->
     match els with Some bd => Q bd | None => True end -> Q l -> Q (Sec b body es els :: l)) ->
  forall l, Q l.
Proof.
  intros H0 HT HS. assert (Hi : forall i l, Q l -> Q (i :: l)).
  { fix IH 1. intros [p|b body es els] l Hl; [apply HT, Hl|]. apply HS; [| | |exact Hl].
    - induction body as [|i r IHr]; [exact H0|apply IH, IHr].
    - induction es as [|[c bd] r IHr]; constructor; [|exact IHr]. cbn. induction bd as [|i r' IHr']; [exact H0|apply IH, IHr'].
    - destruct els as [bd|]; [|exact I]. induction bd as [|i r IHr]; [exact H0|apply IH, IHr]. }
  induction l as [|i l IHl]; [exact H0|apply Hi, IHl].
Qed.

(* what follows the first group of a section, up to and including its #endif, in front of [rest] *)
Fixpoint tail (es : list (bool * list item)) (els : option (list item)) (rest : list line) : list line :=
  match es with
  | (c, bd) :: r => Elif c :: flat P bd ++ tail r els rest
  | [] => match els with Some bd => Else :: flat P bd ++ Endif :: rest | None => Endif :: rest end
  end.

Lemma flat_cons i r : flat P (i :: r) = flat_item P i ++ flat P r. Proof. reflexivity. Qed.
Lemma flat_sec b body es els l rest : flat P (Sec b body es els :: l) ++ rest = If b :: flat P body ++ tail es els (flat P l ++ rest).
Proof.
  rewrite flat_cons, <- app_assoc. cbn [flat_item app]. rewrite <- app_assoc. do 2 f_equal. rewrite <- app_assoc.
  induction es as [|[c bd] es IH]; cbn [app tail].
  - destruct els; cbn [app]; [rewrite <- app_assoc|]; reflexivity.
  - rewrite <- app_assoc, IH. reflexivity.
Qed.

Lemma skipd_flat : forall l d rest, skipd P d (flat P l ++ rest) = skipd P d rest.
Proof.
  induction l as [|p l IH|b body es els l Hb He Hl IH] using items_ind; intros d rest; [reflexivity|apply IH|].
  rewrite flat_sec. cbn [skipd]. rewrite Hb.
  induction He as [|[c bd] es Hbd _ IHe]; cbn [tail skipd].
  - destruct els as [bd|]; cbn [skipd]; [rewrite Hl; cbn [skipd]|]; apply IH.
  - cbn [snd] in Hbd. rewrite Hbd. exact IHe.
Qed.

(* skip_cond_incl, called behind the directive that opens a group, passes over the group and stops in front
   of the #elif, #else or #endif of its own section: it undoes laying the group out in front of [tail] *)
Lemma skip_group body es els rest : skipd P 0 (flat P body ++ tail es els rest) = tail es els rest.
Proof. rewrite skipd_flat. destruct es as [|[c bd] es]; [destruct els|]; reflexivity. Qed.

(* what the #elif and #else groups of a section select when no earlier group was taken *)
Definition sel_elifs (es : list (bool * list item)) (els : option (list item)) : list P :=
  (fix fe (es : list (bool * list item)) : list P :=
     match es with
     | [] => match els with Some bd => select P bd | None => [] end
     | (c, bd) :: r => if c then select P bd else fe r
     end) es.

(* [run] gives the dispatcher one more unit of fuel than the text has lines; every fuel above the length does:
   each step takes a line or more off the text, a skip several *)
Definition within (l : list line) (st : stack) (r : list P) : Prop := forall f, (length l < f)%nat -> go P f l st = Some r.

(* with the text of [l] in front of any text, the dispatcher outputs what [select] takes of [l] and goes on with that text *)
Definition ok (l : list item) : Prop := forall rest st r, within rest st r -> within (flat P l ++ rest) st (select P l ++ r).

(* the rest of a section, entered with the flag [included] of its cond_incl: once a group has been taken
   nothing more is selected, before that the first #elif whose condition holds, else the #else group.
   [c] is the ctx of that cond_incl, InThen or InElif: behind an #else the dispatcher refuses #elif and #else *)
Lemma tail_ok : forall es els, Forall (fun e => ok (snd e)) es ->
  match els with Some bd => ok bd | None => True end ->
  forall c inc rest st r, c <> InElse -> within rest st r ->
  within (tail es els rest) ((c, inc) :: st) ((if inc then [] else sel_elifs es els) ++ r).
Proof.
  induction es as [|[b bd] es IH]; intros els He Hl c inc rest st r Hc Hr; cbn [tail sel_elifs].
  - destruct els as [bd|].
    2:{ intros [|f] Hf; [lia|]. cbn [go length] in *. destruct inc; apply Hr; lia. }
    assert (Hin : within (Endif :: rest) ((InElse, inc) :: st) r) by (intros [|f] Hf; [lia|]; apply Hr; cbn [length] in Hf; lia).
    intros [|f] Hf; [lia|]. cbn [go length] in *. destruct inc.
    + rewrite app_length in Hf. destruct c; try congruence; rewrite skipd_flat; apply Hin; lia.
    + destruct c; try congruence; apply (Hl _ _ _ Hin); lia.
  - inversion He as [|? ? Hbd Hes]; subst. cbn [snd] in Hbd.
    assert (Hgo : forall inc', within (tail es els rest) ((InElif, inc') :: st) ((if inc' then [] else sel_elifs es els) ++ r)).
    { intros inc'. apply IH; [exact Hes|exact Hl|discriminate|exact Hr]. }
    intros [|f] Hf; [lia|]. cbn [go length] in *. destruct inc; [|destruct b].
    + rewrite app_length in Hf. destruct c; try congruence; cbn [negb andb]; rewrite skip_group; apply Hgo; lia.
    + destruct c; try congruence; apply (Hbd _ _ _ (Hgo true)); lia.
    + rewrite app_length in Hf. destruct c; try congruence; cbn [negb andb]; rewrite skip_group; apply Hgo; lia.
Qed.

Lemma list_ok : forall l, ok l.
Proof.
  induction l as [|p l IH|b body es els l Hb He Hl IH] using items_ind; intros rest st r Hr; [exact Hr| |]; intros [|f] Hf; try lia.
  - rewrite flat_cons in *. cbn [flat_item app go length] in *. rewrite (IH _ _ _ Hr) by lia. reflexivity.
  - unfold select. cbn [sel sel_item]. rewrite <- app_assoc. rewrite flat_sec in *. cbn [go length] in *.
    pose proof (tail_ok es els He Hl InThen b _ st _ ltac:(discriminate) (IH _ _ _ Hr)) as Ht. destruct b.
    + apply (Hb _ _ _ Ht). lia.
    + rewrite skip_group. apply Ht. rewrite app_length in Hf. lia.
Qed.

(* every well-nested directive sequence (= the flattening of a section tree): the dispatcher
   with its skip-ahead functions outputs exactly the lines of the groups C11 6.10.1 selects *)
Theorem cond_correct : forall items, run P (flat P items) = Some (select P items).
Proof.
  intros items. assert (H : within (flat P items ++ []) [] (select P items ++ [])).
  { apply list_ok. intros [|f] Hf; [inversion Hf|reflexivity]. }
  rewrite !app_nil_r in H. apply H. lia.
Qed.

(* the dispatcher's answer with some fuel, where [within] says with which; no proof above goes through it *)
Definition runs (l : list line) (st : stack) (r : list P) : Prop := exists f, go P f l st = Some r.

Lemma runs_step l st r f : go P f l st = Some r -> runs l st r. Proof. intros H; exists f; exact H. Qed.
End P.
