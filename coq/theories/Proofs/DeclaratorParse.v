(* C08 (declarators): what Model/Declarator.v (parse.c) computes on the written form of every
   declarator of Spec/DeclSpec6_7_6.v.

   [m_apply d ty] is the model-level denotation of a declarator: the mty that parse.c's constructors build when
   the derivations of d are applied to ty inside-out (pointers first, then - through the two passes - the
   suffixes, right to left).  [chk d ty] collects every "array too large" test parse.c performs on the way
   (those of the dummy passes included).  Main result ([dcl_print], for declarator()):

       declarator fuel (print_decl d ++ rest) ty
       = if chk d ty then Ok (name_of d, m_apply d ty, rest) else TooLarge

   for every declarator d (any nesting of pointers, parentheses, arrays, functions with parameters, identifier
   present or omitted) that satisfies [c11_ok] (Spec), every start type ty, every continuation `rest` that starts
   with "," ")" or an uninvolved token, and every fuel above an explicit cost, in particular the fuel of the entry
   point [parse_declarator].  The same for abstract_declarator / typename when the identifier is omitted; the two
   parsers go through one induction as [dcl].  (The model is parse.c as of /repo fbdf355, 8507b9f, 053b61b: nothing of
   the abstract syntax is excluded.) *)
From Coq Require Import List ZArith Bool Lia Arith.
From Chibicc Require Import Spec.DeclSyntax Spec.DeclSpec6_7_6 Model.Declarator.
Import ListNotations.

Definition is_empty_dd (dd : direct) : bool := match dd with DIdent None => true | _ => false end.

Definition len_of (n : option Z) : Z := match n with Some k => int32 k | None => (-1)%Z end.

Definition m_variadic (ps : params) : bool :=
  match ps with PUnspec => true | PVoid => false | PList _ v => v end.

Fixpoint m_apply (d : decl) (ty : mty) : mty :=
  match d with
  | DPtr _ d' => m_apply d' (MPtr ty)
  | DDirect dd => m_apply_dd dd ty
  end
with m_apply_dd (dd : direct) (ty : mty) : mty :=
  match dd with
  | DIdent _ => ty
  | DParen d => m_apply d ty
  | DArray dd' n => m_apply_dd dd' (array_of ty (len_of n))
  | DFunc dd' ps => m_apply_dd dd' (MFunc ty (m_params ps) (m_variadic ps))
  end
with m_params (ps : params) : list (option ident * mty) :=
  match ps with
  | PUnspec => []
  | PVoid => []
  | PList l _ => m_plist l
  end
with m_plist (l : plist) : list (option ident * mty) :=
  match l with
  | POne p => [m_param p]
  | PCons p l' => m_param p :: m_plist l'
  end
with m_param (p : param) : option ident * mty :=
  match p with Param b d => (name_of d, adjust_param (m_apply d (MBase b))) end.

Definition fit (n : option Z) (elem : mty) : bool :=
  match n with Some k => negb (too_large k elem) | None => true end.

Fixpoint chk (d : decl) (ty : mty) : bool :=
  match d with
  | DPtr _ d' => chk d' (MPtr ty)
  | DDirect dd => chk_dd dd ty
  end
with chk_dd (dd : direct) (ty : mty) : bool :=
  match dd with
  | DIdent _ => true
  | DParen d => chk d dummy && chk d ty               (* the dummy pass, then the real one *)
  | DArray dd' n => fit n ty && chk_dd dd' (array_of ty (len_of n))
  | DFunc dd' ps => chk_params ps && chk_dd dd' (MFunc ty (m_params ps) (m_variadic ps))
  end
with chk_params (ps : params) : bool :=
  match ps with
  | PUnspec => true
  | PVoid => true
  | PList l _ => chk_plist l
  end
with chk_plist (l : plist) : bool :=
  match l with
  | POne p => chk_param p
  | PCons p l' => chk_param p && chk_plist l'
  end
with chk_param (p : param) : bool :=
  match p with Param b d => chk d (MBase b) end.

(* the fuel a declarator needs: one unit for every call of a function of the mutually recursive block on the way.
   DDirect: dcl itself and the type_suffix that ends the suffix chain; DArray: type_suffix and array_dimensions;
   DFunc: type_suffix, then the parameters: func_params, and for `()` one round of params_loop; every parameter one
   round of params_loop (its declarator runs on that round's fuel), the last one another round that sees the ")". *)
Fixpoint cost (d : decl) : nat :=
  match d with
  | DPtr _ d' => cost d'
  | DDirect dd => cost_dd dd + 2
  end
with cost_dd (dd : direct) : nat :=
  match dd with
  | DIdent _ => 0
  | DParen d => cost d
  | DArray dd' _ => cost_dd dd' + 2
  | DFunc dd' ps => cost_dd dd' + 1 + cost_params ps
  end
with cost_params (ps : params) : nat :=
  match ps with
  | PUnspec => 2
  | PVoid => 1
  | PList l _ => 1 + cost_plist l
  end
with cost_plist (l : plist) : nat :=
  match l with
  | POne p => cost_param p + 2
  | PCons p l' => 1 + cost_param p + cost_plist l'
  end
with cost_param (p : param) : nat :=
  match p with Param _ d => cost d end.

Lemma c11_ok_paren : forall d, c11_ok_dd (DParen d) = true -> is_empty_decl d = false /\ c11_ok d = true.
Proof. intros d. cbn [c11_ok_dd]. rewrite andb_true_iff, negb_true_iff. intros H. exact H. Qed.

Lemma c11_ok_array : forall dd n, c11_ok_dd (DArray dd n) = true ->
  is_func_dd dd = false /\ c11_ok_dd dd = true /\ match n with Some k => (0 <=? k)%Z | None => true end = true.
Proof. intros dd n. cbn [c11_ok_dd]. rewrite !andb_true_iff, negb_true_iff. intros [[H1 H2] H3]. auto. Qed.

Lemma c11_ok_func : forall dd ps, c11_ok_dd (DFunc dd ps) = true ->
  is_func_dd dd = false /\ c11_ok_dd dd = true /\ c11_ok_params ps = true.
Proof. intros dd ps. cbn [c11_ok_dd]. rewrite !andb_true_iff, negb_true_iff. intros [[H1 H2] H3]. auto. Qed.

(* abstract_declarator() is declarator() without the look for an identifier.  [dcl named] is either of the two, the
   result of abstract_declarator() padded with "no identifier", so that whatever holds of both is proved once. *)
Definition no_name (r : res (mty * list tok)) : res (option ident * mty * list tok) :=
  do r' <- r; Ok (None, fst r', snd r').

Definition dcl (named : bool) (fuel : nat) (toks : list tok) (ty : mty) : res (option ident * mty * list tok) :=
  if named then declarator fuel toks ty else no_name (abstract_declarator fuel toks ty).

Lemma no_name_inv : forall r (c : bool) x m rest,
  no_name r = (if c then Ok (x, m, rest) else TooLarge) -> r = if c then Ok (m, rest) else TooLarge.
Proof.
  intros [[m' rest']| | |] [|] x m rest H; try discriminate H; [|reflexivity].
  injection H as _ Hm Hr. subst. reflexivity.
Qed.

(* One-step equations of the model, the bodies as definitions of their own: every proof about the five mutually
   recursive functions rewrites with them and never unfolds the fixpoint. *)
Definition direct_part (named : bool) (f : nat) (t1 : list tok) (ty1 : mty) : res (option ident * mty * list tok) :=
  match nested_start t1 with
  | Some inner =>
      do r1 <- dcl named f inner dummy;
      match snd r1 with
      | TRParen :: t3 =>
          do r2 <- type_suffix f t3 ty1;
          do r3 <- dcl named f inner (fst r2);
          Ok (fst (fst r3), snd (fst r3), snd r2)
      | _ => Err
      end
  | None =>
      let nm := if named then ident_opt t1 else (None, t1) in
      do r2 <- type_suffix f (snd nm) ty1;
      Ok (fst nm, fst r2, snd r2)
  end.

(* [dcl] one step in, the flag of [pointers] left open.  [pointers] reads `* q d` as d at the flag true, so what the
   induction needs about d is the statement at either flag; [dcl] itself starts at false ([dcl_S]). *)
Definition dclb (b named : bool) (f : nat) (toks : list tok) (ty : mty) : res (option ident * mty * list tok) :=
  direct_part named f (snd (pointers b toks ty)) (fst (pointers b toks ty)).

Lemma dcl_S named f toks ty : dcl named (S f) toks ty = dclb false named f toks ty.
Proof.
  destruct named; [reflexivity|]. unfold dclb, direct_part, dcl. cbn [abstract_declarator].
  destruct (nested_start _) as [inner|]; [|destruct (type_suffix f _ _) as [[m2 r2]| | |]; reflexivity].
  destruct (abstract_declarator f inner dummy) as [[m1 r1]| | |]; try reflexivity.
  destruct r1 as [|t t3]; [reflexivity|]. destruct t; try reflexivity.
  cbn [no_name bind fst snd]. destruct (type_suffix f t3 _) as [[m2 r2]| | |]; try reflexivity.
  cbn [bind fst]. destruct (abstract_declarator f inner m2) as [[m3 r3]| | |]; reflexivity.
Qed.

Definition type_suffix_body (f : nat) (toks : list tok) (ty : mty) : res (mty * list tok) :=
  match toks with
  | TLParen :: r => func_params f r ty
  | TLBrack :: r => array_dimensions f r ty
  | _ => Ok (ty, toks)
  end.
Lemma type_suffix_S f toks ty : type_suffix (S f) toks ty = type_suffix_body f toks ty.
Proof. reflexivity. Qed.

Definition array_dimensions_body (f : nat) (toks : list tok) (ty : mty) : res (mty * list tok) :=
  match skip_static_quals toks with
  | TRBrack :: r =>
      do r2 <- type_suffix f r ty;
      Ok (array_of (fst r2) (-1), snd r2)
  | TNum n :: TRBrack :: r =>
      do r2 <- type_suffix f r ty;
      if too_large n (fst r2) then TooLarge else Ok (array_of (fst r2) (int32 n), snd r2)
  | _ => Err
  end.
Lemma array_dimensions_S f toks ty : array_dimensions (S f) toks ty = array_dimensions_body f toks ty.
Proof. reflexivity. Qed.

Definition func_params_body (f : nat) (toks : list tok) (ret : mty) : res (mty * list tok) :=
  match toks with
  | TBase LVoid :: TRParen :: r => Ok (MFunc ret [] false, r)
  | _ => params_loop f toks ret []
  end.
Lemma func_params_S f toks ret : func_params (S f) toks ret = func_params_body f toks ret.
Proof. reflexivity. Qed.

Definition param_decl (f : nat) (t1 : list tok) (ret : mty) (acc : list (option ident * mty)) : res (mty * list tok) :=
  do r1 <- declarator f (snd (param_declspec t1)) (fst (param_declspec t1));
  params_loop f (snd r1) ret ((fst (fst r1), adjust_param (snd (fst r1))) :: acc).
Definition param_step (f : nat) (t1 : list tok) (ret : mty) (acc : list (option ident * mty)) : res (mty * list tok) :=
  match t1 with
  | TEllipsis :: r =>
      do r' <- skip_tok_rparen r;
      Ok (MFunc ret (rev acc) true, r')
  | _ => param_decl f t1 ret acc
  end.
Definition params_loop_body (f : nat) (toks : list tok) (ret : mty) (acc : list (option ident * mty))
  : res (mty * list tok) :=
  match toks with
  | TRParen :: r => Ok (MFunc ret (rev acc) (is_nil acc), r)
  | _ =>
    do t1 <- (if is_nil acc then Ok toks else skip_tok_comma toks);
    param_step f t1 ret acc
  end.
(* The two nested token matches of params_loop are compiled into 13 x 13 copies of the recursive calls, and the
   kernel compares each copy, a fixpoint of the whole mutual block, with the constant on the other side.  Splitting
   on the first token and on [acc] first lets all but 25 of them reduce away. *)
Lemma params_loop_S f toks ret acc : params_loop (S f) toks ret acc = params_loop_body f toks ret acc.
Proof. destruct toks as [|[] r]; destruct acc; reflexivity. Qed.

Definition hd_in (P : tok -> bool) (l : list tok) : Prop :=
  match l with [] => True | t :: _ => P t = true end.

(* what may follow a complete declarator *)
Definition stop_tok (t : tok) : bool := match t with TComma | TRParen | TOther => true | _ => false end.
Definition stops (rest : list tok) : Prop := hd_in stop_tok rest.

Definition decl_start (t : tok) : bool := match t with TStar | TIdent _ | TLParen | TLBrack => true | _ => false end.

Lemma print_dd_hd : forall dd, hd_in decl_start (print_dd dd).
Proof.
  induction dd as [x|d|dd' IH n|dd' IH ps].
  - destruct x as [x|]; exact eq_refl || exact I.
  - reflexivity.
  - destruct n as [n|]; cbn [print_dd]; destruct (print_dd dd') as [|t l]; [reflexivity|exact IH|reflexivity|exact IH].
  - cbn [print_dd]. destruct (print_dd dd') as [|t l]; [reflexivity|exact IH].
Qed.

Lemma print_decl_hd : forall d, hd_in decl_start (print_decl d).
Proof.
  destruct d as [q d'|dd]; [reflexivity|apply print_dd_hd].
Qed.

Lemma pointers_quals : forall q X ty, pointers true (map TQual q ++ X) ty = pointers true X ty.
Proof. induction q as [|a q IH]; intros X ty; [reflexivity|]. cbn [map app pointers]. apply IH. Qed.

Lemma print_decl_nil : forall d, print_decl d = [] -> d = DDirect (DIdent None).
Proof.
  intros [q d|[[x|]|d|dd [n|]|dd ps]]; cbn [print_decl print_dd]; intros E; try discriminate E; [reflexivity|..];
    apply app_eq_nil in E; destruct E as [_ E]; discriminate E.
Qed.

Lemma nested_start_paren : forall d X, is_empty_decl d = false ->
  nested_start (TLParen :: print_decl d ++ X) = Some (print_decl d ++ X).
Proof.
  intros d X H. pose proof (print_decl_hd d) as Hh. pose proof (print_decl_nil d) as Hn.
  destruct (print_decl d) as [|t l]; [rewrite (Hn eq_refl) in H; discriminate H|].
  destruct t; try discriminate Hh; reflexivity.
Qed.

Lemma plist_first : forall l, exists b d X, print_plist l = TBase b :: print_decl d ++ X /\
  (c11_ok_plist l = true -> c11_ok_param (Param b d) = true).
Proof.
  destruct l as [[b d]|[b d] l'].
  - exists b, d, []. cbn [print_plist print_param c11_ok_plist]. rewrite app_nil_r. auto.
  - exists b, d, (TComma :: print_plist l'). cbn [print_plist print_param c11_ok_plist]. split; [reflexivity|].
    intros H. apply andb_prop in H. exact (proj1 H).
Qed.

(* a parameter list starts with ")" or a type keyword: the "(" in front of it is NOT a nested declarator *)
Lemma nested_start_params : forall ps X, nested_start (TLParen :: print_params ps ++ TRParen :: X) = None.
Proof.
  intros ps X. destruct ps as [| |l v]; try reflexivity.
  cbn [print_params]. destruct (plist_first l) as [b [d [Y [E _]]]]. rewrite E. reflexivity.
Qed.

(* a C11 parameter list is not the special case `void )` of func_params: a first parameter of type void has a
   declarator, and that does not start with ")" *)
Lemma func_params_plist : forall f l X ret, c11_ok_plist l = true ->
  func_params (S f) (print_plist l ++ X) ret = params_loop f (print_plist l ++ X) ret [].
Proof.
  intros f l X ret Hok. rewrite func_params_S.
  destruct (plist_first l) as [b [d [Y [E Hp]]]]. rewrite E. specialize (Hp Hok). cbn [app].
  destruct b; try reflexivity.
  cbn [c11_ok_param is_void andb] in Hp. apply andb_prop in Hp. destruct Hp as [_ Hp].
  pose proof (print_decl_hd d) as Hh. pose proof (print_decl_nil d) as Hn.
  destruct (print_decl d) as [|t pl]; [rewrite (Hn eq_refl) in Hp; discriminate Hp|].
  destruct t; try discriminate Hh; reflexivity.
Qed.

Definition arr_toks (n : option Z) : list tok :=
  match n with Some k => [TLBrack; TNum k; TRBrack] | None => [TLBrack; TRBrack] end.

(* The text behind a direct declarator.  The syntax [direct] is left-recursive - in the tree of `x[2](ps)` the last suffix
   is outermost - but the parser meets `x` first and hands everything behind it to type_suffix, which is right-recursive.
   So the statement about a direct declarator dd ([P_dd] below) is made for dd followed by any text Y of which this is
   known: with fuel >= c, type_suffix turns Y and the type ty into the type mS and leaves [rest], or reports "array too
   large" - exactly when cS is false; and Y begins with nothing that [pointers] reads, neither a nested declarator nor an
   identifier.  Going from DArray dd' n or DFunc dd' ps to dd' puts that suffix in front of Y ([tail_arr], [tail_fun]);
   behind a complete declarator Y is what may follow it ([tail_nil]). *)
Definition tail_ok (c : nat) (Y : list tok) (ty : mty) (cS : bool) (mS : mty) (rest : list tok) : Prop :=
  ((forall b ty', pointers b Y ty' = (ty', Y)) /\ nested_start Y = None /\ ident_opt Y = (None, Y)) /\
  forall fuel, c <= fuel -> type_suffix fuel Y ty = if cS then Ok (mS, rest) else TooLarge.

Lemma tail_nil : forall ty rest, stops rest -> tail_ok 1 rest ty true ty rest.
Proof.
  intros ty rest Hs. destruct rest as [|t r].
  - split; [repeat split|]. intros [|f] Hf; [lia|reflexivity].
  - cbn [stops hd_in] in Hs. split; [destruct t; try discriminate Hs; repeat split|].
    intros [|f] Hf; [lia|]. destruct t; try discriminate Hs; reflexivity.
Qed.

Lemma tail_arr : forall c Y ty cS mS rest n, tail_ok c Y ty cS mS rest ->
  tail_ok (c + 2) (arr_toks n ++ Y) ty (cS && fit n mS) (array_of mS (len_of n)) rest.
Proof.
  intros c Y ty cS mS rest n [_ Hg]. split; [destruct n; repeat split|].
  intros [|[|f]] Hf; [lia|lia|]. rewrite type_suffix_S.
  destruct n as [n|]; cbn [arr_toks app type_suffix_body]; rewrite array_dimensions_S;
    unfold array_dimensions_body; cbn [skip_static_quals];
    rewrite (Hg f) by lia; destruct cS; cbn [bind fst snd andb fit len_of]; try reflexivity.
  destruct (too_large n mS); reflexivity.
Qed.

Definition P_decl (d : decl) : Prop :=
  c11_ok d = true ->
  forall named, (named = false -> name_of d = None) ->
  forall fuel ty rest, stops rest -> cost d <= fuel ->
    dcl named fuel (print_decl d ++ rest) ty
    = if chk d ty then Ok (name_of d, m_apply d ty, rest) else TooLarge.

(* [P_decl] one step in ([dcl_S]) and at either flag: the form in which it goes through the induction *)
Definition P_ptrs (d : decl) : Prop :=
  c11_ok d = true ->
  forall named, (named = false -> name_of d = None) ->
  forall b f ty rest, stops rest -> cost d <= S f ->
    dclb b named f (print_decl d ++ rest) ty
    = if chk d ty then Ok (name_of d, m_apply d ty, rest) else TooLarge.

(* dd followed by the text Y.  Nothing is parsed behind a parameter list (a suffix there is no C11, c11_ok_dd, and
   func_params does not call type_suffix), so when dd is a function declarator Y is the rest itself. *)
Definition P_dd (dd : direct) : Prop :=
  c11_ok_dd dd = true ->
  forall named, (named = false -> name_of_dd dd = None) ->
  forall c Y ty cS mS rest, tail_ok c Y ty cS mS rest ->
    (is_func_dd dd = true -> Y = rest /\ mS = ty /\ cS = true) ->
  forall b fuel, cost_dd dd + c <= fuel ->
    dclb b named fuel (print_dd dd ++ Y) ty
    = if chk_dd dd mS && cS then Ok (name_of_dd dd, m_apply_dd dd mS, rest) else TooLarge.

Definition P_params (ps : params) : Prop :=
  c11_ok_params ps = true ->
  forall fuel ret rest, cost_params ps <= fuel ->
    func_params fuel (print_params ps ++ TRParen :: rest) ret
    = if chk_params ps then Ok (MFunc ret (m_params ps) (m_variadic ps), rest) else TooLarge.

Definition ptail (v : bool) (rest : list tok) : list tok :=
  (if v then [TComma; TEllipsis] else []) ++ TRParen :: rest.

Definition P_plist (l : plist) : Prop :=
  c11_ok_plist l = true ->
  forall fuel ret acc rest v, cost_plist l <= fuel ->
    params_loop fuel ((if is_nil acc then [] else [TComma]) ++ print_plist l ++ ptail v rest) ret acc
    = if chk_plist l then Ok (MFunc ret (rev acc ++ m_plist l) v, rest) else TooLarge.

(* a parameter is one round of the loop *)
Definition P_param (p : param) : Prop :=
  c11_ok_param p = true ->
  forall f ret acc X, stops X -> cost_param p <= f ->
    params_loop (S f) ((if is_nil acc then [] else [TComma]) ++ print_param p ++ X) ret acc
    = if chk_param p then params_loop f X ret (m_param p :: acc) else TooLarge.

Lemma tail_fun : forall ps ty rest, P_params ps -> c11_ok_params ps = true ->
  tail_ok (1 + cost_params ps) (TLParen :: print_params ps ++ TRParen :: rest) ty
          (chk_params ps) (MFunc ty (m_params ps) (m_variadic ps)) rest.
Proof.
  intros ps ty rest IH Hc. split; [repeat split; apply nested_start_params|].
  intros [|f] Hf; [lia|]. rewrite type_suffix_S. apply (IH Hc). lia.
Qed.

Lemma loop_tail : forall f v rest ret acc,
  acc <> [] -> params_loop (S f) (ptail v rest) ret acc = Ok (MFunc ret (rev acc) v, rest).
Proof.
  intros f v rest ret acc Hacc. rewrite params_loop_S.
  destruct acc as [|a acc]; [congruence|].
  destruct v; reflexivity.
Qed.

Lemma ptail_stops : forall v rest, stops (ptail v rest).
Proof. intros [|] rest; reflexivity. Qed.

Lemma cost_pos : forall d, 2 <= cost d.
Proof. induction d as [q d IH|dd]; cbn [cost]; [exact IH|lia]. Qed.

Lemma ptrs_dcl : forall d, P_ptrs d -> P_decl d.
Proof.
  intros d H Hc named Hn [|f] ty rest Hs Hf; [pose proof (cost_pos d); lia|].
  rewrite dcl_S. apply H; assumption.
Qed.

Theorem parse_all :
  (forall d, P_ptrs d) /\ (forall dd, P_dd dd) /\ (forall ps, P_params ps) /\
  (forall l, P_plist l) /\ (forall p, P_param p).
Proof.
  apply decl_mutind.
  - intros q d IH Hc named Hn b f ty rest Hs Hf. cbn [c11_ok cost name_of m_apply chk] in *.
    unfold dclb. cbn [print_decl app pointers]. rewrite <- app_assoc, pointers_quals.
    apply (IH Hc named Hn true); assumption.
  - intros dd IH Hc named Hn b f ty rest Hs Hf. cbn [c11_ok cost name_of m_apply print_decl chk] in *.
    rewrite (IH Hc named Hn 1 rest ty true ty rest (tail_nil ty rest Hs)) by (auto; lia).
    rewrite andb_true_r. reflexivity.
  - (* DIdent: only here do the two parsers differ; both come to the text behind with the name x *)
    intros x _ named Hn c Y ty cS mS rest [[E0 [E1 E2]] Hg] _ b fuel Hf. cbn [cost_dd name_of_dd m_apply_dd chk_dd andb] in *.
    transitivity (do r2 <- type_suffix fuel Y ty; Ok (x, fst r2, snd r2)).
    + unfold dclb, direct_part. destruct x as [x|]; cbn [print_dd app].
      * destruct named; [reflexivity|discriminate (Hn eq_refl)].
      * rewrite E0. cbn [fst snd]. rewrite E1. destruct named; [rewrite E2|]; reflexivity.
    + rewrite (Hg fuel) by lia. destruct cS; reflexivity.
  - (* DParen: the dummy pass up to the ")", the text behind, the real pass over the same tokens *)
    intros d IH%ptrs_dcl Hc named Hn c Y ty cS mS rest [_ Hg] _ b fuel Hf.
    cbn [cost_dd name_of_dd m_apply_dd print_dd chk_dd] in *.
    destruct (c11_ok_paren d Hc) as [Hne Hc'].
    cbn [app]. rewrite <- !app_assoc. cbn [app]. unfold dclb, direct_part. cbn [pointers fst snd].
    rewrite (nested_start_paren d _ Hne).
    assert (Hs' : stops (TRParen :: Y)) by reflexivity.
    rewrite (IH Hc' named Hn fuel dummy _ Hs') by lia.
    destruct (chk d dummy); cbn [bind snd andb]; [|reflexivity].
    rewrite (Hg fuel) by lia.
    destruct cS; cbn [bind fst snd]; [|rewrite andb_false_r; reflexivity].
    rewrite (IH Hc' named Hn fuel mS _ Hs') by lia.
    destruct (chk d mS); reflexivity.
  - intros dd' IH n Hc named Hn c Y ty cS mS rest Hg Hfun b fuel Hf.
    cbn [cost_dd name_of_dd m_apply_dd is_func_dd chk_dd] in *.
    destruct (c11_ok_array dd' n Hc) as [Hnf [Hc' _]].
    replace (print_dd (DArray dd' n) ++ Y) with (print_dd dd' ++ arr_toks n ++ Y) by (destruct n; cbn [print_dd arr_toks]; rewrite <- app_assoc; reflexivity).
    rewrite (IH Hc' named Hn _ _ _ _ _ _ (tail_arr _ _ _ _ _ _ n Hg)); [|intros H; congruence|lia].
    destruct (fit n mS), cS, (chk_dd dd' (array_of mS (len_of n))); reflexivity.
  - intros dd' IH ps IHps Hc named Hn c Y ty cS mS rest _ Hfun b fuel Hf.
    cbn [cost_dd name_of_dd m_apply_dd is_func_dd chk_dd] in *.
    destruct (Hfun eq_refl) as (-> & -> & ->).
    destruct (c11_ok_func dd' ps Hc) as [Hnf [Hc' Hcps]].
    cbn [print_dd]. rewrite <- app_assoc. cbn [app]. rewrite <- app_assoc. cbn [app].
    rewrite (IH Hc' named Hn _ _ _ _ _ _ (tail_fun ps ty rest IHps Hcps)); [|intros H; congruence|lia].
    destruct (chk_params ps), (chk_dd dd' (MFunc ty (m_params ps) (m_variadic ps))); reflexivity.
  - intros _ fuel ret rest Hf. cbn [cost_params print_params app m_params m_variadic chk_params] in *.
    destruct fuel as [|[|f]]; [lia|lia|]. reflexivity.
  - intros _ fuel ret rest Hf. cbn [cost_params print_params app m_params m_variadic chk_params] in *.
    destruct fuel as [|f]; [lia|]. reflexivity.
  - intros l IH v Hc fuel ret rest Hf. cbn [c11_ok_params cost_params print_params m_params m_variadic chk_params] in *.
    destruct fuel as [|f]; [lia|].
    rewrite <- app_assoc. change ((if v then [TComma; TEllipsis] else []) ++ TRParen :: rest) with (ptail v rest).
    rewrite func_params_plist by exact Hc.
    apply (IH Hc f ret [] rest v). lia.
  - intros p IH Hc fuel ret acc rest v Hf. cbn [c11_ok_plist cost_plist print_plist m_plist chk_plist] in *.
    destruct fuel as [|[|f]]; [lia|lia|].
    rewrite (IH Hc (S f) ret acc _ (ptail_stops v rest)) by lia.
    destruct (chk_param p); [|reflexivity].
    apply loop_tail. discriminate.
  - intros p IH l IHl Hc fuel ret acc rest v Hf. cbn [c11_ok_plist cost_plist print_plist m_plist chk_plist] in *.
    apply andb_prop in Hc. destruct Hc as [Hc Hcl].
    destruct fuel as [|f]; [lia|].
    rewrite <- app_assoc. cbn [app].
    rewrite (IH Hc f ret acc (TComma :: print_plist l ++ ptail v rest) eq_refl) by lia.
    destruct (chk_param p); cbn [andb]; [|reflexivity].
    specialize (IHl Hcl f ret (m_param p :: acc) rest v). cbn [is_nil app] in IHl. rewrite IHl by lia.
    destruct (chk_plist l); [|reflexivity]. cbn [rev]. rewrite <- app_assoc. reflexivity.
  - intros b d IH%ptrs_dcl Hc f ret acc X Hs Hf. cbn [c11_ok_param cost_param chk_param m_param print_param] in *.
    apply andb_prop in Hc. destruct Hc as [Hc _].
    rewrite params_loop_S.
    transitivity (param_decl f (TBase b :: print_decl d ++ X) ret acc); [destruct acc; reflexivity|].
    unfold param_decl. cbn [param_declspec fst snd].
    rewrite (IH Hc true) by (discriminate || assumption).
    destruct (chk d (MBase b)); reflexivity.
Qed.

Lemma cost_bound :
  (forall d, cost d <= 2 * length (print_decl d) + 2) /\
  (forall dd, cost_dd dd <= 2 * length (print_dd dd)) /\
  (forall ps, cost_params ps <= 2 * length (print_params ps) + 3) /\
  (forall l, cost_plist l <= 2 * length (print_plist l) + 2) /\
  (forall p, cost_param p <= 2 * length (print_param p)).
Proof.
  apply decl_mutind; intros;
    cbn [cost cost_dd cost_params cost_plist cost_param print_decl print_dd print_params print_plist print_param length];
    (* n: the bound of a DArray, written with three tokens or, if absent, two *)
    try destruct n; repeat (rewrite app_length; cbn [length]); lia.
Qed.

Lemma fuel_enough : forall d rest, cost d <= fuel_for (print_decl d ++ rest).
Proof.
  intros d rest. unfold fuel_for. rewrite app_length.
  pose proof (proj1 cost_bound d). lia.
Qed.

Lemma dcl_print : forall d, P_decl d.
Proof. intros d. exact (ptrs_dcl d (proj1 parse_all d)). Qed.
Lemma params_print : forall ps, P_params ps.
Proof. exact (proj1 (proj2 (proj2 parse_all))). Qed.

Theorem parse_declarator_print : forall d ty rest, c11_ok d = true -> stops rest ->
  parse_declarator (print_decl d ++ rest) ty
  = if chk d ty then Ok (name_of d, m_apply d ty, rest) else TooLarge.
Proof.
  intros d ty rest Hc Hs. unfold parse_declarator.
  apply (dcl_print d Hc true); [discriminate|assumption|apply fuel_enough].
Qed.

Theorem abstract_declarator_print : forall d, c11_ok d = true -> name_of d = None ->
  forall fuel ty rest, stops rest -> cost d <= fuel ->
    abstract_declarator fuel (print_decl d ++ rest) ty = if chk d ty then Ok (m_apply d ty, rest) else TooLarge.
Proof.
  intros d Hc Hn fuel ty rest Hs Hf. apply (no_name_inv _ _ (name_of d)).
  apply (dcl_print d Hc false); auto.
Qed.

Theorem parse_abstract_print : forall d ty rest,
  c11_ok d = true -> name_of d = None -> stops rest ->
  parse_abstract (print_decl d ++ rest) ty = if chk d ty then Ok (m_apply d ty, rest) else TooLarge.
Proof.
  intros d ty rest Hc Hn Hs. unfold parse_abstract.
  apply abstract_declarator_print; try assumption. apply fuel_enough.
Qed.

Theorem parse_typename_print : forall b d rest,
  c11_ok d = true -> name_of d = None -> stops rest ->
  parse_typename (TBase b :: print_decl d ++ rest)
  = if chk d (MBase b) then Ok (m_apply d (MBase b), rest) else TooLarge.
Proof.
  intros b d rest Hc Hn Hs. unfold parse_typename, typename.
  apply abstract_declarator_print; try assumption.
  pose proof (fuel_enough d rest) as H. unfold fuel_for in *. cbn [length]. lia.
Qed.

(* Every entry point answers [if c then Ok (f v) else TooLarge] on a written declarator (the four theorems above):
   c collects the "array too large" tests, f puts the type into the result tuple.  The headline statements say of
   such an answer that it is TooLarge or an Ok whose type has a property Q - or, where c is known as the negation of
   a specification-level test o, which of the two it is. *)
Lemma ok_or_too_large {A B} (f : B -> A) (Q : B -> Prop) (r : res A) (c : bool) (v : B) :
  r = (if c then Ok (f v) else TooLarge) -> (c = true -> Q v) ->
  r = TooLarge \/ exists b, r = Ok (f b) /\ Q b.
Proof. intros -> H. destruct c; [right; exists v; auto|left; reflexivity]. Qed.

Lemma ok_unless {A B} (f : B -> A) (Q : B -> Prop) (r : res A) (c o : bool) (v : B) :
  r = (if c then Ok (f v) else TooLarge) -> c = negb o -> (c = true -> Q v) ->
  if o then r = TooLarge else exists b, r = Ok (f b) /\ Q b.
Proof. intros -> -> H. destruct o; [reflexivity|exists v; auto]. Qed.
