From Chibicc Require Import Base.Mach Model.Phases Proofs.PhasesProofs Model.Diag.
Local Open Scope nat_scope.

(* the buffer as the two lists verror_at walks from loc: the prefix, reversed, and the suffix.  [line_start_spec] and
   [line_end_spec] each speak of both halves, and a step of the scan moves one byte from the half it walks to the other,
   so that no index is translated *)
Lemma line_start_spec : forall pr suf, let s := line_start_from pr (length pr) in
  s <= length pr /\ (forall k, s <= k < length pr -> nth_error (rev pr ++ suf) k <> Some 10%N) /\
  (s = 0 \/ nth_error (rev pr ++ suf) (s - 1) = Some 10%N).
Proof.
  induction pr as [|c r IH]; intros suf; cbn [line_start_from length rev pred]; cbv zeta.
  - split; [lia|]. split; [intros k Hk; lia|left; reflexivity].
  - (* c, the byte before the position, stands at offset length r of the buffer *)
    rewrite <- app_assoc. cbn [app]. assert (E : nth_error (rev r ++ c :: suf) (length r) = Some c).
    { rewrite nth_error_app2, rev_length, Nat.sub_diag by (rewrite rev_length; lia). reflexivity. }
    destruct (c =? 10)%N eqn:E10.
    + apply N.eqb_eq in E10. subst c. split; [lia|]. split; [intros k Hk; lia|right]. rewrite <- E. f_equal. lia.
    + destruct (IH (c :: suf)) as (A & B & C). split; [lia|]. split; [|exact C].
      intros k Hk. destruct (Nat.eq_dec k (length r)) as [->|Hne]; [|apply B; lia].
      rewrite E. intros [= ->]. discriminate.
Qed.

Lemma line_end_spec : forall suf pre, let e := scan_end suf (length pre) in
  length pre <= e <= length (pre ++ suf) /\ (forall k, length pre <= k < e -> nth_error (pre ++ suf) k <> Some 10%N) /\
  (e = length (pre ++ suf) \/ nth_error (pre ++ suf) e = Some 10%N).
Proof.
  induction suf as [|c r IH]; intros pre; cbn [scan_end]; cbv zeta.
  - rewrite app_nil_r. split; [lia|]. split; [intros k Hk; lia|left; reflexivity].
  - assert (E : nth_error (pre ++ c :: r) (length pre) = Some c).
    { rewrite nth_error_app2, Nat.sub_diag by lia. reflexivity. }
    rewrite app_length. cbn [length]. destruct (c =? 10)%N eqn:E10.
    + apply N.eqb_eq in E10. subst c. split; [lia|]. split; [intros k Hk; lia|right; exact E].
    + specialize (IH (pre ++ [c])). rewrite <- app_assoc, !app_length in IH. cbn [app length] in IH.
      rewrite Nat.add_1_r in IH. destruct IH as (A & B & C). split; [lia|]. split; [|exact C].
      intros k Hk. destruct (Nat.eq_dec k (length pre)) as [->|Hne]; [|apply B; lia].
      rewrite E. intros [= ->]. discriminate.
Qed.

Theorem shown_line_is_the_line input loc : (loc <= length input)%nat ->
  let s := line_start input loc in let e := line_end input loc in
  (s <= loc <= e)%nat /\ (e <= length input)%nat /\
  (forall k, (s <= k < e)%nat -> nth_error input k <> Some 10%N) /\
  (s = 0%nat \/ nth_error input (s - 1) = Some 10%N) /\
  (e = length input \/ nth_error input e = Some 10%N).
Proof.
  intros Hl. cbn zeta. unfold line_start, line_end.
  pose proof (line_start_spec (rev (firstn loc input)) (skipn loc input)) as S.
  pose proof (line_end_spec (skipn loc input) (firstn loc input)) as E.
  rewrite rev_involutive, rev_length in S. rewrite firstn_skipn, firstn_length_le in S, E by exact Hl.
  cbv zeta in S, E. destruct S as (A & B & C). destruct E as (D & F & G).
  split; [lia|]. split; [lia|]. split; [|split; [exact C|exact G]].
  intros k Hk. destruct (Nat.lt_ge_cases k loc); [apply B|apply F]; lia.
Qed.

Lemma count_lf_between : forall (l : list N) s loc, (s <= loc)%nat ->
  (forall k, (s <= k < loc)%nat -> nth_error l k <> Some 10%N) -> count_lf (firstn loc l) = count_lf (firstn s l).
Proof.
  induction l as [|c r IH]; intros s loc Hs H; [rewrite !firstn_nil; reflexivity|].
  destruct loc as [|loc]; [replace s with 0%nat by lia; reflexivity|]. cbn [firstn]. rewrite count_lf_cons.
  destruct s as [|s]; cbn [firstn].
  - rewrite (IH 0%nat loc) by (lia || (intros k Hk; apply (H (S k)); lia)).
    destruct (c =? 10)%N eqn:E; [|reflexivity]. apply N.eqb_eq in E. subst c. exfalso. apply (H 0%nat); [lia|reflexivity].
  - rewrite count_lf_cons. f_equal. apply IH; [lia|]. intros k Hk. apply (H (S k)). lia.
Qed.
