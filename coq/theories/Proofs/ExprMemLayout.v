(* The frame assign_lvar_offsets lays out (Model/ExprMem.v, layout) is well formed: whatever the
   declared variables and whichever temporaries, the byte ranges are pairwise disjoint and
   lie inside the frame below %rbp.  So wf_frame in the main theorem holds for every function body whose
   locals are these, not only for the frames wf_frameb has been run on. *)
From Coq Require Import ZArith Bool List Lia.
From Chibicc Require Import Spec.C11Int Spec.C11IntMem Model.X86Int Model.ExprMem Proofs.CastTableProofs Proofs.ExprMemProofs
     Proofs.ExprMemCorrect Proofs.ExprMemIncDec Proofs.ExprMemMain.
Import ListNotations.
Local Open Scope Z_scope.

Lemma align_ge x s : 0 < s -> x <= (x + s - 1) / s * s.
Proof.
  intros Hs. pose proof (Z.mul_succ_div_gt (x + s - 1) s Hs) as H. lia.
Qed.

(* lay_temps and lay_vars are the same walk over a list of locals, sz giving size = alignment *)
Fixpoint lay {A} (sz : A -> Z) (l : list A) (bottom : Z) : list (A * Z) * Z :=
  match l with
  | [] => ([], bottom)
  | k :: r => let b := (bottom + sz k + sz k - 1) / sz k * sz k in let '(l', b') := lay sz r b in ((k, - b) :: l', b')
  end.
Lemma lay_temps_lay : forall ks b, lay_temps ks b = lay tk_size ks b.
Proof. induction ks as [|k ks IH]; intros b; cbn [lay_temps lay]; [|rewrite IH]; reflexivity. Qed.
Lemma lay_vars_lay : forall ts b, lay_vars ts b = lay size_of ts b.
Proof. induction ts as [|t ts IH]; intros b; cbn [lay_vars lay]; [|rewrite IH]; reflexivity. Qed.

(* newest first: each local strictly below the previous one, all in [-b', -b) *)
Lemma lay_spec {A} (sz : A -> Z) (d : A * Z) : (forall k, 0 < sz k) -> forall ks b l b', lay sz ks b = (l, b') ->
  map fst l = ks /\ b <= b' /\
  (forall i, (i < length ks)%nat -> - b' <= snd (nth i l d) /\ snd (nth i l d) + sz (fst (nth i l d)) <= - b) /\
  (forall i j, (i < j < length ks)%nat -> snd (nth j l d) + sz (fst (nth j l d)) <= snd (nth i l d)).
Proof.
  intros Hpos. induction ks as [|k ks IH]; intros b l b' H; cbn [lay] in H.
  - injection H as <- <-. split; [reflexivity|]. split; [lia|]. split; cbn [length]; intros; lia.
  - set (b1 := (b + sz k + sz k - 1) / sz k * sz k) in *.
    destruct (lay sz ks b1) as [r b2] eqn:E. injection H as <- <-.
    destruct (IH _ _ _ E) as (M & B & R & O).
    assert (A0 : b + sz k <= b1) by (apply align_ge, Hpos). clearbody b1. pose proof (Hpos k).
    split; [cbn [map fst]; rewrite M; reflexivity|]. split; [lia|]. split.
    + intros [|i] Hi; cbn [nth fst snd length] in *; [lia|]. specialize (R i ltac:(lia)). lia.
    + intros [|i] [|j] Hij; cbn [nth fst snd length] in *; try lia.
      * specialize (R j ltac:(lia)). lia.
      * apply O. lia.
Qed.

(* the lowest address used: the frame needs rbp >= frame_bottom *)
Definition frame_bottom (ts : list ity) (ks : list tkind) : Z := snd (lay_vars (rev ts) (snd (lay_temps (rev ks) 0))).

Theorem layout_wf : forall rbp ts ks, frame_bottom ts ks <= rbp -> rbp <= 2 ^ 64 -> wf_frame (layout rbp ts ks).
Proof.
  intros rbp ts ks Hlo Hhi. unfold frame_bottom in Hlo. unfold layout.
  rewrite lay_temps_lay in *. destruct (lay tk_size (rev ks) 0) as [tl bt] eqn:Et. cbn [snd] in Hlo.
  rewrite lay_vars_lay in *. destruct (lay size_of (rev ts) bt) as [vl bv] eqn:Ev. cbn [snd] in Hlo.
  destruct (lay_spec tk_size (TPtr, 0) tk_size_pos _ _ _ _ Et) as (Mt & Bt & Rt & Ot). rewrite rev_length in Rt, Ot.
  destruct (lay_spec size_of (I32, 0) size_pos _ _ _ _ Ev) as (Mv & Bv & Rv & Ov). rewrite rev_length in Rv, Ov.
  assert (Lv : length vl = length ts) by (rewrite <- (map_length fst vl), Mv, rev_length; reflexivity).
  assert (Lt : length tl = length ks) by (rewrite <- (map_length fst tl), Mt, rev_length; reflexivity).
  set (nt := length ks) in *.
  set (F := {| frbp := rbp; fvars := rev vl; ftemps := rev tl |}).
  assert (NV : nvars F = length ts) by (unfold nvars, F; cbn [fvars]; rewrite rev_length; exact Lv).
  assert (NT : ntmps F = nt) by (unfold ntmps, F; cbn [ftemps]; rewrite rev_length; exact Lt).
  (* a variable / a temporary seen through rev *)
  assert (VA : forall x, (x < length ts)%nat ->
            vaddr F x = rbp + snd (nth (length ts - S x) vl (I32, 0)) /\ vsize F x = size_of (fst (nth (length ts - S x) vl (I32, 0)))).
  { intros x Hx. unfold vaddr, voff, vsize, vty, ftys, F. cbn [frbp fvars].
    rewrite (map_nth fst (rev vl) (I32, 0) x : nth x (map fst (rev vl)) I32 = fst (nth x (rev vl) (I32, 0))).
    rewrite !rev_nth by lia. rewrite Lv. auto. }
  assert (TA : forall i, (i < nt)%nat ->
            taddr F i = rbp + snd (nth (nt - S i) tl (TPtr, 0)) /\ tsize F i = tk_size (fst (nth (nt - S i) tl (TPtr, 0)))).
  { intros i Hi. unfold taddr, toff, tsize, tkind_at, F. cbn [frbp ftemps]. rewrite !rev_nth by lia. rewrite Lt. auto. }
  unfold wf_frame. rewrite NV, NT. split; [|split; [|split; [|split]]].
  - intros x Hx. destruct (VA x Hx) as [-> ->]. specialize (Rv (length ts - S x)%nat ltac:(lia)). lia.
  - intros i Hi. destruct (TA i Hi) as [-> ->]. specialize (Rt (nt - S i)%nat ltac:(lia)). lia.
  - intros x y Hx Hy Hxy. destruct (VA x Hx) as [-> ->]. destruct (VA y Hy) as [-> ->]. unfold sep.
    destruct (Nat.lt_ge_cases x y) as [Lxy|Lxy].
    + pose proof (Ov (length ts - S y)%nat (length ts - S x)%nat ltac:(lia)). lia.
    + pose proof (Ov (length ts - S x)%nat (length ts - S y)%nat ltac:(lia)). lia.
  - intros x i Hx Hi. destruct (VA x Hx) as [-> ->]. destruct (TA i Hi) as [-> ->]. unfold sep.
    specialize (Rv (length ts - S x)%nat ltac:(lia)). specialize (Rt (nt - S i)%nat ltac:(lia)). lia.
  - intros i j Hi Hj Hij. destruct (TA i Hi) as [-> ->]. destruct (TA j Hj) as [-> ->]. unfold sep.
    destruct (Nat.lt_ge_cases i j) as [Lij|Lij].
    + pose proof (Ot (nt - S j)%nat (nt - S i)%nat ltac:(lia)). lia.
    + pose proof (Ot (nt - S i)%nat (nt - S j)%nat ltac:(lia)). lia.
Qed.

Lemma layout_types rbp ts ks : ftys (layout rbp ts ks) = ts.
Proof.
  unfold layout. destruct (lay_temps (rev ks) 0) as [tl bt]. rewrite lay_vars_lay. destruct (lay size_of (rev ts) bt) as [vl bv] eqn:Ev.
  destruct (lay_spec size_of (I32, 0) size_pos _ _ _ _ Ev) as (Mv & _). unfold ftys. cbn [fvars]. rewrite map_rev, Mv. apply rev_involutive.
Qed.

Lemma layout_kinds rbp ts ks : map fst (ftemps (layout rbp ts ks)) = ks.
Proof.
  unfold layout. rewrite lay_temps_lay. destruct (lay tk_size (rev ks) 0) as [tl bt] eqn:Et. destruct (lay_vars (rev ts) bt) as [vl bv].
  destruct (lay_spec tk_size (TPtr, 0) tk_size_pos _ _ _ _ Et) as (Mt & _). cbn [ftemps]. rewrite map_rev, Mt. apply rev_involutive.
Qed.

Lemma layout_nvars rbp ts ks : nvars (layout rbp ts ks) = length ts.
Proof. unfold nvars. rewrite <- (map_length fst). fold (ftys (layout rbp ts ks)). rewrite layout_types. reflexivity. Qed.

Lemma layout_rbp rbp ts ks : frbp (layout rbp ts ks) = rbp.
Proof. unfold layout. destruct (lay_temps (rev ks) 0) as [tl bt]. destruct (lay_vars (rev ts) bt) as [vl bv]. reflexivity. Qed.

Lemma layout_fits rbp ts e : temps_fit (layout rbp ts (temps_of ts e)) e.
Proof.
  unfold temps_fit. apply kinds_at_frame. rewrite layout_kinds, layout_types. auto.
Qed.

(* the main theorem for the frame chibicc itself lays out: no assumption on the frame is left but that
   it fits below %rbp in the address space *)
Theorem mcompile_correct_layout : forall rbp ts e env v env',
  frame_bottom ts (temps_of ts e) <= rbp -> rbp <= 2 ^ 64 ->
  vars_in (length ts) e = true ->
  meval ts env e = Some (v, env') ->
  let F := layout rbp ts (temps_of ts e) in
  forall s k m, agree F env m ->
  exists s' m', mrun rbp (mcompile F e) (s, k, m) = Some (s', k, m') /\
                R (mtype ts e) v (rax s') /\ agree F env' m' /\ unchanged_outside F m m'.
Proof.
  intros rbp ts e env v env' Hlo Hhi Hv H F s k m Ha.
  pose proof (layout_wf rbp ts (temps_of ts e) Hlo Hhi) as WF. fold F in WF.
  pose proof (layout_types rbp ts (temps_of ts e)) as Ty. fold F in Ty.
  pose proof (layout_nvars rbp ts (temps_of ts e)) as NV. fold F in NV.
  pose proof (layout_rbp rbp ts (temps_of ts e)) as Hrbp. fold F in Hrbp.
  rewrite <- Hrbp, <- Ty.
  apply (mcompile_correct F e env v env' WF); try assumption.
  - rewrite NV. exact Hv.
  - apply layout_fits.
  - rewrite Ty. exact H.
Qed.
