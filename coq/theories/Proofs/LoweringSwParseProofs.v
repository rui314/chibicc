(* C03 (switch, labels, goto): parse.c's bookkeeping (brk_label / cont_label / current_switch saved and
   restored, unique label names from two counters, case list, labels list) followed by gen_stmt's
   labelled code and the assembler is the position-level generator sgen of Model/LoweringSw.v.
   stmt() and gen_stmt are taken apart once (pparse_good): together they compute a function of the
   statement alone, pcode, and the rest is about that function: read through ANY assignment of
   positions to labels that puts each label the code defines where it is defined (pcons), pcode is
   sgen's code (pcode_asm); the assembler's assignment is such a one because the code defines no
   label twice (pcode_fresh, pcons_prho). *)
From Coq Require Import List Arith Bool Lia Permutation.
Import ListNotations.
From Chibicc Require Import Spec.SwSem Model.LoweringSw Model.LoweringSwParse Proofs.LoweringSwProofs.

(* the counters of new_unique_name() / count() after a statement: stmt() takes two names for a loop (brk, then cont) and one
   for a switch (brk), a case, a default, a named label; gen_stmt takes one number for an if, a for, a do *)
Fixpoint uctr (s : sstmt) (a : nat) : nat :=
  match s with
  | SSeq x y | SIf _ x y => uctr y (uctr x a)
  | SFor _ _ _ body | SDo body _ => uctr body (S (S a))
  | SSwitch _ s1 | SCase _ s1 | SDefault s1 | SLabel _ s1 => uctr s1 (S a)
  | _ => a
  end.
Fixpoint cctr (s : sstmt) (c : nat) : nat :=
  match s with
  | SSeq x y => cctr y (cctr x c)
  | SIf _ x y => cctr y (cctr x (S c))
  | SFor _ _ _ body | SDo body _ => cctr body (S c)
  | SSwitch _ s1 | SCase _ s1 | SDefault s1 | SLabel _ s1 => cctr s1 c
  | _ => c
  end.

(* what stmt(), started with the counter at a, adds to case_next, default_case and the labels list *)
Fixpoint pcs (s : sstmt) (a : nat) (cs : list (nat * plabel)) : list (nat * plabel) :=
  match s with
  | SSeq x y | SIf _ x y => pcs y (uctr x a) (pcs x a cs)
  | SFor _ _ _ body | SDo body _ => pcs body (S (S a)) cs
  | SCase c s1 => (c, LU a) :: pcs s1 (S a) cs
  | SDefault s1 | SLabel _ s1 => pcs s1 (S a) cs
  | _ => cs
  end.
Fixpoint pdf (s : sstmt) (a : nat) (d : option plabel) : option plabel :=
  match s with
  | SSeq x y | SIf _ x y => pdf y (uctr x a) (pdf x a d)
  | SFor _ _ _ body | SDo body _ => pdf body (S (S a)) d
  | SDefault s1 => Some (LU a)
  | SCase _ s1 | SLabel _ s1 => pdf s1 (S a) d
  | _ => d
  end.
Fixpoint plabs (s : sstmt) (a : nat) (ls : list (nat * plabel)) : list (nat * plabel) :=
  match s with
  | SSeq x y | SIf _ x y => plabs y (uctr x a) (plabs x a ls)
  | SFor _ _ _ body | SDo body _ => plabs body (S (S a)) ls
  | SLabel name s1 => (name, LU a) :: plabs s1 (S a) ls
  | SSwitch _ s1 | SCase _ s1 | SDefault s1 => plabs s1 (S a) ls
  | _ => ls
  end.

(* The labelled code gen_stmt emits for s after stmt() has parsed it, as a function of s: a and c are the next values of the
   two counters (new_unique_name(), count()), brk and cont the break / continue labels in force, labels the function's label list. *)
Fixpoint pcode (labels : list (nat * plabel)) (s : sstmt) (a c : nat) (brk cont : plabel) : list pitem :=
  match s with
  | SMark m => [PI (QMark m)]
  | SSkip => []
  | SSeq x y => pcode labels x a c brk cont ++ pcode labels y (uctr x a) (cctr x c) brk cont
  | SIf k x y =>
    [PI (QCondJf k (LElse c))] ++ pcode labels x a (S c) brk cont ++ [PI (QJmp (LEnd c)); PDef (LElse c)] ++
    pcode labels y (uctr x a) (cctr x (S c)) brk cont ++ [PDef (LEnd c)]
  | SFor init k inc body =>
    map (fun m => PI (QMark m)) init ++ [PDef (LBegin c)] ++
    (match k with Some kk => [PI (QCondJf kk (LU a))] | None => [] end) ++
    pcode labels body (S (S a)) (S c) (LU a) (LU (S a)) ++ [PDef (LU (S a))] ++ map (fun m => PI (QMark m)) inc ++ [PI (QJmp (LBegin c)); PDef (LU a)]
  | SDo body k =>
    [PDef (LBegin c)] ++ pcode labels body (S (S a)) (S c) (LU a) (LU (S a)) ++ [PDef (LU (S a)); PI (QCondJt k (LBegin c)); PDef (LU a)]
  | SBreak => [PI (QJmp brk)]
  | SContinue => [PI (QJmp cont)]
  | SSwitch k body =>
    [PI (QSel k)] ++ map (fun cl => PI (QCase (fst cl) (snd cl))) (pcs body (S a) []) ++
    (match pdf body (S a) None with Some l => [PI (QJmp l)] | None => [] end) ++
    [PI (QJmp (LU a))] ++ pcode labels body (S a) c (LU a) cont ++ [PDef (LU a)]
  | SCase _ s1 | SDefault s1 | SLabel _ s1 => PDef (LU a) :: pcode labels s1 (S a) c brk cont
  | SGoto name => [PI (QJmp (plookup labels name))]
  | SGotoInd k tab => [PI (QJmpTab k (map (plookup labels) tab))]
  end.

(* brk_label / cont_label as labels: NULL (no loop or switch around) is LNone, which nothing defines *)
Definition olab (o : option plabel) : plabel := match o with Some l => l | None => LNone end.
Definition psw (s : sstmt) (a : nat) (sw : option (list (nat * plabel) * option plabel)) :=
  match sw with Some (cs, d) => Some (pcs s a cs, pdf s a d) | None => None end.
(* the parser's state after a statement it accepts *)
Definition peff (s : sstmt) (st : pstate) : pstate :=
  mkps (uctr s (ps_ctr st)) (ps_brk st) (ps_cont st) (psw s (ps_ctr st) (ps_sw st)) (plabs s (ps_ctr st) (ps_labels st)).

(* s stands for SMark, SSkip, SBreak, SContinue, SGoto, SGotoInd: for each of them the four premises hold by computation *)
Lemma peff_leaf s st : (forall a, uctr s a = a) -> (forall a cs, pcs s a cs = cs) -> (forall a d, pdf s a d = d) -> (forall a ls, plabs s a ls = ls) -> peff s st = st.
Proof.
  intros Hu Hc Hd Hl. destruct st as [ctr b c sw ls]. unfold peff, psw. cbn [ps_ctr ps_brk ps_cont ps_sw ps_labels].
  rewrite Hu, Hl. destruct sw as [[cs d]|]; [rewrite Hc, Hd|]; reflexivity.
Qed.
(* the state after two statements in a row; s stands for SSeq x y and SIf k x y, the premises again by computation *)
Lemma peff_then s x y st : (forall a, uctr s a = uctr y (uctr x a)) -> (forall a cs, pcs s a cs = pcs y (uctr x a) (pcs x a cs)) ->
  (forall a d, pdf s a d = pdf y (uctr x a) (pdf x a d)) -> (forall a ls, plabs s a ls = plabs y (uctr x a) (plabs x a ls)) -> peff y (peff x st) = peff s st.
Proof.
  intros Hu Hc Hd Hl. unfold peff, psw. cbn [ps_ctr ps_brk ps_cont ps_sw ps_labels]. rewrite Hu, Hl. destruct (ps_sw st) as [[cs d]|]; [rewrite Hc, Hd|]; reflexivity.
Qed.

Definition bsome {A} (o : option A) : bool := match o with Some _ => true | None => false end.
Lemma psw_bsome s a sw : bsome (psw s a sw) = bsome sw.
Proof. destruct sw as [[cs d]|]; reflexivity. Qed.

(* What stmt() returns for s in state st.  It fails exactly where a break, continue, case or default has nothing to bind to
   (first part, for both results); where it returns a node and a state, the state is peff, the goto names are the
   statement's, and gen_stmt on the node emits pcode (second part; nothing is said of a failure). *)
Definition pgood (s : sstmt) (st : pstate) (r : option (pnode * pstate)) : Prop :=
  bsome r = splaced (bsome (ps_cont st)) (bsome (ps_brk st)) (bsome (ps_sw st)) s /\
  match r with
  | Some (node, st') => st' = peff s st /\ pgoto_names node = sgoto_names s /\
      forall labels c, pgen labels node c = (pcode labels s (ps_ctr st) c (olab (ps_brk st)) (olab (ps_cont st)), cctr s c)
  | None => True
  end.

Lemma pparse_good : forall s st, pgood s st (pparse s st).
Proof.
  induction s as [n| |a IHa b IHb|k a IHa b IHb|init k inc body IHb|body IHb k| | |k body IHb|cv s1 IHs|s1 IHs|name s1 IHs|name|ki tab];
    intros st; unfold pgood; cbn [pparse splaced].
  (* SMark, SSkip, SGoto, SGotoInd: accepted in every state, which they leave as it is *)
  1,2,13,14: (split; [reflexivity|]; split; [symmetry; apply peff_leaf; reflexivity|]; split; reflexivity).
  (* the other ten in the order of sstmt; SIf, SDo and SDefault go as SSeq, SFor and SCase before them, word for word *)
  - destruct (IHa st) as [Aa Ga]. rewrite <- Aa. destruct (pparse a st) as [[a' st1]|]; [|split; [reflexivity|exact I]]. destruct Ga as (-> & Ga & Ha).
    (* b is parsed in the state peff a st, where brk_label, cont_label and current_switch are set or not as they are in st
       (psw_bsome): what the induction hypothesis says of b's placement is what the goal asks *)
    destruct (IHb (peff a st)) as [Ab Gb]. cbn [peff ps_cont ps_brk ps_sw] in Ab. rewrite psw_bsome in Ab. rewrite <- Ab.
    destruct (pparse b _) as [[b' st2]|]; [|split; [reflexivity|exact I]]. destruct Gb as (-> & Gb & Hb).
    split; [reflexivity|]. split; [apply peff_then; reflexivity|]. split; [cbn [pgoto_names sgoto_names]; rewrite Ga, Gb; reflexivity|].
    intros labels c. cbn [pgen pcode cctr]. rewrite Ha, Hb. reflexivity.
  - destruct (IHa st) as [Aa Ga]. rewrite <- Aa. destruct (pparse a st) as [[a' st1]|]; [|split; [reflexivity|exact I]]. destruct Ga as (-> & Ga & Ha).
    destruct (IHb (peff a st)) as [Ab Gb]. cbn [peff ps_cont ps_brk ps_sw] in Ab. rewrite psw_bsome in Ab. rewrite <- Ab.
    destruct (pparse b _) as [[b' st2]|]; [|split; [reflexivity|exact I]]. destruct Gb as (-> & Gb & Hb).
    split; [reflexivity|]. split; [apply peff_then; reflexivity|]. split; [cbn [pgoto_names sgoto_names]; rewrite Ga, Gb; reflexivity|].
    intros labels c. cbn [pgen pcode cctr]. rewrite Ha, Hb. reflexivity.
  - destruct (pparse body _) as [[body' st1]|] eqn:Eb; epose proof (IHb _) as [Ab Gb]; rewrite Eb in Ab, Gb; cbn [ps_cont ps_brk ps_sw bsome] in Ab; rewrite <- Ab;
      [|split; [reflexivity|exact I]]. destruct Gb as (-> & Gb & Hb).
    split; [reflexivity|]. split; [reflexivity|]. split; [exact Gb|]. intros labels c. cbn [pgen pcode cctr]. rewrite Hb. reflexivity.
  - destruct (pparse body _) as [[body' st1]|] eqn:Eb; epose proof (IHb _) as [Ab Gb]; rewrite Eb in Ab, Gb; cbn [ps_cont ps_brk ps_sw bsome] in Ab; rewrite <- Ab;
      [|split; [reflexivity|exact I]]. destruct Gb as (-> & Gb & Hb).
    split; [reflexivity|]. split; [reflexivity|]. split; [exact Gb|]. intros labels c. cbn [pgen pcode cctr]. rewrite Hb. reflexivity.
  - destruct (ps_brk st) as [l|]; [|split; [reflexivity|exact I]]. split; [reflexivity|]. split; [symmetry; apply peff_leaf; reflexivity|]. split; reflexivity.
  - destruct (ps_cont st) as [l|]; [|split; [reflexivity|exact I]]. split; [reflexivity|]. split; [symmetry; apply peff_leaf; reflexivity|]. split; reflexivity.
  - destruct (pparse body _) as [[body' st1]|] eqn:Eb; epose proof (IHb _) as [Ab Gb]; rewrite Eb in Ab, Gb; cbn [ps_cont ps_brk ps_sw bsome] in Ab; rewrite <- Ab;
      [|split; [reflexivity|exact I]]. destruct Gb as (-> & Gb & Hb). cbn [peff psw ps_sw].
    split; [reflexivity|]. split; [unfold peff, psw; cbn [ps_ctr ps_sw uctr pcs pdf plabs]; destruct (ps_sw st) as [[cs d]|]; reflexivity|].
    split; [exact Gb|]. intros labels c. cbn [pgen pcode cctr]. rewrite Hb. reflexivity.
  - destruct (ps_sw st) as [[cs d]|] eqn:Es; [|split; [reflexivity|exact I]]. cbn [bsome andb].
    destruct (pparse s1 _) as [[s1' st1]|] eqn:E1; epose proof (IHs _) as [A1 G1]; rewrite E1 in A1, G1; cbn [ps_cont ps_brk ps_sw] in A1; cbn [bsome] in A1; rewrite <- A1;
      [|split; [reflexivity|exact I]]. destruct G1 as (-> & G1 & H1). cbn [peff psw ps_sw].
    split; [reflexivity|]. split; [unfold peff; rewrite Es; reflexivity|]. split; [exact G1|]. intros labels c. cbn [pgen pcode cctr]. rewrite H1. reflexivity.
  - destruct (ps_sw st) as [[cs d]|] eqn:Es; [|split; [reflexivity|exact I]]. cbn [bsome andb].
    destruct (pparse s1 _) as [[s1' st1]|] eqn:E1; epose proof (IHs _) as [A1 G1]; rewrite E1 in A1, G1; cbn [ps_cont ps_brk ps_sw] in A1; cbn [bsome] in A1; rewrite <- A1;
      [|split; [reflexivity|exact I]]. destruct G1 as (-> & G1 & H1). cbn [peff psw ps_sw].
    split; [reflexivity|]. split; [unfold peff; rewrite Es; reflexivity|]. split; [exact G1|]. intros labels c. cbn [pgen pcode cctr]. rewrite H1. reflexivity.
  - destruct (pparse s1 _) as [[s1' st1]|] eqn:E1; epose proof (IHs _) as [A1 G1]; rewrite E1 in A1, G1; cbn [ps_cont ps_brk ps_sw] in A1; rewrite <- A1;
      [|split; [reflexivity|exact I]]. destruct G1 as (-> & G1 & H1).
    split; [reflexivity|]. split; [unfold peff, psw; cbn [ps_ctr ps_sw uctr pcs pdf plabs]; destruct (ps_sw st) as [[cs d]|]; reflexivity|].
    split; [exact G1|]. intros labels c. cbn [pgen pcode cctr]. rewrite H1. reflexivity.
Qed.

Lemma plabs_names : forall s a ls, map fst (plabs s a ls) = rev (slabnames s) ++ map fst ls.
Proof.
  induction s as [n| |x IHx y IHy|k x IHx y IHy|init k inc body IHb|body IHb k| | |k body IHb|cv s1 IHs|s1 IHs|name s1 IHs|name|ki tab];
    intros a ls; cbn [plabs slabnames rev app map fst]; try reflexivity; try apply IHb; try apply IHs.
  (* the six leaves compute; SFor, SDo, SSwitch, SCase, SDefault are their induction hypothesis; left: SSeq, SIf, SLabel *)
  - rewrite IHy, IHx, rev_app_distr, app_assoc. reflexivity.
  - rewrite IHy, IHx, rev_app_distr, app_assoc. reflexivity.
  - rewrite IHs, rev_app_distr. reflexivity.
Qed.
Lemma find_name_some (labels : list (nat * plabel)) name :
  (match find (fun e => fst e =? name) labels with Some _ => true | None => false end) = existsb (Nat.eqb name) (map fst labels).
Proof.
  induction labels as [|[n l] labels IH]; cbn [find map fst existsb]; [reflexivity|]. rewrite (Nat.eqb_sym name n). destruct (n =? name); [reflexivity|exact IH].
Qed.
Lemma existsb_rev {A} (f : A -> bool) l : existsb f (rev l) = existsb f l.
Proof.
  induction l as [|y l IH]; [reflexivity|]. cbn [rev existsb]. rewrite existsb_app, IH. cbn [existsb]. rewrite orb_false_r. apply orb_comm.
Qed.

(* parse.c (stmt + resolve_goto_labels) accepts a function body exactly when break, continue, case
   and default have something to bind to and every goto names a label of the function - the
   constraints of 6.8.6.3p1, 6.8.6.2p1, 6.8.4.2 and 6.8.6.1p1. *)
Theorem sw_parse_accepts_iff : forall body ctr c, (exists code, pfunction body ctr c = Some code) <-> svalid_fn body = true.
Proof.
  intros body ctr c. unfold pfunction, svalid_fn. rewrite andb_true_iff.
  destruct (pparse_good body (pinit ctr)) as [Ha Hg]. cbn [pinit ps_brk ps_cont ps_sw bsome] in Ha. rewrite <- Ha.
  destruct (pparse body (pinit ctr)) as [[node st]|]; [|split; [intros [code H]|intros [H _]]; discriminate].
  assert (Hres : presolvable (ps_labels st) node = forallb (fun l => existsb (Nat.eqb l) (slabnames body)) (sgoto_names body)).
  { destruct Hg as (-> & Hg & _). pose proof (plabs_names body ctr []) as Hl. cbn [map] in Hl. rewrite app_nil_r in Hl.
    unfold presolvable. rewrite Hg. clear Hg. induction (sgoto_names body) as [|name names IH]; [reflexivity|].
    cbn [forallb]. rewrite IH, find_name_some. cbn [peff pinit ps_ctr ps_labels]. rewrite Hl, existsb_rev. reflexivity. }
  rewrite <- Hres. destruct (presolvable (ps_labels st) node); split.
  - intros _. split; reflexivity.
  - intros _. eexists. reflexivity.
  - intros [code H]. discriminate.
  - intros [_ H]. discriminate.
Qed.

Lemma sw_parse_rejects_stray :
  pfunction SBreak 0 0 = None /\ pfunction SContinue 0 0 = None /\ pfunction (SCase 1 SSkip) 0 0 = None /\ pfunction (SDefault SSkip) 0 0 = None /\
  pfunction (SSwitch 1 SContinue) 0 0 = None /\ pfunction (SFor [] None [] (SCase 1 SBreak)) 0 0 = None.
Proof. repeat split. Qed.

Fixpoint pninstr (code : list pitem) : nat :=
  match code with [] => 0 | PI _ :: r => S (pninstr r) | PDef _ :: r => pninstr r end.

Lemma pninstr_app a b : pninstr (a ++ b) = pninstr a + pninstr b.
Proof. induction a as [|[i|l] a IH]; cbn [app pninstr]; [reflexivity|rewrite IH; reflexivity|exact IH]. Qed.
Lemma pasm_app rho a b : pasm rho (a ++ b) = pasm rho a ++ pasm rho b.
Proof. induction a as [|[i|l] a IH]; cbn [app pasm]; [reflexivity|rewrite IH; reflexivity|exact IH]. Qed.
Lemma pdefs_app a b : pdefs (a ++ b) = pdefs a ++ pdefs b.
Proof. induction a as [|[i|l] a IH]; cbn [app pdefs]; [reflexivity|exact IH|rewrite IH; reflexivity]. Qed.
Lemma pasm_length rho code : length (pasm rho code) = pninstr code.
Proof. induction code as [|[i|l] r IH]; cbn [pasm pninstr length]; [reflexivity|rewrite IH; reflexivity|exact IH]. Qed.
Lemma pmarks_asm rho l : pasm rho (map (fun m => PI (QMark m)) l) = map JMark l.
Proof. induction l as [|m l IH]; cbn [map pasm presolve]; [reflexivity|rewrite IH; reflexivity]. Qed.
Lemma pmarks_ninstr l : pninstr (map (fun m => PI (QMark m)) l) = length l.
Proof. induction l as [|m l IH]; cbn [map pninstr length]; [reflexivity|rewrite IH; reflexivity]. Qed.
Lemma pmarks_defs l : pdefs (map (fun m => PI (QMark m)) l) = [].
Proof. induction l as [|m l IH]; cbn [map pdefs]; [reflexivity|exact IH]. Qed.

(* the case list of a switch (constant, label) or the labels list of the function (name, label), read through rho *)
Definition rtab (rho : plabel -> nat) (t : list (nat * plabel)) : list (nat * nat) := map (fun e => (fst e, rho (snd e))) t.

Lemma pchain_asm rho cs : pasm rho (map (fun cl => PI (QCase (fst cl) (snd cl))) cs) = map (fun ct => JCase (fst ct) (snd ct)) (rtab rho cs).
Proof. induction cs as [|[c l] cs IH]; cbn [map pasm presolve rtab fst snd]; [reflexivity|]. unfold rtab in IH. rewrite IH. reflexivity. Qed.
Lemma pchain_ninstr cs : pninstr (map (fun cl => PI (QCase (fst cl) (snd cl))) cs) = length cs.
Proof. induction cs as [|[c l] cs IH]; cbn [map pninstr length]; [reflexivity|rewrite IH; reflexivity]. Qed.
Lemma pchain_defs cs : pdefs (map (fun cl => PI (QCase (fst cl) (snd cl))) cs) = [].
Proof. induction cs as [|[c l] cs IH]; cbn [map pdefs]; [reflexivity|exact IH]. Qed.
Lemma popt_defs {A} (o : option A) (f : A -> pinstr) : pdefs (match o with Some x => [PI (f x)] | None => [] end) = [].
Proof. destruct o; reflexivity. Qed.
Lemma pdefs_instr i r : pdefs (PI i :: r) = pdefs r.
Proof. reflexivity. Qed.
Lemma pdefs_def l r : pdefs (PDef l :: r) = l :: pdefs r.
Proof. reflexivity. Qed.
Lemma pdefs_nil : pdefs [] = [].
Proof. reflexivity. Qed.
(* the labels defined, read off the shape of the code *)
#[local] Hint Rewrite pdefs_nil pdefs_instr pdefs_def pdefs_app pmarks_defs pchain_defs @popt_defs app_nil_r : pdefs.

(* rho gives every label defined in `code`, placed at position p, the position of its definition *)
Fixpoint pcons (rho : plabel -> nat) (code : list pitem) (p : nat) : Prop :=
  match code with
  | [] => True
  | PI _ :: r => pcons rho r (S p)
  | PDef l :: r => rho l = p /\ pcons rho r p
  end.

Lemma pcons_app rho a : forall b p, pcons rho (a ++ b) p <-> pcons rho a p /\ pcons rho b (p + pninstr a).
Proof.
  induction a as [|[i|l] a IH]; intros b p; cbn [app pcons pninstr].
  - rewrite Nat.add_0_r. split; [intros H; split; [exact I|exact H]|intros [_ H]; exact H].
  - rewrite <- Nat.add_succ_comm. apply IH.
  - specialize (IH b p). tauto.
Qed.

Lemma pcons_instr rho i r p : pcons rho (PI i :: r) p <-> pcons rho r (p + 1).
Proof. rewrite Nat.add_1_r. reflexivity. Qed.

Lemma pcons_marks rho l rest p : pcons rho (map (fun m => PI (QMark m)) l ++ rest) p <-> pcons rho rest (p + length l).
Proof.
  revert p. induction l as [|m l IH]; intros p; cbn [map app pcons length]; [rewrite Nat.add_0_r; reflexivity|].
  rewrite <- Nat.add_succ_comm. apply IH.
Qed.

Lemma slast_app a b : slast (a ++ b) = match slast b with Some q => Some q | None => slast a end.
Proof. unfold slast. rewrite rev_app_distr. destruct (rev b); reflexivity. Qed.

(* What stmt(), counter at a, has put on its lists for a statement placed at p, read through rho: sgen's tables. *)
Definition ptables (rho : plabel -> nat) (s : sstmt) (a p : nat) : Prop :=
  (forall ls, rtab rho (plabs s a ls) = rev (slabels s p) ++ rtab rho ls)
  /\ (forall cs, rtab rho (pcs s a cs) = rev (scases s p) ++ rtab rho cs)
  /\ (forall d, option_map rho (pdf s a d) = match slast (sdefaults s p) with Some q => Some q | None => option_map rho d end).

(* two parts, one after the other: the tables of both (SSeq and SIf, by conversion) *)
Lemma ptables_then rho x y a px py : ptables rho x a px -> ptables rho y (uctr x a) py ->
  (forall ls, rtab rho (plabs y (uctr x a) (plabs x a ls)) = rev (slabels x px ++ slabels y py) ++ rtab rho ls)
  /\ (forall cs, rtab rho (pcs y (uctr x a) (pcs x a cs)) = rev (scases x px ++ scases y py) ++ rtab rho cs)
  /\ (forall d, option_map rho (pdf y (uctr x a) (pdf x a d)) =
                match slast (sdefaults x px ++ sdefaults y py) with Some q => Some q | None => option_map rho d end).
Proof.
  intros (Lx & Cx & Dx) (Ly & Cy & Dy). split; [|split]; intros z.
  - rewrite Ly, Lx, rev_app_distr, app_assoc. reflexivity.
  - rewrite Cy, Cx, rev_app_distr, app_assoc. reflexivity.
  - rewrite Dy, Dx, slast_app. destruct (slast (sdefaults y py)); reflexivity.
Qed.

Lemma pasm_size rho LT code s p b c : pasm rho code = sgen LT s p b c -> pninstr code = ssize s.
Proof. intros H. rewrite <- (pasm_length rho), H. apply sgen_length. Qed.

(* The labelled code of a statement, read through any label assignment rho that is right for the
   labels the statement itself defines and resolves names as LT does, is sgen's code; what stmt()
   pushed on its lists meanwhile are sgen's tables. *)
Lemma pcode_asm labels : forall s a c brk cont rho p LT,
  pcons rho (pcode labels s a c brk cont) p -> (forall name, rho (plookup labels name) = slabel_target LT name) ->
  pasm rho (pcode labels s a c brk cont) = sgen LT s p (rho brk) (rho cont) /\ ptables rho s a p.
Proof.
  induction s as [n| |x IHx y IHy|k x IHx y IHy|init k inc body IHb|body IHb k| | |k body IHb|cv s1 IHs|s1 IHs|name s1 IHs|name|ki tab];
    intros a c brk cont rho p LT Hc Hlt; cbn [pcode app] in Hc.
  (* SMark, SSkip, SBreak, SContinue: one instruction or none, nothing registered *)
  1,2,7,8: (split; [reflexivity|repeat split]).
  - apply pcons_app in Hc. destruct Hc as [Hcx Hcy].
    destruct (IHx _ _ _ _ _ _ LT Hcx Hlt) as [Hx Tx]. rewrite (pasm_size _ _ _ _ _ _ _ Hx) in Hcy. destruct (IHy _ _ _ _ _ _ LT Hcy Hlt) as [Hy Ty].
    split; [|exact (ptables_then rho x y a p (p + ssize x) Tx Ty)]. cbn [pcode sgen]. rewrite pasm_app, Hx, Hy. reflexivity.
  - apply pcons_instr, pcons_app in Hc. destruct Hc as [Hcx Hc]. apply pcons_instr in Hc. destruct Hc as [Helse Hc].
    apply pcons_app in Hc. destruct Hc as (Hcy & Hend & _).
    destruct (IHx _ _ _ _ _ _ LT Hcx Hlt) as [Hx Tx]. rewrite (pasm_size _ _ _ _ _ _ _ Hx) in Helse, Hcy, Hend.
    destruct (IHy _ _ _ _ _ _ LT Hcy Hlt) as [Hy Ty]. rewrite (pasm_size _ _ _ _ _ _ _ Hy) in Hend.
    split; [|exact (ptables_then rho x y a (p + 1) (p + 1 + ssize x + 1) Tx Ty)].
    cbn [pcode sgen pasm presolve app]. rewrite pasm_app. cbn [pasm presolve]. rewrite pasm_app. cbn [pasm]. rewrite Hx, Hy, Helse, Hend, app_nil_r. reflexivity.
  - apply pcons_marks in Hc. destruct Hc as [Hbegin Hc]. apply pcons_app in Hc. destruct Hc as [_ Hc]. apply pcons_app in Hc. destruct Hc as (Hcb & Hcont & Hc).
    apply pcons_marks, pcons_instr in Hc. destruct Hc as [Hbrk _].
    assert (Hk : pninstr (match k with Some kk => [PI (QCondJf kk (LU a))] | None => [] end) = sklen k) by (destruct k; reflexivity).
    rewrite Hk in Hcb, Hcont, Hbrk.
    destruct (IHb _ _ _ _ _ _ LT Hcb Hlt) as [Hb Tb]. rewrite (pasm_size _ _ _ _ _ _ _ Hb) in Hcont, Hbrk.
    split; [|exact Tb]. cbn [pcode sgen].
    rewrite pasm_app, pmarks_asm. cbn [pasm app]. rewrite !pasm_app. cbn [pasm app]. rewrite pasm_app, pmarks_asm. cbn [pasm presolve]. rewrite Hb, Hbrk, Hcont, Hbegin.
    destruct k; cbn [pasm presolve app]; rewrite ?Hbrk; reflexivity.
  - destruct Hc as [Hbegin Hc]. apply pcons_app in Hc. destruct Hc as (Hcb & Hcont & Hc). apply pcons_instr in Hc. destruct Hc as [Hbrk _].
    destruct (IHb _ _ _ _ _ _ LT Hcb Hlt) as [Hb Tb]. rewrite (pasm_size _ _ _ _ _ _ _ Hb) in Hcont, Hbrk.
    split; [|exact Tb]. cbn [pcode sgen pasm app]. rewrite pasm_app. cbn [pasm presolve]. rewrite Hb, Hbrk, Hcont, Hbegin. reflexivity.
  - apply pcons_instr, pcons_app in Hc. destruct Hc as [_ Hc]. rewrite pchain_ninstr in Hc. apply pcons_app in Hc. destruct Hc as [_ Hc].
    apply pcons_instr, pcons_app in Hc. destruct Hc as (Hcb & Hbrk & _).
    (* Where the body stands depends on what the body registers with its switch. The induction hypothesis is taken at p',
       the position as the labelled code has it; that p' is sgen's p + sswitch_head body (Hp') then comes from the hypothesis
       itself, whose tables Cb, Db count the cases and tell whether there is a default. *)
    match type of Hcb with pcons _ _ ?q => set (p' := q) in * end.
    destruct (IHb _ _ _ _ _ _ LT Hcb Hlt) as (Hb & Lb & Cb & Db). rewrite (pasm_size _ _ _ _ _ _ _ Hb) in Hbrk.
    specialize (Cb []). specialize (Db None). cbn [rtab map option_map] in Cb, Db. rewrite app_nil_r in Cb.
    (* the body stands behind cond, one compare per case, the jump to default if there is one, the jump to the end *)
    assert (Hp' : p' = p + sswitch_head body).
    { unfold sswitch_head. rewrite <- (scases_length body p'), <- (rev_length (scases body p')), <- Cb. unfold rtab. rewrite map_length.
      rewrite <- (sdefaults_length body p'), <- slast_length. subst p'. destruct (slast (sdefaults body _)); destruct (pdf body (S a) None); try discriminate Db; cbn [pninstr length]; lia. }
    rewrite Hp' in Hb, Lb, Hbrk, Cb, Db.
    split; [|split; [exact Lb|repeat split]].
    cbn [pcode sgen pasm presolve app]. rewrite !pasm_app, pchain_asm, Cb. cbn [pasm presolve]. rewrite pasm_app. cbn [pasm]. rewrite Hb, Hbrk, app_nil_r.
    destruct (pdf body (S a) None); destruct (slast (sdefaults body _)); try discriminate Db; [injection Db as <-|]; reflexivity.
  - destruct Hc as [Hl Hc1]. destruct (IHs _ _ _ _ _ _ LT Hc1 Hlt) as (H1 & L1 & C1 & D1).
    split; [exact H1|]. split; [exact L1|]. split; [|exact D1].
    intros cs. cbn [pcs scases rtab map fst snd]. fold (rtab rho (pcs s1 (S a) cs)). rewrite C1, Hl, rev_app_distr. reflexivity.
  - destruct Hc as [Hl Hc1]. destruct (IHs _ _ _ _ _ _ LT Hc1 Hlt) as (H1 & L1 & C1 & D1).
    split; [exact H1|]. split; [exact L1|]. split; [exact C1|].
    intros d. cbn [pdf sdefaults option_map]. rewrite slast_app, Hl. reflexivity.
  - destruct Hc as [Hl Hc1]. destruct (IHs _ _ _ _ _ _ LT Hc1 Hlt) as (H1 & L1 & C1 & D1).
    split; [exact H1|]. split; [|split; [exact C1|exact D1]].
    intros ls. cbn [plabs slabels rtab map fst snd]. fold (rtab rho (plabs s1 (S a) ls)). rewrite L1, Hl, rev_app_distr. reflexivity.
  - split; [|repeat split]. cbn [pcode pasm presolve sgen]. rewrite Hlt. reflexivity.
  - split; [|repeat split]. cbn [pcode pasm presolve sgen]. rewrite map_map, (map_ext _ _ Hlt). reflexivity.
Qed.

Definition pin_range (l : plabel) (a a' c c' : nat) : Prop :=
  match l with
  | LU n => a <= n < a'
  | LElse n | LEnd n | LBegin n => c <= n < c'
  | LNone => False
  end.
(* the labels defined in code are distinct and were handed out while the counters went from a to a'
   resp. from c to c' *)
Definition pfresh (code : list pitem) (a a' c c' : nat) : Prop :=
  (forall l, In l (pdefs code) -> pin_range l a a' c c') /\ NoDup (pdefs code).
(* pfresh at a list of labels (the lemmas below are about such lists), together with the bounds of the two stretches of the
   counters: a stretch that knows that it does not run backwards combines with the one that follows it without side conditions
   (lfresh_app) *)
Definition lfresh (ds : list plabel) (a a' c c' : nat) : Prop :=
  a <= a' /\ c <= c' /\ (forall l, In l ds -> pin_range l a a' c c') /\ NoDup ds.

Lemma pin_range_weaken l a1 a2 c1 c2 a a' c c' : pin_range l a1 a2 c1 c2 -> a <= a1 -> a2 <= a' -> c <= c1 -> c2 <= c' -> pin_range l a a' c c'.
Proof. destruct l; cbn [pin_range]; lia. Qed.
Lemma pin_range_disjoint l a1 a2 c1 c2 b1 b2 d1 d2 : pin_range l a1 a2 c1 c2 -> pin_range l b1 b2 d1 d2 -> a2 <= b1 -> c2 <= d1 -> False.
Proof. destruct l; cbn [pin_range]; lia. Qed.

Lemma NoDup_app_intro {A} (l1 l2 : list A) : NoDup l1 -> NoDup l2 -> (forall x, In x l1 -> In x l2 -> False) -> NoDup (l1 ++ l2).
Proof.
  induction l1 as [|x l1 IH]; intros H1 H2 Hd; cbn [app]; [exact H2|]. inversion H1 as [|y ys Hx Hn]; subst. constructor.
  - rewrite in_app_iff. intros [Hi|Hi]; [exact (Hx Hi)|]. apply (Hd x); [left; reflexivity|exact Hi].
  - apply IH; [exact Hn|exact H2|]. intros z Hz1 Hz2. apply (Hd z); [right; exact Hz1|exact Hz2].
Qed.

Lemma lfresh_nil a c : lfresh [] a a c c.
Proof. split; [apply le_n|]. split; [apply le_n|]. split; [intros l []|constructor]. Qed.
Lemma pfresh_nodefs code a c : pdefs code = [] -> pfresh code a a c c.
Proof. intros H. unfold pfresh. rewrite H. destruct (lfresh_nil a c) as (_ & _ & Hn). exact Hn. Qed.
Lemma lfresh_one l a a' c c' : pin_range l a a' c c' -> a <= a' -> c <= c' -> lfresh [l] a a' c c'.
Proof. intros Hl Ha Hc. split; [exact Ha|]. split; [exact Hc|]. split; [intros l0 [<-|[]]; exact Hl|]. constructor; [intros []|constructor]. Qed.
(* the labels of two stretches of the counters, one after the other *)
Lemma lfresh_app x y a a1 a2 c c1 c2 : lfresh x a a1 c c1 -> lfresh y a1 a2 c1 c2 -> lfresh (x ++ y) a a2 c c2.
Proof.
  intros (H1 & H3 & Hrx & Hnx) (H2 & H4 & Hry & Hny). split; [lia|]. split; [lia|]. split.
  - intros l Hl. apply in_app_iff in Hl. destruct Hl as [Hl|Hl]; [eapply pin_range_weaken; [apply Hrx; exact Hl|lia..]|eapply pin_range_weaken; [apply Hry; exact Hl|lia..]].
  - apply NoDup_app_intro; [exact Hnx|exact Hny|]. intros l Hlx Hly. eapply pin_range_disjoint; [apply Hrx; exact Hlx|apply Hry; exact Hly|lia|lia].
Qed.
(* ... in whatever order they are defined *)
Lemma lfresh_perm ds ds' a a' c c' : Permutation ds ds' -> lfresh ds a a' c c' -> lfresh ds' a a' c c'.
Proof.
  intros Hp (Ha & Hc & Hr & Hn). split; [exact Ha|]. split; [exact Hc|]. split; [|exact (Permutation_NoDup Hp Hn)].
  intros l Hl. exact (Hr l (Permutation_in l (Permutation_sym Hp) Hl)).
Qed.
Lemma lfresh_LU a c : lfresh [LU a] a (S a) c c.
Proof. apply lfresh_one; cbn [pin_range]; lia. Qed.

(* a loop: .L.begin.c first, the body with the counters two resp. one further, then the continue
   and the break label, which were numbered before the body *)
Lemma lfresh_loop ds a a' c c' : lfresh ds (S (S a)) a' (S c) c' -> lfresh (LBegin c :: ds ++ [LU (S a); LU a]) a a' c c'.
Proof.
  intros H. apply (lfresh_perm ([LBegin c] ++ [LU a] ++ [LU (S a)] ++ ds)).
  { apply perm_skip. rewrite (Permutation_app_comm ds). apply perm_swap. }
  apply (lfresh_app _ _ a a _ c (S c)); [apply lfresh_one; cbn [pin_range]; lia|].
  exact (lfresh_app _ _ _ _ _ _ _ _ (lfresh_LU a (S c)) (lfresh_app _ _ _ _ _ _ _ _ (lfresh_LU (S a) (S c)) H)).
Qed.

(* every label is defined once: both counters only grow, and the labels of a statement carry the numbers of its own stretch of them *)
Lemma pcode_fresh labels : forall s a c brk cont, lfresh (pdefs (pcode labels s a c brk cont)) a (uctr s a) c (cctr s c).
Proof.
  induction s as [n| |x IHx y IHy|k x IHx y IHy|init k inc body IHb|body IHb k| | |k body IHb|cv s1 IHs|s1 IHs|name s1 IHs|name|ki tab];
    intros a c brk cont; cbn [pcode uctr cctr]; autorewrite with pdefs; cbn [app]; try apply lfresh_nil.
  (* the `try` closes the six leaves: no label defined, no counter moved.  A construct takes the numbers of its own labels from the
     front of its stretch and hands the rest to its parts: its labels are `own ++ parts` (lfresh_app), in the order of the code
     by lfresh_perm *)
  - exact (lfresh_app _ _ _ _ _ _ _ _ (IHx a c brk cont) (IHy (uctr x a) (cctr x c) brk cont)).
  - (* jf; x; jmp; else:; y; end:  - .L.else.c and .L.end.c are the stretch from c to S c of count(), taken before x; they differ in kind *)
    apply (lfresh_perm ([LElse c; LEnd c] ++ pdefs (pcode labels x a (S c) brk cont) ++ pdefs (pcode labels y (uctr x a) (cctr x (S c)) brk cont))).
    { cbn [app]. rewrite <- Permutation_middle. apply perm_skip. rewrite app_assoc. apply Permutation_cons_append. }
    apply (lfresh_app _ _ a a _ c (S c)); [|exact (lfresh_app _ _ _ _ _ _ _ _ (IHx a (S c) brk cont) (IHy (uctr x a) (cctr x (S c)) brk cont))].
    split; [apply le_n|]. split; [apply le_S, le_n|]. split; [intros l [<-|[<-|[]]]; cbn [pin_range]; lia|]. constructor; [intros [H|[]]; discriminate H|]. constructor; [intros []|constructor].
  - exact (lfresh_loop _ _ _ _ _ (IHb (S (S a)) (S c) (LU a) (LU (S a)))).
  - exact (lfresh_loop _ _ _ _ _ (IHb (S (S a)) (S c) (LU a) (LU (S a)))).
  - apply (lfresh_perm _ _ _ _ _ _ (Permutation_cons_append _ _)). exact (lfresh_app [LU a] _ _ _ _ _ _ _ (lfresh_LU a c) (IHb (S a) c (LU a) cont)).
  - exact (lfresh_app [LU a] _ _ _ _ _ _ _ (lfresh_LU a c) (IHs (S a) c brk cont)).
  - exact (lfresh_app [LU a] _ _ _ _ _ _ _ (lfresh_LU a c) (IHs (S a) c brk cont)).
  - exact (lfresh_app [LU a] _ _ _ _ _ _ _ (lfresh_LU a c) (IHs (S a) c brk cont)).
Qed.

Lemma plabel_eqb_eq a b : plabel_eqb a b = true <-> a = b.
Proof.
  split; [|intros <-; destruct a; cbn [plabel_eqb]; try reflexivity; apply Nat.eqb_refl].
  destruct a, b; cbn [plabel_eqb]; try discriminate; try reflexivity; intros H; apply Nat.eqb_eq in H; congruence.
Qed.
Lemma ppos_some_in l : forall code p q, ppos l code p = Some q -> In l (pdefs code).
Proof.
  induction code as [|[i|l0] r IH]; intros p q H; cbn [ppos pdefs] in *; [discriminate|eapply IH; exact H|].
  destruct (plabel_eqb l l0) eqn:E; [left; symmetry; apply plabel_eqb_eq; exact E|right; eapply IH; exact H].
Qed.
Lemma ppos_none_notin l : forall code p, ~ In l (pdefs code) -> ppos l code p = None.
Proof.
  induction code as [|[i|l0] r IH]; intros p H; cbn [ppos pdefs] in *; [reflexivity|apply IH; exact H|].
  destruct (plabel_eqb l l0) eqn:E; [apply plabel_eqb_eq in E; subst; exfalso; apply H; left; reflexivity|apply IH; intros Hi; apply H; right; exact Hi].
Qed.
(* ppos finds the first definition of a label: a map that follows it is right for every definition when none comes twice *)
Lemma pcons_of_ppos rho : forall code p, NoDup (pdefs code) -> (forall l q, ppos l code p = Some q -> rho l = q) -> pcons rho code p.
Proof.
  induction code as [|[i|l0] r IH]; intros p Hn Hr; cbn [pcons pdefs] in *; [exact I|apply IH; [exact Hn|exact Hr]|].
  inversion Hn as [|x xs Hx Hn']; subst. split.
  - apply Hr. cbn [ppos]. assert (plabel_eqb l0 l0 = true) as -> by (apply plabel_eqb_eq; reflexivity). reflexivity.
  - apply IH; [exact Hn'|]. intros l q Hq. apply Hr. cbn [ppos].
    destruct (plabel_eqb l l0) eqn:E; [|exact Hq]. apply plabel_eqb_eq in E. subst. exfalso. apply Hx. eapply ppos_some_in. exact Hq.
Qed.
Lemma pcons_prho code : NoDup (pdefs code) -> pcons (prho code) code 0.
Proof. intros Hn. apply pcons_of_ppos; [exact Hn|]. intros l q Hq. unfold prho. rewrite Hq. reflexivity. Qed.

(* resolve_goto_labels then the assembler = the assembler then slabel_target *)
Lemma plookup_resolved rho labels name : rho LNone = 0 -> slabel_target (rtab rho labels) name = rho (plookup labels name).
Proof.
  intros H0. unfold slabel_target, plookup, rtab. induction labels as [|[n l] labels IH]; cbn [map find fst snd]; [symmetry; exact H0|].
  destruct (n =? name); [reflexivity|exact IH].
Qed.

Lemma pfunction_code body ctr c code : pfunction body ctr c = Some code -> code = pcode (plabs body ctr []) body ctr c LNone LNone.
Proof.
  unfold pfunction. destruct (pparse_good body (pinit ctr)) as [_ Hg]. destruct (pparse body (pinit ctr)) as [[node st]|]; [|discriminate].
  destruct Hg as (-> & _ & Hg). destruct (presolvable _ node); [|discriminate]. intros H. injection H as <-.
  rewrite Hg. reflexivity.
Qed.

(* The labels chibicc defines in the code of a function body are pairwise distinct, whatever the
   counters were at its start: the assembler accepts the code (C12_labels_unique for this part). *)
Theorem sw_parse_labels_unique : forall body ctr c code, pfunction body ctr c = Some code -> NoDup (pdefs code).
Proof.
  intros body ctr c code H. rewrite (pfunction_code _ _ _ _ H).
  destruct (pcode_fresh (plabs body ctr []) body ctr c LNone LNone) as (_ & _ & _ & Hn). exact Hn.
Qed.

(* parse.c's stmt() with its saved / replaced / restored brk_label, cont_label, current_switch,
   its case list, default_case and labels list, then resolve_goto_labels, then gen_stmt with
   count(), then the assembler: the result is exactly sprogram, the position-level code that
   sw_program_simulates speaks about.  For every statement parse.c accepts, any nesting, any
   starting values of the two label counters. *)
Theorem sw_parse_gen_is_sprogram : forall body ctr c code, pfunction body ctr c = Some code -> passemble code = sprogram body.
Proof.
  intros body ctr c code H. rewrite (pfunction_code _ _ _ _ H). set (labels := plabs body ctr []). set (code' := pcode labels body ctr c LNone LNone).
  destruct (pcode_fresh labels body ctr c LNone LNone) as (_ & _ & Hr & Hn). fold code' in Hr, Hn.
  (* LNone, which an unresolved goto would get, is defined nowhere: its position is 0 like slabel_target's, and like the
     break / continue targets sprogram gives a body that stands in no loop or switch *)
  assert (H0 : prho code' LNone = 0).
  { unfold prho. rewrite ppos_none_notin; [reflexivity|]. intros Hi. exact (Hr _ Hi). }
  destruct (pcode_asm labels body ctr c LNone LNone (prho code') 0 (rtab (prho code') labels) (pcons_prho code' Hn)) as (Hasm & Hlab & _).
  { intros name. symmetry. apply plookup_resolved. exact H0. }
  fold code' in Hasm. unfold passemble. rewrite Hasm, H0. unfold labels at 1. rewrite Hlab, app_nil_r. reflexivity.
Qed.

(* the composition: the ASSEMBLED code of what parse.c + gen_stmt produce simulates the structured
   semantics *)
Theorem sw_parsed_program_simulates : forall body ctr c code fuel o tr o',
  pfunction body ctr c = Some code -> swf_fn body = true -> srun fuel None body o = Some (tr, o') ->
  forall r, exists r', sstar (passemble code) (0, o, r) tr (length (passemble code), o', r').
Proof.
  intros body ctr c code fuel o tr o' Hp Hwf Hr r. rewrite (sw_parse_gen_is_sprogram _ _ _ _ Hp), sprogram_length.
  exact (sw_program_simulates fuel body o tr o' Hwf Hr r).
Qed.
