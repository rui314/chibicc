(* The four branching rows of the cast table (unsigned long / _Bool -> float / double and float / double ->
   unsigned long), executed as X86Sse's exec_u64_to_f / exec_f_to_u64: for every unsigned 64-bit value the first
   leaves the correctly rounded float / double (below 2^63 directly, from 2^63 on by halving with a sticky bit and
   doubling); for every float / double whose integral part is representable in unsigned long the second leaves it
   (below 2^63 directly, from 2^63 on by subtracting 2^63 exactly and flipping bit 63). *)
From Coq Require Import ZArith Reals Bool List Lia.
From Flocq Require Import Core Binary Bits.
From Chibicc Require Import Base.Mach Spec.C11Int Spec.C11Float Model.X86Int Model.X86Sse Model.FloatConv
     Proofs.FloatConvProofs Proofs.X86SseProofs Proofs.FloatRoundProofs.
Local Open Scope Z_scope.

Lemma sgn64_small r : 0 <= r < 2 ^ 63 -> sgn W64 r = r.
Proof. intros H. unfold sgn. cbn [bits]. change (2 ^ (64 - 1)) with (2 ^ 63). rewrite Z.mod_small by (change (2 ^ 64) with (2 * 2 ^ 63); lia).
  destruct (2 ^ 63 <=? r) eqn:E; [apply Z.leb_le in E; lia|reflexivity]. Qed.

Lemma halve_range z : 2 ^ 63 <= z < 2 ^ 64 -> 2 ^ 62 <= halve_sticky z < 2 ^ 63.
Proof. apply (halve_sticky_range z (2 ^ 61)). Qed.

(* the integer side of the row: which signed integer is converted, and whether the result is doubled *)
Lemma x0_u64_to_f fz s z : rax (ix s) = z -> 0 <= z < 2 ^ 64 ->
  x0 (exec_u64_to_f fz s) =
  lane64 (if z <? 2 ^ 63 then cvt_i2f fz 0 z else double_self fz (lane64 (cvt_i2f fz 0 (halve_sticky z)))).
Proof.
  intros E Hz. unfold exec_u64_to_f. rewrite E. unfold reg64. rewrite (Z.mod_small z) by lia. fold (halve_sticky z).
  destruct (z <? 2 ^ 63) eqn:C; cbn [x0].
  - apply Z.ltb_lt in C. rewrite (sgn64_small z) by lia. reflexivity.
  - apply Z.ltb_ge in C. pose proof (halve_range z ltac:(lia)). rewrite (sgn64_small (halve_sticky z)) by lia. reflexivity.
Qed.

(* from 2^63 on: converting the halved value and doubling is converting the value, in every format that has room for
   the sticky bit (at most 61 significant bits) *)
Lemma u64_by_halving prec emax Hp He nan z : prec <= 61 -> 64 < emax -> 2 ^ 63 <= z < 2 ^ 64 ->
  let h := binary_normalize prec emax Hp He mode_NE (halve_sticky z) 0 false in
  Bplus prec emax Hp He nan mode_NE h h = binary_normalize prec emax Hp He mode_NE z 0 false.
Proof.
  intros Hprec Hemax Hz. pose proof (halve_range z Hz) as Hh. assert (P0 : 0 < prec) by exact Hp.
  apply (double_half prec emax Hp He nan z (halve_sticky z) (63 - prec)); rewrite ?Zplus_minus; try lia.
  apply halving_is_rne; lia.
Qed.

Lemma exec_u64_to_f32 s z : rax (ix s) = z -> 0 <= z < 2 ^ 64 -> f32 (x0 (exec_u64_to_f SS s)) = s_of_int z.
Proof.
  intros E Hz. rewrite (x0_u64_to_f SS s z E Hz).
  destruct (z <? 2 ^ 63) eqn:C; cbn [cvt_i2f double_self]; rewrite !f32_lane64, !f32_put32; [reflexivity|].
  apply Z.ltb_ge in C. apply (u64_by_halving 24 128 xprec32 xemax32 x86_nan32 z); [discriminate|reflexivity|exact (conj C (proj2 Hz))].
Qed.
Lemma exec_u64_to_f64 s z : rax (ix s) = z -> 0 <= z < 2 ^ 64 -> f64 (x0 (exec_u64_to_f SD s)) = d_of_int z.
Proof.
  intros E Hz. rewrite (x0_u64_to_f SD s z E Hz).
  destruct (z <? 2 ^ 63) eqn:C; cbn [cvt_i2f double_self]; rewrite !f64_lane64, !f64_bits; [reflexivity|].
  apply Z.ltb_ge in C. apply (u64_by_halving 53 1024 xprec64 xemax64 x86_nan64 z); [discriminate|reflexivity|exact (conj C (proj2 Hz))].
Qed.

(* the value of a positive floating constant from its mantissa and exponent: the 2^63 of f32u64 / f64u64 below, the 2^64 that
   the x87 row u64f80 adds *)
Lemma const_val {p e} (K : binary_float p e) m ex k : B2FF p e K = F754_finite false m ex -> 0 <= ex -> Z.pos m * 2 ^ ex = k ->
  is_finite p e K = true /\ B2R p e K = IZR k.
Proof.
  destruct K as [?|?|? ? ?|s' m' ex' H]; try discriminate. cbn [B2FF]. intros [= -> -> ->] Hex V. split; [reflexivity|].
  cbn [B2R]. unfold F2R. cbn [Fnum Fexp cond_Zopp]. rewrite <- IZR_pow2, <- mult_IZR, V by exact Hex. reflexivity.
Qed.
(* the constants of f32u64 / f64u64 are 2^63: 0x5f000000 is the float with mantissa 2^23 at exponent 40, 0x43e0000000000000 the
   double with mantissa 2^52 at exponent 11 *)
Lemma K32_val : is_finite 24 128 (f32 (two63_bits SS)) = true /\ B2R 24 128 (f32 (two63_bits SS)) = IZR (2 ^ 63).
Proof. apply (const_val _ 8388608 40); [vm_compute; reflexivity|discriminate|reflexivity]. Qed.
Lemma K64_val : is_finite 53 1024 (f64 (two63_bits SD)) = true /\ B2R 53 1024 (f64 (two63_bits SD)) = IZR (2 ^ 63).
Proof. apply (const_val _ 4503599627370496 11); [vm_compute; reflexivity|discriminate|reflexivity]. Qed.

Section FToU64.
Variable prec emax : Z.
Context (Hp : Prec_gt_0 prec) (He : BinarySingleNaN.Prec_lt_emax prec emax).

(* Below K = 2^63 the integral part fits the signed register; from K on, x - K is exact (trunc_minus), its integral part
   z - 2^63 fits, and flipping bit 63 of that adds 2^63 back. *)
Lemma cvtt_u64 nan (x K : binary_float prec emax) z : is_finite prec emax K = true -> B2R prec emax K = IZR (2 ^ 63) -> 63 < emax ->
  int_part x = Some z -> 0 <= z < 2 ^ 64 ->
  exists c, Bcompare prec emax x K = Some c /\
    match c with Lt => cvtt W64 x | _ => Z.lxor (cvtt W64 (Bminus prec emax Hp He nan mode_NE x K)) (2 ^ 63) end = z.
Proof.
  intros FK VK Hemax I Hz. destruct (int_part_finite prec emax He x z I) as [Fx _].
  pose proof (Bcompare_correct prec emax x K Fx FK) as CC. eexists. split; [exact CC|].
  change (2 ^ 64) with (2 * 2 ^ 63) in Hz.
  assert (GE : Bcompare prec emax x K = Some Gt \/ Bcompare prec emax x K = Some Eq ->
               Z.lxor (cvtt W64 (Bminus prec emax Hp He nan mode_NE x K)) (2 ^ 63) = z).
  { intros C. assert (Hov : (IZR (2 ^ 63) < bpow radix2 emax)%R) by (rewrite IZR_pow2 by lia; apply bpow_lt; exact Hemax).
    destruct (trunc_minus prec emax Hp He nan x K (2 ^ 63) z FK VK ltac:(lia) Hov I ltac:(lia) C) as [IM Kz].
    rewrite (cvtt_int_part W64 _ _ (z - 2 ^ 63) (feq_refl _) IM) by (cbn [bits]; change (2 ^ (64 - 1)) with (2 ^ 63); lia).
    cbn [bits]. change (2 ^ 64) with (2 * 2 ^ 63). rewrite Z.mod_small, lxor_bit_clear by lia. lia. }
  destruct (Rcompare (B2R prec emax x) (B2R prec emax K)).
  - apply GE. right. exact CC.
  - pose proof (trunc_below prec emax He x K (2 ^ 63) z FK VK ltac:(lia) I CC) as Lz.
    rewrite (cvtt_int_part W64 _ _ z (feq_refl _) I) by (cbn [bits]; change (2 ^ (64 - 1)) with (2 ^ 63); lia).
    cbn [bits]. change (2 ^ 64) with (2 * 2 ^ 63). apply Z.mod_small. lia.
  - apply GE. left. exact CC.
Qed.
End FToU64.

Lemma exec_f32_to_u64 s x z : feq (f32 (x0 s)) x -> int_part x = Some z -> 0 <= z < 2 ^ 64 ->
  rax (ix (exec_f_to_u64 SS s)) = z.
Proof.
  intros HR I Hz.
  assert (N : is_nan 24 128 x = false) by (destruct x; try reflexivity; discriminate).
  destruct K32_val as [FK VK].
  destruct (cvtt_u64 24 128 xprec32 xemax32 x86_nan32 x _ z FK VK eq_refl I Hz) as (c & CC & R).
  unfold exec_f_to_u64. rewrite (feq_exact _ _ HR N). unfold b32_compare. rewrite CC.
  destruct c; cbn [after_ucomi ucomi_flags ix f_cf set_flags with_ix set_rax rax]; rewrite ?f32_put32; exact R.
Qed.

Lemma exec_f64_to_u64 s x z : feq (f64 (x0 s)) x -> int_part x = Some z -> 0 <= z < 2 ^ 64 ->
  rax (ix (exec_f_to_u64 SD s)) = z.
Proof.
  intros HR I Hz.
  assert (N : is_nan 53 1024 x = false) by (destruct x; try reflexivity; discriminate).
  destruct K64_val as [FK VK].
  destruct (cvtt_u64 53 1024 xprec64 xemax64 x86_nan64 x _ z FK VK eq_refl I Hz) as (c & CC & R).
  unfold exec_f_to_u64. rewrite (feq_exact _ _ HR N). unfold b64_compare. rewrite CC.
  destruct c; cbn [after_ucomi ucomi_flags ix f_cf set_flags with_ix set_rax rax]; rewrite ?f64_bits; exact R.
Qed.
