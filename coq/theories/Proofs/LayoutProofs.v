(* The offset arithmetic of struct_decl places every member where the psABI conditions say. *)
From Chibicc Require Import Base.Mach Model.Layout Spec.LayoutSpec.
Local Open Scope N_scope.

Lemma least_from (P : N -> Prop) n : P n -> least (fun p => n <= p /\ P p) n.
Proof. intros H. split; [split; [reflexivity|exact H]|]. intros q [Hq _]. exact Hq. Qed.

Lemma least_ext (P Q : N -> Prop) p : (forall x, P x <-> Q x) -> least P p -> least Q p.
Proof. intros H [H1 H2]. split; [apply H, H1|]. intros q Hq. apply H2, H, Hq. Qed.

Lemma align_to_divide n a : N.divide a (align_to n a).
Proof. exists ((n + a - 1) / a). reflexivity. Qed.

Lemma align_to_ge n a : 0 < a -> n <= align_to n a.
Proof. intros Ha. unfold align_to. lia. Qed.

Lemma align_to_mono n m a : 0 < a -> n <= m -> align_to n a <= align_to m a.
Proof. intros Ha H. apply N.mul_le_mono_r, N.div_le_mono; lia. Qed.

Lemma align_to_fixed n a : 0 < a -> N.divide a n -> align_to n a = n.
Proof.
  intros Ha [k ->]. unfold align_to.
  replace (k * a + a - 1) with ((a - 1) + k * a) by lia.
  rewrite N.div_add, (N.div_small (a - 1) a) by lia. reflexivity.
Qed.

(* any multiple q >= n is its own alignment, and align_to is monotone *)
Lemma align_to_least n a : 0 < a -> least (fun p => n <= p /\ N.divide a p) (align_to n a).
Proof.
  intros Ha. split; [split; [apply align_to_ge, Ha|apply align_to_divide]|].
  intros q [Hq Hd]. rewrite <- (align_to_fixed q a Ha Hd). apply align_to_mono; assumption.
Qed.

Lemma align_to_unit n a q : 0 < a -> n <= q -> q < align_to n a -> q / a = n / a.
Proof.
  intros Ha H1 H2. assert (Ha0 : a <> 0) by lia. assert (H3 : n + a - 1 <= n + 1 * a) by lia.
  apply (N.div_le_mono _ _ a Ha0) in H1, H3. rewrite N.div_add in H3 by exact Ha0.
  unfold align_to in H2. rewrite N.mul_comm in H2. apply N.div_lt_upper_bound in H2; [|exact Ha0].
  set (x := q / a) in *. set (y := n / a) in *. set (z := (n + a - 1) / a) in *. clearbody x y z. lia.
Qed.

(* the field [x, x + w) lies inside one unit of u bits *)
Lemma same_unit x u w : 0 < u -> 0 < w -> x / u = (x + w - 1) / u <-> x mod u + w <= u.
Proof.
  intros Hu Hw. assert (Hu0 : u <> 0) by lia.
  pose proof (N.div_mod x u Hu0) as E. pose proof (N.mod_upper_bound x u Hu0) as B.
  set (c := x / u) in *. set (r := x mod u) in *. clearbody c r. split; intros H.
  - pose proof (N.div_mod (x + w - 1) u Hu0) as E'. pose proof (N.mod_upper_bound (x + w - 1) u Hu0) as B'.
    rewrite <- H in E'. set (r' := (x + w - 1) mod u) in *. clearbody r'. lia.
  - apply (N.div_unique _ u c (r + w - 1)); lia.
Qed.

(* a field that does not fit where it stands fits nowhere before the next boundary: up to
   there the offset within the unit only grows *)
Lemma next_unit_least u w cur : 0 < u -> 0 < w <= u -> cur / u <> (cur + w - 1) / u ->
  least (fun p => cur <= p /\ p / u = (p + w - 1) / u) (align_to cur u).
Proof.
  intros Hu [Hw Hwu] Hn. assert (Hu0 : u <> 0) by lia. rewrite same_unit in Hn by assumption. split.
  - split; [apply align_to_ge, Hu|]. apply same_unit; [assumption..|].
    rewrite (proj2 (N.mod_divide _ u Hu0) (align_to_divide cur u)). exact Hwu.
  - intros q [Hq Hf]. apply N.le_ngt. intros Hlt. apply Hn. clear Hn.
    rewrite same_unit in Hf by assumption. rewrite N.mod_eq in Hf |- * by exact Hu0.
    rewrite (align_to_unit cur u q Hu Hq Hlt) in Hf. clear Hlt.
    pose proof (N.mul_div_le cur u Hu0). set (b := u * (cur / u)) in *. clearbody b. lia.
Qed.

(* struct_decl's rule for a bit-field of w bits over units of u bits: stay at cur if the field
   fits there, else move to the next unit boundary *)
Lemma bitfield_pos_least packed u w cur : 0 < u -> 0 < w <= u ->
  packed && negb (cur / u =? (cur + w - 1) / u) = false ->
  let p := if negb (cur / u =? (cur + w - 1) / u) then align_to cur u else cur in
  least (fun p => cur <= p /\ (packed = true \/ p / u = (p + w - 1) / u)) p /\ p / u = (p + w - 1) / u.
Proof.
  intros Hu Hw Hkb. destruct (N.eqb_spec (cur / u) ((cur + w - 1) / u)) as [E|E]; cbn [negb] in *.
  - split; [apply least_from; right|]; exact E.
  - destruct packed; [discriminate Hkb|].
    destruct (next_unit_least u w cur Hu Hw E) as [[L1 L2] L3].
    split; [|exact L2]. split; [split; [exact L1|right; exact L2]|].
    intros q [Hq [Hf|Hf]]; [discriminate Hf|]. apply L3. split; assumption.
Qed.

(* the byte offset of the unit and the bit offset inside it, as struct_decl records them, give back the bit position *)
Lemma bitfield_start_bit bits sz : 0 < sz ->
  8 * align_down (bits / 8) sz + bits mod (sz * 8) = bits.
Proof.
  intros Hs. unfold align_down. rewrite N.div_div, (N.mul_comm 8 sz) by lia.
  rewrite N.mod_eq by lia. pose proof (N.mul_div_le bits (sz * 8) ltac:(lia)).
  set (q := bits / (sz * 8)) in *. clearbody q. lia.
Qed.

Definition wf_member (m : minfo) : Prop :=
  0 < m_align m /\
  match m_bf m with Some w => 0 < m_size m /\ w <= 8 * m_size m | None => True end.

Definition straddles (cur : N) (m : minfo) : bool :=
  match m_bf m with
  | Some 0 => false
  | Some w => negb (cur / (m_size m * 8) =? (cur + w - 1) / (m_size m * 8))
  | None => false
  end.

(* the one construct where the code knowingly differs from the psABI: a bit-field that would
   cross a storage-unit boundary inside a packed struct is still moved to the next unit *)
Definition known_bad (packed : bool) (cur : N) (m : minfo) : bool := packed && straddles cur m.

Theorem struct_step_psabi packed st m :
  wf_member m -> known_bad packed (ls_bits st) m = false ->
  exists p, least (can_start packed (ls_bits st) m) p /\
            ls_bits (snd (struct_step packed st m)) = p + bit_len m /\
            (m_bf m <> Some 0 -> start_bit (fst (struct_step packed st m)) = p) /\
            (forall w, m_bf m = Some w -> 0 < w ->
               N.divide (m_size m) (p_off (fst (struct_step packed st m))) /\
               p_bit (fst (struct_step packed st m)) + w <= 8 * m_size m \/ packed = true).
Proof.
  intros [Hal Hwf] Hkb. unfold struct_step, known_bad, straddles, can_start, bit_len, start_bit in *.
  set (cur := ls_bits st) in *. rewrite !(N.mul_comm 8 (m_size m)), (N.mul_comm 8 (m_align m)).
  destruct (m_bf m) as [[|pw]|]; cbn [fst snd ls_bits p_off p_bit].
  - exists (align_to cur (m_size m * 8)).
    split; [apply align_to_least; lia|]. split; [symmetry; apply N.add_0_r|].
    split; [intros []; reflexivity|]. intros w [= <-] H. discriminate H.
  - destruct Hwf as [Hsz Hw]. rewrite (N.mul_comm 8) in Hw.
    assert (Hu : 0 < m_size m * 8) by (apply N.mul_pos_pos; [exact Hsz|reflexivity]).
    destruct (bitfield_pos_least packed _ (N.pos pw) cur Hu (conj eq_refl Hw) Hkb) as [Hl Hf].
    eexists. split; [exact Hl|]. split; [reflexivity|].
    split; [intros _; apply bitfield_start_bit, Hsz|].
    intros w' [= <-] _. left. split; [eexists; reflexivity|].
    exact (proj1 (same_unit _ _ (N.pos pw) Hu eq_refl) Hf).
  - set (a := if packed then 8 else m_align m * 8).
    assert (Ha : 0 < a) by (unfold a; destruct packed; lia).
    exists (align_to cur a).
    split; [apply align_to_least, Ha|]. split; [reflexivity|]. split; [|discriminate].
    intros _. assert (D : N.divide 8 (align_to cur a)).
    { apply N.divide_trans with a; [|apply align_to_divide].
      unfold a. destruct packed; [apply N.divide_refl|apply N.divide_factor_r]. }
    destruct D as [j ->]. rewrite N.div_mul by lia. lia.
Qed.

Fixpoint no_bad (packed : bool) (st : lstate) (ms : list minfo) : bool :=
  match ms with
  | [] => true
  | m :: r => negb (known_bad packed (ls_bits st) m) && no_bad packed (snd (struct_step packed st m)) r
  end.

(* the placements computed by the code, as absolute bit positions (zero-width bit-fields have
   no storage; their recorded position is where the boundary was forced) *)
Fixpoint positions (packed : bool) (st : lstate) (ms : list minfo) : list N :=
  match ms with
  | [] => []
  | m :: r =>
    let st' := snd (struct_step packed st m) in
    (ls_bits st' - bit_len m) :: positions packed st' r
  end.

Lemma struct_members_psabi packed : forall ms st,
  Forall wf_member ms -> no_bad packed st ms = true ->
  psabi_members packed (ls_bits st) ms (positions packed st ms) (ls_bits (snd (struct_members packed st ms))) /\
  Forall2 (fun mp pos => m_bf (fst mp) <> Some 0 -> start_bit (snd mp) = pos)
          (combine ms (fst (struct_members packed st ms))) (positions packed st ms).
Proof.
  induction ms as [|m r IH]; intros st Hwf Hnb; cbn [struct_members positions snd fst combine].
  - split; constructor.
  - inversion_clear Hwf as [|? ? Hm Hr]. cbn [no_bad] in Hnb.
    apply andb_true_iff in Hnb as [Hb Hnb]. apply negb_true_iff in Hb.
    destruct (struct_step_psabi packed st m Hm Hb) as [p [Hl [He [Hs _]]]].
    destruct (IH _ Hr Hnb) as [IH1 IH2]. rewrite He, N.add_sub. split.
    + econstructor; [exact Hl|]. rewrite <- He. exact IH1.
    + constructor; [exact Hs|exact IH2].
Qed.

Lemma psabi_members_ordered packed : forall ms cur ps e,
  psabi_members packed cur ms ps e ->
  cur <= e /\ Forall (fun p => cur <= p) ps /\
  (forall i j pi pj mi, (i < j)%nat -> nth_error ps i = Some pi -> nth_error ps j = Some pj ->
     nth_error ms i = Some mi -> pi + bit_len mi <= pj) /\
  (forall i pi mi, nth_error ps i = Some pi -> nth_error ms i = Some mi -> pi + bit_len mi <= e).
Proof.
  intros ms cur ps e H. induction H as [cur|cur m r p ps e [[Hcp _] _] _ (H1 & H2 & H3 & H4)].
  - split; [reflexivity|]. split; [constructor|]. split; intros; destruct i; discriminate.
  - assert (Hle : cur <= p + bit_len m) by lia.
    split; [exact (N.le_trans _ _ _ Hle H1)|]. split.
    { constructor; [exact Hcp|]. eapply Forall_impl; [|exact H2]. intros q. apply N.le_trans, Hle. }
    split.
    { intros i [|j] pi pj mi Hij Hi Hj Hmi; [inversion Hij|]. destruct i as [|i]; cbn [nth_error] in *.
      - injection Hi as <-. injection Hmi as <-. exact (proj1 (Forall_forall _ _) H2 pj (nth_error_In _ _ Hj)).
      - apply (H3 i j pi pj mi); [apply Nat.succ_lt_mono, Hij|assumption..]. }
    { intros [|i] pi mi Hi Hmi; cbn [nth_error] in *.
      - injection Hi as <-. injection Hmi as <-. exact H1.
      - exact (H4 i pi mi Hi Hmi). }
Qed.

(* the running alignment is the greatest counted alignment so far, said through its upper bounds x: psabi_align is a
   [least] over them, and least_ext carries the equivalence through the induction of struct_align_psabi *)
Lemma step_align_le st m x :
  ls_align (snd (struct_step false st m)) <= x <->
  ls_align st <= x /\ (unnamed_bf m = false -> m_align m <= x).
Proof.
  cbn. destruct (unnamed_bf m); cbn; [intuition discriminate|].
  destruct (N.ltb_spec (ls_align st) (m_align m)); intuition lia.
Qed.

Lemma struct_align_psabi packed : forall ms st,
  psabi_align packed (ls_align st) ms (ls_align (snd (struct_members packed st ms))).
Proof.
  unfold psabi_align. destruct packed; induction ms as [|m r IH]; intros st; cbn [struct_members snd].
  - reflexivity.
  - rewrite IH. reflexivity.
  - apply least_from. intros m [].
  - refine (least_ext _ _ _ _ (IH _)). intros x. rewrite step_align_le. split.
    + intros [[H1 H2] H3]. split; [exact H1|]. intros m' [<-|Hin]; [exact H2|apply H3, Hin].
    + intros [H1 H2]. split; [split; [exact H1|apply H2; left; reflexivity]|].
      intros m' Hin. apply H2. right. exact Hin.
Qed.

Lemma struct_size_psabi bits al : 0 < al -> psabi_size bits al (align_to bits (al * 8) / 8).
Proof.
  intros Ha. assert (Ha8 : 0 < al * 8) by lia. unfold psabi_size.
  destruct (align_to_least bits (al * 8) Ha8) as [[A1 [k Hk]] Hl].
  rewrite Hk, N.mul_assoc, N.div_mul by lia.
  split; [split; [lia|exists k; reflexivity]|].
  intros s [Hs [j ->]]. apply N.mul_le_mono_r, (N.mul_le_mono_pos_r _ _ (al * 8) Ha8).
  rewrite <- Hk. apply Hl. split; [lia|exists j; reflexivity].
Qed.

Theorem struct_layout_psabi packed align0 ms :
  Forall wf_member ms -> 0 < align0 ->
  no_bad packed {| ls_bits := 0; ls_align := align0 |} ms = true ->
  let L := struct_layout packed align0 ms in
  let pos := positions packed {| ls_bits := 0; ls_align := align0 |} ms in
  exists e,
    psabi_members packed 0 ms pos e /\
    psabi_align packed align0 ms (l_align L) /\
    psabi_size e (l_align L) (l_size L) /\
    Forall2 (fun mp p => m_bf (fst mp) <> Some 0 -> start_bit (snd mp) = p) (combine ms (l_places L)) pos.
Proof.
  intros Hwf Ha Hnb L pos. unfold L, pos, struct_layout. cbn [l_size l_align l_places].
  set (st0 := {| ls_bits := 0; ls_align := align0 |}) in *.
  exists (ls_bits (snd (struct_members packed st0 ms))).
  destruct (struct_members_psabi packed ms st0 Hwf Hnb) as [Hm Hp].
  split; [exact Hm|]. split; [apply (struct_align_psabi packed ms st0)|]. split; [|exact Hp].
  apply struct_size_psabi.
  (* alignment stays positive *)
  pose proof (struct_align_psabi packed ms st0) as Hal. unfold psabi_align in Hal.
  destruct packed; [rewrite Hal; exact Ha|]. destruct Hal as [[H _] _]. cbn in H. lia.
Qed.

(* the known exclusion is real: in a packed struct the code moves a straddling bit-field, the psABI does not
   (the psABI members end at bit 38, 5 bytes; the code's struct has 8) *)
Example known_bad_is_real :
  let ms := [ {| m_size := 1; m_align := 1; m_bf := None; m_named := true |};
              {| m_size := 4; m_align := 4; m_bf := Some 30; m_named := true |} ] in
  no_bad true {| ls_bits := 0; ls_align := 1 |} ms = false /\
  l_size (struct_layout true 1 ms) = 8 /\
  psabi_members true 0 ms [0; 8] 38.
Proof.
  cbv zeta. split; [vm_compute; reflexivity|]. split; [vm_compute; reflexivity|].
  econstructor.
  - apply least_from. exists 0. reflexivity.
  - cbn [bit_len m_bf m_size]. econstructor; [|constructor].
    apply least_from. left. reflexivity.
Qed.
