From Chibicc Require Import Base.Mach Model.Abi Spec.AbiSpec Gen.AbiConsts.
Local Open Scope Z_scope.

(* has_flonum's test on one scalar field: outside the window, or floating *)
Definition win_ok (lo hi : Z) (lf : Z * bool) : bool := (fst lf <? lo) || (hi <=? fst lf) || snd lf.

Theorem has_flonum_leaves : forall ty lo hi off,
  has_flonum ty lo hi off = forallb (win_ok lo hi) (leaves ty off).
Proof.
  (* aty is nested through list, so the generated induction principle has no hypothesis for the members of an
     aggregate: recursion on the type, with an induction over the array count and over the member list inside *)
  fix IH 1. intros [f|e esz n|ms] lo hi off; cbn [has_flonum leaves].
  - unfold win_ok. cbn. rewrite andb_true_r. reflexivity.
  - induction n as [|n IHn]; [reflexivity|]. rewrite forallb_app, <- IH, <- IHn. reflexivity.
  - induction ms as [|[o m] r IHr]; [reflexivity|]. rewrite forallb_app, <- IH, <- IHr. reflexivity.
Qed.

Definition not_int (c : cls) : bool := match c with Integer => false | _ => true end.

(* merging the classes of the fields of eightbyte k stays clear of INTEGER exactly when every field
   passes has_flonum's test for that window *)
Lemma class_fold (k : Z) l : forall c,
  not_int (fold_left (fun (c : cls) (lf : Z * bool) => if (8 * k <=? fst lf) && (fst lf <? 8 * k + 8)
                         then merge c (if snd lf then Sse else Integer) else c) l c)
  = not_int c && forallb (win_ok (8 * k) (8 * k + 8)) l.
Proof.
  induction l as [|lf l IH]; intros c; cbn [fold_left forallb]; [symmetry; apply andb_true_r|].
  rewrite IH, andb_assoc. f_equal. unfold win_ok. rewrite (Z.ltb_antisym (8 * k) (fst lf)), (Z.leb_antisym (fst lf) (8 * k + 8)).
  destruct (8 * k <=? fst lf), (fst lf <? 8 * k + 8), (snd lf), c; reflexivity.
Qed.

Theorem has_flonum_is_class ty k :
  has_flonum ty (8 * k) (8 * k + 8) 0 = match eightbyte_class ty k with Integer => false | _ => true end.
Proof. rewrite has_flonum_leaves. symmetry. exact (class_fold k (leaves ty 0) NoClass). Qed.

Lemma limits_are_psabi : GP_MAX = 6%nat /\ FP_MAX = 8%nat.
Proof. split; reflexivity. Qed.

(* 6 and 8 are the literals of AbiSpec.psabi_place; GP_MAX and FP_MAX, read off codegen.c, are unfolded to meet them *)
Theorem caller_is_psabi : forall args gp fp st, (gp <= 6)%nat -> (fp <= 8)%nat ->
  caller_place GP_MAX FP_MAX gp fp st args = psabi_place gp fp st args.
Proof.
  unfold GP_MAX, FP_MAX.
  induction args as [|a r IH]; intros gp fp st Hg Hf; cbn [caller_place psabi_place]; [reflexivity|].
  destruct a; cbn [words_of].
  - replace ((gp + 1 <=? 6)%nat && (fp + 0 <=? 8)%nat) with (gp <? 6)%nat by lia. rewrite (Nat.add_1_r gp), (Nat.add_0_r fp).
    destruct (Nat.ltb_spec gp 6); rewrite IH by lia; reflexivity.
  - replace ((gp + 0 <=? 6)%nat && (fp + 1 <=? 8)%nat) with (fp <? 8)%nat by lia. rewrite (Nat.add_1_r fp), (Nat.add_0_r gp).
    destruct (Nat.ltb_spec fp 8); rewrite IH by lia; reflexivity.
  - rewrite IH by lia. reflexivity.
  - rewrite andb_comm.
    destruct (Nat.leb_spec (gp + ngp) 6); destruct (Nat.leb_spec (fp + nfp) 8); cbn [andb]; rewrite IH by lia; reflexivity.
  - rewrite IH by lia. reflexivity.
Qed.

(* the model of assign_lvar_offsets and the model of the pop loop are the same function *)
Theorem callee_is_caller : forall args gp fp st,
  callee_place GP_MAX FP_MAX gp fp st args = caller_place GP_MAX FP_MAX gp fp st args.
Proof. reflexivity. Qed.

(* push_args marks an argument pass_by_stack exactly when the pop loop does not pop it *)
Theorem flags_match_pops : forall args gp fp st,
  caller_flags GP_MAX FP_MAX gp fp args = map is_stack (caller_place GP_MAX FP_MAX gp fp st args).
Proof.
  induction args as [|a r IH]; intros gp fp st; cbn [caller_flags caller_place map]; [reflexivity|].
  destruct a; [destruct (_ <? _)%nat|destruct (_ <? _)%nat| |destruct (_ && _)| ]; cbn [map is_stack]; f_equal; apply IH.
Qed.
