(* C05 (initializers): InitTree, InitLocal, InitSim, InitRead and InitCursorProofs prove that parse.c's initializer parser
   (Model/InitCursor.v) computes the object C11 6.7.9 describes (Spec/InitSpec.v) on every valid input (Spec/InitValid.v).
   What joins the two is `replay`: the Initializer tree parse.c builds is the empty tree with the spec's event log applied to
   it event by event, a `Set_` storing at its leaf, a `Clear` storing nothing - parse.c merges a braced list into the node it
   finds and never resets one -, both marking the unions on their way.  InitSim proves that of every parser function;
   InitRead shows that such a tree is read as 6.7.9 reads the log whenever the log is `clean`. *)
From Coq Require Import List Arith Bool Lia.
From Chibicc Require Import Spec.InitSyntax Spec.InitSpec Spec.InitValid Model.InitCursor.
Import ListNotations.

Definition upd (cs : list itree) (i : nat) (f : itree -> itree) : list itree :=
  match nth_error cs i with Some c => set_nth cs i (f c) | None => cs end.

(* the scalar at p receives x; every union on the way holds the member the path goes through *)
Fixpoint tset (t : itree) (p : path) (x : option val) {struct p} : itree :=
  match p with
  | [] => match t with NScalar _ => NScalar x | _ => t end
  | i :: q =>
      match t with
      | NScalar _ => t
      | NArray f e cs => NArray f e (upd cs i (fun c => tset c q x))
      | NStruct cs => NStruct (upd cs i (fun c => tset c q x))
      | NUnion _ cs => NUnion (Some i) (upd cs i (fun c => tset c q x))
      end
  end.

(* a braced list for subobject p: nothing is written (parse.c does not reset the node: it merges),
   the unions on the way to p hold the member the path goes through *)
Fixpoint ttouch (t : itree) (p : path) {struct p} : itree :=
  match p with
  | [] => t
  | i :: q =>
      match t with
      | NScalar _ => t
      | NArray f e cs => NArray f e (upd cs i (fun c => ttouch c q))
      | NStruct cs => NStruct (upd cs i (fun c => ttouch c q))
      | NUnion _ cs => NUnion (Some i) (upd cs i (fun c => ttouch c q))
      end
  end.

Definition apply_ev (t : itree) (e : event) : itree :=
  match e with Set_ p x => tset t p x | Clear p => ttouch t p end.
Definition replay (t : itree) (E : list event) : itree := fold_left apply_ev E t.

Lemma replay_app : forall E1 E2 t, replay t (E1 ++ E2) = replay (replay t E1) E2.
Proof. intros E1 E2 t. unfold replay. apply fold_left_app. Qed.

Lemma at_app : forall q r e, at_ q (at_ r e) = at_ (q ++ r) e.
Proof. intros q r [p x|p]; cbn [at_]; rewrite app_assoc; reflexivity. Qed.

Lemma map_at_app : forall q r E, map (at_ q) (map (at_ r) E) = map (at_ (q ++ r)) E.
Proof. intros q r E. rewrite map_map. apply map_ext. intro e. apply at_app. Qed.

Lemma at_nil : forall e, at_ [] e = e.
Proof. intros [p x|p]; reflexivity. Qed.

Lemma map_at_nil : forall E, map (at_ []) E = E.
Proof. intro E. rewrite <- (map_id E) at 2. apply map_ext. apply at_nil. Qed.

Lemma nth_error_lt : forall (cs : list itree) i c, nth_error cs i = Some c -> i < length cs.
Proof. intros cs i c H. apply nth_error_Some. rewrite H. discriminate. Qed.

Lemma set_nth_length : forall (cs : list itree) i x, length (set_nth cs i x) = length cs.
Proof.
  induction cs as [|c cs IH]; intros i x; [reflexivity|].
  destruct i as [|i]; cbn [set_nth length]; [reflexivity|]. rewrite IH. reflexivity.
Qed.

Lemma set_nth_same : forall (cs : list itree) i x, i < length cs -> nth_error (set_nth cs i x) i = Some x.
Proof.
  induction cs as [|c cs IH]; intros i x Hi; cbn [length] in Hi; [lia|].
  destruct i as [|i]; cbn [set_nth nth_error]; [reflexivity|]. apply IH. lia.
Qed.

Lemma set_nth_other : forall (cs : list itree) i j x, i <> j -> nth_error (set_nth cs i x) j = nth_error cs j.
Proof.
  induction cs as [|c cs IH]; intros i j x Hij; [reflexivity|].
  destruct i as [|i], j as [|j]; cbn [set_nth nth_error]; try reflexivity; try lia.
  apply IH. lia.
Qed.

Lemma set_nth_set_nth : forall (cs : list itree) i x y, set_nth (set_nth cs i x) i y = set_nth cs i y.
Proof.
  induction cs as [|c cs IH]; intros i x y; [reflexivity|].
  destruct i as [|i]; cbn [set_nth]; [reflexivity|]. rewrite IH. reflexivity.
Qed.

Lemma set_nth_app : forall (done cs : list itree) c0 z, set_nth (done ++ c0 :: cs) (length done) z = done ++ z :: cs.
Proof. induction done as [|x done IH]; intros cs c0 z; [reflexivity|]. cbn [app length set_nth]. rewrite IH. reflexivity. Qed.

Lemma set_nth_id : forall (cs : list itree) i c, nth_error cs i = Some c -> set_nth cs i c = cs.
Proof.
  induction cs as [|c0 cs IH]; intros [|i] c Hc; cbn [nth_error] in Hc; try discriminate.
  - injection Hc as ->. reflexivity.
  - cbn [set_nth]. rewrite (IH i c Hc). reflexivity.
Qed.

Lemma upd_length : forall cs i f, length (upd cs i f) = length cs.
Proof. intros cs i f. unfold upd. destruct (nth_error cs i); [apply set_nth_length|reflexivity]. Qed.

Lemma apply_ev_at : forall t i ev,
  apply_ev t (at_ [i] ev)
  = match t with
    | NScalar _ => t
    | NArray f e cs => NArray f e (upd cs i (fun c => apply_ev c ev))
    | NStruct cs => NStruct (upd cs i (fun c => apply_ev c ev))
    | NUnion _ cs => NUnion (Some i) (upd cs i (fun c => apply_ev c ev))
    end.
Proof. intros t i [p x|p]; destruct t; reflexivity. Qed.

Lemma replay_below : forall (w : list itree -> itree) i,
  (forall cs c ev, nth_error cs i = Some c -> apply_ev (w cs) (at_ [i] ev) = w (set_nth cs i (apply_ev c ev))) ->
  forall E cs c, nth_error cs i = Some c -> replay (w cs) (map (at_ [i]) E) = w (set_nth cs i (replay c E)).
Proof.
  intros w i Hw E. induction E as [|ev E IH]; intros cs c Hc.
  - cbn [map replay fold_left]. rewrite (set_nth_id cs i c Hc). reflexivity.
  - pose proof (nth_error_lt cs i c Hc) as Hlen.
    change (replay (w cs) (map (at_ [i]) (ev :: E))) with (replay (apply_ev (w cs) (at_ [i] ev)) (map (at_ [i]) E)).
    rewrite (Hw cs c ev Hc), (IH _ (apply_ev c ev) (set_nth_same cs i _ Hlen)), set_nth_set_nth. reflexivity.
Qed.

(* the two kinds of node whose children parse.c initializes in order, with the same loop (array_loop2 of the model);
   a union node differs: an event below it also makes it hold the member (replay_union_child) *)
Definition wrapper (w : list itree -> itree) : Prop :=
  (exists e, w = NArray false e) \/ w = NStruct.

Lemma replay_child : forall w, wrapper w -> forall E cs i c,
  nth_error cs i = Some c ->
  replay (w cs) (map (at_ [i]) E) = w (set_nth cs i (replay c E)).
Proof.
  intros w Hw E cs i. apply replay_below. intros cs0 c ev Hc. rewrite apply_ev_at.
  destruct Hw as [[e ->]| ->]; unfold upd; rewrite Hc; reflexivity.
Qed.

Lemma replay_union_child : forall E mem cs i c,
  E <> [] -> nth_error cs i = Some c ->
  replay (NUnion mem cs) (map (at_ [i]) E) = NUnion (Some i) (set_nth cs i (replay c E)).
Proof.
  intros [|ev E] mem cs i c HE Hc; [congruence|].
  pose proof (nth_error_lt cs i c Hc) as Hlen.
  change (replay (NUnion mem cs) (map (at_ [i]) (ev :: E)))
    with (replay (apply_ev (NUnion mem cs) (at_ [i] ev)) (map (at_ [i]) E)).
  rewrite apply_ev_at. unfold upd. rewrite Hc.
  rewrite (replay_below (NUnion (Some i)) i) with (c := apply_ev c ev); [|..|apply set_nth_same; exact Hlen].
  - rewrite set_nth_set_nth. reflexivity.
  - intros cs0 c0 ev0 Hc0. rewrite apply_ev_at. unfold upd. rewrite Hc0. reflexivity.
Qed.

(* t has the form of new_initializer U false for a complete type U: no array is flexible, every node has the children its
   type says; the values and the members the unions hold are free *)
Fixpoint shaped (U : ty) (t : itree) {struct t} : Prop :=
  match t with
  | NScalar _ => exists k, U = TScalar k
  | NArray f e cs =>
      f = false /\ U = TArray (Some (length cs)) e /\
      (fix all (cs : list itree) : Prop := match cs with [] => True | c :: cs' => shaped e c /\ all cs' end) cs
  | NStruct cs =>
      exists ms, U = TStruct ms /\
      (fix all2 (ms : list ty) (cs : list itree) {struct cs} : Prop :=
         match ms, cs with
         | [], [] => True
         | m :: ms', c :: cs' => shaped m c /\ all2 ms' cs'
         | _, _ => False
         end) ms cs
  | NUnion _ cs =>
      exists ms, U = TUnion ms /\
      (fix all2 (ms : list ty) (cs : list itree) {struct cs} : Prop :=
         match ms, cs with
         | [], [] => True
         | m :: ms', c :: cs' => shaped m c /\ all2 ms' cs'
         | _, _ => False
         end) ms cs
  end.

Definition shaped_all (e : ty) (cs : list itree) : Prop := Forall (shaped e) cs.
Definition shaped_all2 (ms : list ty) (cs : list itree) : Prop := Forall2 shaped ms cs.

Lemma shaped_array : forall U f e cs,
  shaped U (NArray f e cs) <-> f = false /\ U = TArray (Some (length cs)) e /\ Forall (shaped e) cs.
Proof.
  intros U f e cs. cbn [shaped].
  assert (H : forall l, (fix all (cs : list itree) : Prop := match cs with [] => True | c :: cs' => shaped e c /\ all cs' end) l
                         <-> Forall (shaped e) l).
  { intro l. induction l as [|c l IH].
    - split; intro H; [constructor|exact I].
    - split; intro H.
      + destruct H as [H1 H2]. constructor; [exact H1|apply IH; exact H2].
      + inversion H as [|c' l' H1 H2]; subst. split; [exact H1|apply IH; exact H2]. }
  rewrite H. tauto.
Qed.

Lemma all2_Forall2 : forall ms cs,
  (fix all2 (ms : list ty) (cs : list itree) {struct cs} : Prop :=
     match ms, cs with
     | [], [] => True
     | m :: ms', c :: cs' => shaped m c /\ all2 ms' cs'
     | _, _ => False
     end) ms cs <-> Forall2 shaped ms cs.
Proof.
  induction ms as [|m ms IH]; intros [|c cs].
  - split; intro H; [constructor|exact I].
  - split; intro H; [contradiction|inversion H].
  - split; intro H; [contradiction|inversion H].
  - split; intro H.
    + destruct H as [H1 H2]. constructor; [exact H1|apply IH; exact H2].
    + inversion H as [|m' c' ms' cs' H1 H2]; subst. split; [exact H1|apply IH; exact H2].
Qed.

Lemma shaped_struct : forall U cs, shaped U (NStruct cs) <-> exists ms, U = TStruct ms /\ Forall2 shaped ms cs.
Proof.
  intros U cs. cbn [shaped]. split; intros [ms [HU H]]; exists ms; (split; [exact HU|]); apply all2_Forall2; exact H.
Qed.

Lemma shaped_union : forall U mem cs, shaped U (NUnion mem cs) <-> exists ms, U = TUnion ms /\ Forall2 shaped ms cs.
Proof.
  intros U mem cs. cbn [shaped]. split; intros [ms [HU H]]; exists ms; (split; [exact HU|]); apply all2_Forall2; exact H.
Qed.

Lemma shaped_scalar : forall U x, shaped U (NScalar x) <-> exists k, U = TScalar k.
Proof. intros U x. cbn [shaped]. tauto. Qed.

Lemma shaped_scalar_inv : forall k t, shaped (TScalar k) t -> exists y, t = NScalar y.
Proof.
  intros k [y|f e cs|cs|mem cs] H; [exists y; reflexivity|exfalso..].
  - apply shaped_array in H. destruct H as [_ [H _]]. discriminate H.
  - apply shaped_struct in H. destruct H as [ms [H _]]. discriminate H.
  - apply shaped_union in H. destruct H as [ms [H _]]. discriminate H.
Qed.

Lemma shaped_array_inv : forall n e t, shaped (TArray n e) t ->
  exists cs, t = NArray false e cs /\ n = Some (length cs) /\ Forall (shaped e) cs.
Proof.
  intros n e [y|f e' cs|cs|mem cs] H; [exfalso|..|exfalso|exfalso].
  - destruct (proj1 (shaped_scalar _ _) H) as [k Hk]. discriminate Hk.
  - apply shaped_array in H. destruct H as [-> [H Hall]]. injection H as -> <-. exists cs. repeat split. exact Hall.
  - apply shaped_struct in H. destruct H as [ms [H _]]. discriminate H.
  - apply shaped_union in H. destruct H as [ms [H _]]. discriminate H.
Qed.

(* the local fixpoints of shaped are reached through shaped_array, shaped_struct, shaped_union and shaped_scalar only *)
Global Opaque shaped.

Lemma Forall2_nth : forall (ms : list ty) (cs : list itree) i m,
  Forall2 shaped ms cs -> nth_error ms i = Some m -> exists c, nth_error cs i = Some c /\ shaped m c.
Proof.
  intros ms cs i m H. revert i. induction H as [|m0 c0 ms cs Hmc H IH]; intros [|i] Hi; cbn [nth_error] in Hi; try discriminate.
  - injection Hi as ->. exists c0. split; [reflexivity|assumption].
  - apply IH. exact Hi.
Qed.

Lemma Forall2_length_sh : forall (ms : list ty) (cs : list itree), Forall2 shaped ms cs -> length ms = length cs.
Proof. intros ms cs H. induction H; cbn [length]; congruence. Qed.

Lemma Forall_set_nth : forall e (cs : list itree) i c',
  Forall (shaped e) cs -> shaped e c' -> Forall (shaped e) (set_nth cs i c').
Proof.
  intros e cs i c' H. revert i. induction H as [|c0 cs Hc0 H IH]; intros i Hc; [constructor|].
  destruct i as [|i]; cbn [set_nth]; constructor; try assumption. apply IH. assumption.
Qed.

Lemma Forall_nth : forall e (cs : list itree) i, Forall (shaped e) cs -> i < length cs -> exists c, nth_error cs i = Some c /\ shaped e c.
Proof.
  intros e cs i H Hi. destruct (nth_error cs i) as [c|] eqn:Hc.
  - exists c. split; [reflexivity|]. rewrite Forall_forall in H. apply H. eapply nth_error_In. exact Hc.
  - apply nth_error_None in Hc. lia.
Qed.

Definition children (t : itree) : list itree :=
  match t with NScalar _ => [] | NArray _ _ cs => cs | NStruct cs => cs | NUnion _ cs => cs end.

Lemma shaped_child : forall U t i V, shaped U t -> child U i = Some V ->
  exists c, nth_error (children t) i = Some c /\ shaped V c.
Proof.
  intros U t i V Ht Hc. destruct t as [x|f e cs|cs|mem cs]; cbn [children].
  - apply shaped_scalar in Ht. destruct Ht as [k ->]. discriminate.
  - apply shaped_array in Ht. destruct Ht as [-> [-> Hall]]. cbn [child in_bound] in Hc.
    destruct (i <? length cs) eqn:Hi; [|discriminate]. injection Hc as <-. apply Nat.ltb_lt in Hi.
    apply Forall_nth; assumption.
  - apply shaped_struct in Ht. destruct Ht as [ms [-> H2]]. cbn [child] in Hc. eapply Forall2_nth; eassumption.
  - apply shaped_union in Ht. destruct Ht as [ms [-> H2]]. cbn [child] in Hc. eapply Forall2_nth; eassumption.
Qed.

Lemma Forall_upd : forall e cs i g, Forall (shaped e) cs -> (forall c, shaped e c -> shaped e (g c)) ->
  Forall (shaped e) (upd cs i g).
Proof.
  intros e cs i g H Hg. unfold upd. destruct (nth_error cs i) as [c|] eqn:Hc; [|exact H].
  apply Forall_set_nth; [exact H|]. apply Hg. rewrite Forall_forall in H. apply H. eapply nth_error_In. exact Hc.
Qed.

Lemma Forall2_upd : forall ms cs i g, Forall2 shaped ms cs -> (forall m c, shaped m c -> shaped m (g c)) ->
  Forall2 shaped ms (upd cs i g).
Proof.
  intros ms cs i g H Hg. revert i. induction H as [|m c ms cs Hmc H IH]; intro i; [destruct i; constructor|].
  destruct i as [|i]; unfold upd; cbn [nth_error set_nth].
  - constructor; [apply Hg; exact Hmc|exact H].
  - specialize (IH i). unfold upd in IH. destruct (nth_error cs i); constructor; assumption.
Qed.

Lemma shaped_apply_ev : forall p U t ev, event_path ev = p -> shaped U t -> shaped U (apply_ev t ev).
Proof.
  induction p as [|i q IH]; intros U t ev Hp Ht.
  - destruct ev as [p x|p]; cbn [event_path] in Hp; subst p; destruct t; exact Ht.
  - assert (Hev : exists ev', ev = at_ [i] ev' /\ event_path ev' = q).
    { destruct ev as [p x|p]; cbn [event_path] in Hp; subst p; [exists (Set_ q x)|exists (Clear q)]; split; reflexivity. }
    destruct Hev as [ev' [-> Hq]]. rewrite apply_ev_at.
    destruct t as [y|f e cs|cs|mem cs]; [exact Ht| | |].
    + apply shaped_array in Ht. destruct Ht as [Hf [HU Hall]]. apply shaped_array.
      rewrite upd_length. split; [exact Hf|]. split; [exact HU|].
      apply Forall_upd; [exact Hall|]. intros c Hc. apply (IH e c ev' Hq Hc).
    + apply shaped_struct in Ht. destruct Ht as [ms [HU Hall]]. apply shaped_struct. exists ms. split; [exact HU|].
      apply Forall2_upd; [exact Hall|]. intros m c Hc. apply (IH m c ev' Hq Hc).
    + apply shaped_union in Ht. destruct Ht as [ms [HU Hall]]. apply shaped_union. exists ms. split; [exact HU|].
      apply Forall2_upd; [exact Hall|]. intros m c Hc. apply (IH m c ev' Hq Hc).
Qed.

Lemma shaped_replay : forall E U t, shaped U t -> shaped U (replay t E).
Proof.
  induction E as [|ev E IH]; intros U t Ht; [exact Ht|].
  unfold replay. cbn [fold_left]. apply IH. apply (shaped_apply_ev (event_path ev)); [reflexivity|exact Ht].
Qed.

Lemma tdepth_members : forall ms m, In m ms -> tdepth m <= fold_right (fun m a => Nat.max (tdepth m) a) 0 ms.
Proof.
  induction ms as [|m0 ms IH]; intros m Hin; [contradiction|].
  cbn [fold_right]. destruct Hin as [->|Hin]; [lia|]. specialize (IH m Hin). lia.
Qed.

Lemma tdepth_child : forall U i V, child U i = Some V -> tdepth V < tdepth U.
Proof.
  intros U i V H. destruct U as [k|n e|ms|ms]; cbn [child] in H.
  - discriminate.
  - destruct (in_bound n i); [|discriminate]. injection H as ->. cbn [tdepth]. lia.
  - cbn [tdepth]. apply nth_error_In in H. apply tdepth_members in H. lia.
  - cbn [tdepth]. apply nth_error_In in H. apply tdepth_members in H. lia.
Qed.

Lemma members_below : forall n ms, S (fold_right (fun m a => Nat.max (tdepth m) a) 0 ms) < S n ->
  match ms with [] => false | _ => forallb wf ms end = true ->
  forall m, In m ms -> tdepth m < n /\ wf m = true.
Proof.
  intros n ms Hd Hwf m Hin. split.
  - apply tdepth_members in Hin. lia.
  - destruct ms as [|m0 ms0]; [discriminate|]. rewrite forallb_forall in Hwf. apply Hwf. exact Hin.
Qed.

Lemma wf_members : forall ms, wf (TStruct ms) = true -> forallb wf ms = true.
Proof. intros [|m ms] H; [discriminate|exact H]. Qed.

(* members with a complete type: none of them is a flexible array member *)
Lemma new_initializer_struct : forall f ms, forallb wf ms = true ->
  new_initializer (TStruct ms) f = NStruct (map (fun m => new_initializer m false) ms).
Proof.
  intros f ms H. cbn [new_initializer]. f_equal.
  induction ms as [|m ms IH]; [reflexivity|].
  cbn [forallb] in H. apply andb_prop in H. destruct H as [Hm Hms]. specialize (IH Hms).
  cbn [map]. destruct m as [k|[n|] e|ms1|ms1]; try (rewrite IH; reflexivity).
  cbn [wf] in Hm. discriminate.
Qed.

(* n is the measure of the induction: ty is nested through list, and its generated principle says nothing of the members *)
Lemma shaped_new : forall n U, tdepth U < n -> wf U = true -> shaped U (new_initializer U false).
Proof.
  induction n as [|n IH]; intros U Hd Hwf; [lia|].
  assert (Hall : forall ms, (forall m, In m ms -> tdepth m < n /\ wf m = true) ->
                   Forall2 shaped ms (map (fun m => new_initializer m false) ms)).
  { induction ms as [|m ms IHms]; intro Hms; [constructor|]. cbn [map]. constructor.
    - apply IH; apply Hms; left; reflexivity.
    - apply IHms. intros m' Hin. apply Hms. right. exact Hin. }
  destruct U as [k|[len|] e|ms|ms].
  - apply shaped_scalar. exists k. reflexivity.
  - cbn [new_initializer]. apply shaped_array. rewrite repeat_length. split; [reflexivity|]. split; [reflexivity|].
    apply Forall_forall. intros c Hc. apply repeat_spec in Hc. subst c. cbn [wf] in Hwf. apply andb_prop in Hwf.
    apply IH; [cbn [tdepth] in Hd; lia|apply Hwf].
  - cbn [wf] in Hwf. discriminate.
  - rewrite new_initializer_struct by (apply wf_members; exact Hwf).
    apply shaped_struct. exists ms. split; [reflexivity|]. apply Hall. exact (members_below n ms Hd Hwf).
  - cbn [new_initializer]. apply shaped_union. exists ms. split; [reflexivity|]. apply Hall. exact (members_below n ms Hd Hwf).
Qed.

Lemma shaped_empty : forall U, wf U = true -> shaped U (new_initializer U false).
Proof. intros U. apply (shaped_new (S (tdepth U))). apply Nat.lt_succ_diag_r. Qed.
