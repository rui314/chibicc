(* C15 (symbol emission): the anonymous objects - block-scope statics, string literals, __func__ /
   __FUNCTION__.  They have no linkage (6.2.2p6): no entry under a program identifier.  What the standard
   fixes is their storage duration (6.2.4), i.e. where they are placed.  For EVERY unit (no validity needed)
   the labels .L..0, .L..1, ... are distinct, and the sequence of (section, size, alignment) the assembler
   records for them is that of the anonymous objects whose owner function, if they have one, is live;
   EmitClosure reads this against the specification. *)
From Coq Require Import List Bool Arith ZArith Lia.
From Coq Require FinFun.
From Chibicc Require Import Model.Linkage Spec.LinkSpec Model.Emit Proofs.EmitAsm Proofs.EmitParse.
Import ListNotations.

Lemma flat_map_flat_map {A B C} (f : B -> list C) (g : A -> list B) l : flat_map f (flat_map g l) = flat_map (fun x => flat_map f (g x)) l.
Proof. induction l as [|x r IH]; [reflexivity|]. cbn [flat_map]. rewrite flat_map_app, IH. reflexivity. Qed.
Lemma flat_map_ext_in {A B} (f g : A -> list B) l : (forall x, In x l -> f x = g x) -> flat_map f l = flat_map g l.
Proof. intros H. rewrite !flat_map_concat_map. f_equal. apply map_ext_in. exact H. Qed.
Lemma flat_map_singleton {A B} (f : A -> B) l : flat_map (fun x => [f x]) l = map f l.
Proof. induction l as [|x r IH]; [reflexivity|]. cbn. rewrite IH. reflexivity. Qed.
Lemma flat_map_if {A B} (P : A -> bool) (f : A -> B) l : flat_map (fun x => if P x then [f x] else []) l = map f (filter P l).
Proof. induction l as [|x r IH]; [reflexivity|]. cbn [flat_map filter]. rewrite IH. destruct (P x); reflexivity. Qed.

(* the anonymous objects of a unit in creation order, numbered from a *)
Fixpoint unit_anons (a : nat) (ds : list decl) : list obj :=
  match ds with
  | [] => []
  | DFun n _ _ fsz (Some items) :: r =>
      let l := anon_obj_of a false true fsz 1 true None :: anon_obj_of (S a) false true fsz 1 true None :: body_anons n (S (S a)) items in
      l ++ unit_anons (a + length l) r
  | _ :: r => unit_anons a r
  end.

(* the labels are consecutive numbers, hence distinct *)
Lemma body_anons_names fn items : forall a, map ob_name (body_anons fn a items) = map Anon (seq a (length (body_anons fn a items))).
Proof.
  induction items as [|i r IH]; intros a; [reflexivity|].
  destruct i; cbn [body_anons]; [apply IH| |]; cbn [map length seq ob_name anon_obj_of]; rewrite IH; reflexivity.
Qed.
Lemma unit_anons_names ds : forall a, map ob_name (unit_anons a ds) = map Anon (seq a (length (unit_anons a ds))).
Proof.
  induction ds as [|d r IH]; intros a; [reflexivity|]. destruct d as [n od|n sc il fsz [items|]]; cbn [unit_anons]; [apply IH| |apply IH].
  cbv zeta. remember (anon_obj_of a false true fsz 1 true None :: anon_obj_of (S a) false true fsz 1 true None :: body_anons n (S (S a)) items) as l eqn:El.
  rewrite map_app, app_length, seq_app, map_app, IH. f_equal.
  subst l. cbn [map length seq ob_name anon_obj_of]. rewrite body_anons_names. reflexivity.
Qed.
Lemma unit_anons_nodup ds a : NoDup (map ob_name (unit_anons a ds)).
Proof.
  rewrite unit_anons_names. apply FinFun.Injective_map_NoDup; [|apply seq_NoDup].
  intros i j E. injection E as E. exact E.
Qed.

Lemma filter_name_notin s l : ~ In s (map ob_name l) -> filter (same_name s) l = [].
Proof.
  intros H. apply filter_none. intros y Hy. unfold same_name. destruct (ident_eqb s (ob_name y)) eqn:E; [|reflexivity].
  exfalso. apply H. apply ident_eqb_eq in E. rewrite E. apply in_map. exact Hy.
Qed.
Lemma filter_unique_name l x : NoDup (map ob_name l) -> In x l -> filter (same_name (ob_name x)) l = [x].
Proof.
  induction l as [|y r IH]; intros ND Hx; [contradiction|]. cbn [map] in ND. inversion ND as [|? ? Hn ND']. subst.
  cbn [filter]. unfold same_name at 1. destruct Hx as [->|Hx].
  - rewrite ident_eqb_refl, (filter_name_notin _ _ Hn). reflexivity.
  - destruct (ident_eqb (ob_name x) (ob_name y)) eqn:E; [|apply IH; assumption].
    exfalso. apply Hn. apply ident_eqb_eq in E. rewrite <- E. apply in_map. exact Hx.
Qed.

(* what new_anon_gvar makes: an object that is defined and never tentative; a block-scope static is owned by its function *)
Definition anon_def (x : obj) : Prop :=
  anon_named x = true /\ ob_function x = false /\ ob_definition x = true /\ ob_tentative x = false /\ ob_rel x = None.

Lemma body_anons_def fn a items x : In x (body_anons fn a items) -> anon_def x /\ forall g, ob_owner x = Some g -> g = fn.
Proof.
  revert a. induction items as [|i r IH]; intros a Hx; [contradiction|].
  destruct i; cbn [body_anons] in Hx; [eapply IH; exact Hx| |];
    (destruct Hx as [<-|Hx]; [split; [repeat split|cbn; congruence]|eapply IH; exact Hx]).
Qed.
Lemma unit_anons_def ds : forall a x, In x (unit_anons a ds) -> anon_def x /\ forall g, ob_owner x = Some g -> funseq g ds <> [].
Proof.
  induction ds as [|d r IH]; intros a x Hx; [contradiction|].
  assert (Htail : forall a', In x (unit_anons a' r) -> anon_def x /\ forall g, ob_owner x = Some g -> funseq g (d :: r) <> []).
  { intros a' H. destruct (IH a' x H) as [D Ho]. split; [exact D|]. intros g Hg. specialize (Ho g Hg).
    destruct d as [m od|m ? ? ? ?]; cbn [funseq]; [exact Ho|]. destruct (Nat.eqb m g); [discriminate|exact Ho]. }
  destruct d as [n od|n sc il fsz [items|]]; cbn [unit_anons] in Hx; [eapply Htail; exact Hx| |eapply Htail; exact Hx].
  cbv zeta in Hx. apply in_app_or in Hx as [[<-|[<-|Hx]]|Hx]; [split; [repeat split|discriminate]..| |eapply Htail; exact Hx].
  destruct (body_anons_def _ _ _ _ Hx) as [D Ho]. split; [exact D|].
  intros g Hg. rewrite (Ho g Hg). cbn [funseq]. rewrite Nat.eqb_refl. discriminate.
Qed.

(* what the remaining declarations add to the anonymous objects and to the label counter, from any state and for any input *)
Lemma run_anon : forall q st,
  view KAnon (ps_globals (fold_left step q st)) = rev (unit_anons (ps_anon st) q) ++ view KAnon (ps_globals st)
  /\ ps_anon (fold_left step q st) = (ps_anon st + length (unit_anons (ps_anon st) q))%nat.
Proof.
  induction q as [|d q IH]; intros st; [split; [reflexivity|apply plus_n_O]|]. cbn [fold_left].
  destruct (IH (step st d)) as [E1 E2]. rewrite E1, E2. clear IH E1 E2.
  destruct d as [n od|n sc il fsz body].
  - destruct (step_obj_views st n od) as (_ & Ea & _ & Ev). cbv zeta in *. rewrite Ea, (Ev KAnon). split; reflexivity.
  - destruct (step_fun_views st n sc il fsz body) as (fin & _ & _ & Ea & _ & Ev). cbv zeta in *. rewrite Ea, (Ev KAnon).
    replace (unit_anons (ps_anon st) (DFun n sc il fsz body :: q))
      with (new_anons (ps_anon st) n fsz body ++ unit_anons (ps_anon st + length (new_anons (ps_anon st) n fsz body)) q)
      by (destruct body; [reflexivity|cbn [new_anons unit_anons app length]; rewrite Nat.add_0_r; reflexivity]).
    rewrite rev_app_distr, app_length, <- app_assoc, Nat.add_assoc. split; reflexivity.
Qed.
Theorem parse_anon ds : view KAnon (ps_globals (parse ds)) = rev (unit_anons 0 ds).
Proof. unfold parse. rewrite (proj1 (run_anon ds _)). apply app_nil_r. Qed.

Definition anon_entry (x : obj) : anon_obj := mkAnon (data_place x) (ob_size x) (eff_align x).

Definition placed (live : nat -> bool) (x : obj) : bool := match ob_owner x with Some g => live g | None => true end.
Lemma anon_entries_spec live ds : forall a, map anon_entry (filter (placed live) (unit_anons a ds)) = spec_anon live ds.
Proof.
  induction ds as [|d r IH]; intros a; [reflexivity|].
  unfold spec_anon in *. cbn [flat_map]. destruct d as [n od|n sc il fsz [items|]]; cbn [unit_anons]; [apply IH| |apply IH].
  cbv zeta. rewrite filter_app, map_app, IH. f_equal. cbn [filter placed anon_obj_of ob_owner map]. apply f_equal2; [reflexivity|]. apply f_equal2; [reflexivity|].
  generalize (S (S a)). induction items as [|i items IHi]; intros b; [reflexivity|].
  destruct i as [m|tl sz al arr hi|sz]; cbn [body_anons flat_map anon_of_item app map filter placed anon_obj_of ob_owner].
  - apply IHi.
  - destruct (live n); [|apply IHi]. cbn [map app]. rewrite IHi. f_equal. unfold anon_entry, data_place. cbn. destruct tl, hi; reflexivity.
  - cbn [map app]. rewrite IHi. reflexivity.
Qed.

Section Anon.
Variable ds : list decl.
Variable o : opts.
Let Gs := ps_globals (parse ds).
Let M := mark Gs.
Let prog := parse_flags ds.
Let U := unit_anons 0 ds.
Let evs := asm P_text None (emit o prog).

(* neither mark nor scan_globals touches them: anonymous objects are never tentative *)
Lemma anon_prog : view KAnon prog = rev U.
Proof.
  assert (E : view KAnon M = rev U).
  { unfold M. rewrite view_mark. exact (parse_anon ds). }
  unfold prog, parse_flags. fold Gs. fold M. rewrite view_scan; [exact E|]. intros x Hx. rewrite E in Hx. apply in_rev in Hx. apply (unit_anons_def ds 0 x Hx).
Qed.
Lemma anon_prog_def x : In x prog -> anon_named x = true -> anon_def x.
Proof. intros Hx Ha. apply (unit_anons_def ds 0 x). apply in_rev. fold U. rewrite <- anon_prog. apply filter_In. split; assumption. Qed.
Lemma fun_user x : In x prog -> ob_function x = true -> anon_named x = false.
Proof.
  intros Hx Hf. destruct (anon_named x) eqn:Ha; [|reflexivity]. destruct (anon_prog_def x Hx Ha) as (_ & Hf' & _). congruence.
Qed.

(* each label is defined exactly once *)
Lemma named_anon x : In x U -> filter (same_name (ob_name x)) prog = [x].
Proof.
  intros Hx. destruct (unit_anons_def ds 0 x Hx) as [(Ha & _) _]. rewrite (filter_filter_sub (same_name (ob_name x)) (has_kind KAnon) prog).
  - fold (view KAnon prog). rewrite anon_prog, filter_rev, (filter_unique_name U x (unit_anons_nodup ds 0) Hx). reflexivity.
  - intros y _ Hn. apply ident_eqb_eq in Hn. cbn [has_kind]. unfold anon_named in *. rewrite <- Hn. exact Ha.
Qed.

Lemma size_of_label x : In x U -> owner_live prog x = true -> ev_size (ob_name x) evs = Some (ob_size x).
Proof.
  intros Hx Hol. destruct (unit_anons_def ds 0 x Hx) as [(Ha & Hf & Hd & Ht & _) _]. rewrite <- ev_size_core. unfold evs. rewrite core_emit.
  rewrite (flat_map_nil (fun y => if same_name (ob_name x) y then text_core y else []) prog), app_nil_r.
  - rewrite (flat_map_filter _ (same_name (ob_name x)) prog) by (intros y _ Hy; rewrite Hy; reflexivity).
    rewrite (named_anon x Hx). cbn [flat_map]. rewrite app_nil_r.
    unfold same_name, data_core, emits_data. rewrite ident_eqb_refl, Hf, Hd, Ht, Hol. cbn [negb andb].
    rewrite andb_false_r. unfold ev_size. cbn [andb fold_left]. rewrite ident_eqb_refl. reflexivity.
  - intros y Hy. destruct (same_name (ob_name x) y) eqn:Hn; [|reflexivity]. unfold text_core, emits_text.
    destruct (ob_function y) eqn:Hf'; [|reflexivity]. pose proof (fun_user y Hy Hf') as Hu. apply ident_eqb_eq in Hn.
    unfold anon_named in *. rewrite <- Hn in Hu. congruence.
Qed.

(* what anon_placements collects from one event *)
Definition phi (e : event) : list anon_obj :=
  match e with
  | EDef (Anon k) p al => [mkAnon p (match ev_size (Anon k) evs with Some z => z | None => 0%Z end) (match al with Some a => a | None => 1%Z end)]
  | _ => []
  end.

Lemma phi_refs l : forallb is_ref l = true -> flat_map phi l = [].
Proof.
  induction l as [|e r IH]; intros H; [reflexivity|]. cbn [forallb] in H. apply andb_true_iff in H as [He Hr].
  cbn [flat_map]. rewrite (IH Hr). destruct e; try discriminate. reflexivity.
Qed.

Lemma phi_data x : In x prog -> flat_map phi (data_ev (fcommon o) prog x) =
  if anon_named x && owner_live prog x then [mkAnon (data_place x) (match ev_size (ob_name x) evs with Some z => z | None => 0%Z end) (eff_align x)] else [].
Proof.
  intros Hx. unfold data_ev. rewrite data_ev_shape, flat_map_app, (phi_refs _ (data_rel_refs _ _ _)), app_nil_r. unfold data_core.
  destruct (anon_named x) eqn:Ha; cbn [andb].
  - destruct (anon_prog_def x Hx Ha) as (_ & Hf & Hd & Ht & _). unfold emits_data. rewrite Hf, Hd, Ht, andb_false_r. cbn [negb andb].
    destruct (owner_live prog x); [|reflexivity]. unfold anon_named in Ha. destruct (ob_name x); [discriminate|]. apply app_nil_r.
  - unfold anon_named in Ha. destruct (ob_name x) as [m|] eqn:En; [|discriminate].
    destruct (emits_data prog x); [|reflexivity]. destruct (fcommon o && ob_tentative x && negb (ob_tls x)); reflexivity.
Qed.
Lemma phi_text x : In x prog -> flat_map phi (text_ev (fpic o) prog x) = [].
Proof.
  intros Hx. rewrite text_ev_shape. destruct (emits_text x) eqn:He; [|reflexivity].
  unfold emits_text in He. apply andb_true_iff in He as [He _]. apply andb_true_iff in He as [Hf _].
  pose proof (fun_user x Hx Hf) as Hu. unfold anon_named in Hu. destruct (ob_name x) as [m|] eqn:En; [|discriminate].
  cbn [flat_map phi app]. apply phi_refs. apply use_events_refs.
Qed.

Theorem anon_placements_model : anon_placements (emit o prog) = map anon_entry (filter (owner_live prog) U).
Proof.
  unfold anon_placements. fold evs. fold phi.
  unfold evs at 1. rewrite asm_emit, flat_map_app, !flat_map_flat_map.
  rewrite (flat_map_nil (fun x => flat_map phi (text_ev (fpic o) prog x)) prog) by exact phi_text.
  rewrite app_nil_r, (flat_map_ext_in _ _ prog phi_data).
  rewrite (flat_map_filter _ (has_kind KAnon) prog) by (intros x _ Hx; cbn [has_kind] in Hx; rewrite Hx; reflexivity).
  fold (view KAnon prog). rewrite anon_prog, (flat_map_ext_in _ (fun x => if owner_live prog x then [anon_entry x] else []) (rev U)).
  - rewrite flat_map_if, filter_rev, map_rev. apply rev_involutive.
  - intros x Hx. apply in_rev in Hx. destruct (unit_anons_def ds 0 x Hx) as [(Ha & _) _]. rewrite Ha. cbn [andb].
    destruct (owner_live prog x) eqn:Hol; [|reflexivity]. rewrite (size_of_label x Hx Hol). reflexivity.
Qed.
End Anon.
