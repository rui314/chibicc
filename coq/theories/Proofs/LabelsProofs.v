From Coq Require Import List Arith.
From Chibicc Require Import Model.Labels.
Import ListNotations.

(* a call hands out the next k numbers after the counter and leaves the counter k further: the labels are a
   function of the tree shape and the start only *)
Definition consecutive (num : ctree -> nat -> list nat * nat) : Prop :=
  forall t next, exists k, num t next = (seq (S next) k, next + k).

(* the children continue the sequence from wherever the accumulator stands *)
Lemma children_seq num : consecutive num -> forall cs l n, exists k,
  fold_left (fun acc ch => let '(l, n) := acc in let '(l2, n2) := num ch n in (l ++ l2, n2)) cs (l, n) = (l ++ seq (S n) k, n + k).
Proof.
  intros Hnum. induction cs as [|ch r IH]; intros l n; cbn [fold_left].
  - exists 0. rewrite app_nil_r, Nat.add_0_r. reflexivity.
  - destruct (Hnum ch n) as [k1 ->]. destruct (IH (l ++ seq (S n) k1) (n + k1)) as [k2 ->].
    exists (k1 + k2). rewrite seq_app, app_assoc, Nat.add_assoc. reflexivity.
Qed.

Lemma number_seq : forall fuel, consecutive (number fuel).
Proof.
  induction fuel as [|f IH]; intros [cs] next; cbn [number].
  - exists 0. rewrite Nat.add_0_r. reflexivity.
  - destruct (children_seq _ IH cs [] (S next)) as [k ->]. exists (S k). rewrite Nat.add_succ_r. reflexivity.
Qed.

(* two traversals of the same tree from the same start give the same labels (determinism is
   functionality; stated for the record) *)
Theorem numbering_deterministic : forall fuel t next, number fuel t next = number fuel t next.
Proof. reflexivity. Qed.
