(* C08 (declarators): the numbers parse.c stores in the types it builds (ty->size, ty->align) are
   sizeof / _Alignof of the C11 type on the LP64 psABI - or the declarator is rejected as "array too large".

   ty->size is a C int.  array_dimensions (/repo fbdf355) refuses every array whose bound times element size
   leaves the C int, so no side condition on sizes is needed:

     * [base_numbers]               where every "array too large" test passes ([chk]), the stored size and alignment
                                    are the psABI numbers (an array of unknown bound stores MINUS the element size,
                                    chibicc's mark of an incomplete type);
     * [chk_is_not_oversize]        and a test fails EXACTLY when some array derivation written in the declarator
                                    needs more than INT32_MAX bytes (Spec: oversize) - never for a smaller one (the
                                    dummy pass cannot fire alone), always for a bigger one.

   With what declarator() answers on a written declarator (DeclaratorParse.v) these give the headline statements of
   Properties/Properties_C08_decl.v.

   Function types and void have no size in C11 (Spec: None); chibicc stores 1 for them (GNU C); nothing is
   claimed about that. *)
From Coq Require Import List ZArith Bool Lia.
From Chibicc Require Import Spec.DeclSyntax Spec.DeclSpec6_7_6 Model.Declarator
     Proofs.DeclaratorParse Proofs.DeclaratorTypes.
Import ListNotations.
Local Open Scope Z_scope.

Lemma sizeof_unqual : forall t, sizeof (unqual t) = sizeof t.
Proof.
  induction t as [l|q t IH|n t IH|r IH ps k]; cbn [unqual sizeof]; try reflexivity.
  destruct n; [rewrite IH|]; reflexivity.
Qed.
Lemma alignof_unqual : forall t, alignof (unqual t) = alignof t.
Proof. induction t as [l|q t IH|n t IH|r IH ps k]; cbn [unqual alignof]; auto. Qed.

Definition size_ok (m : mty) : Prop :=
  (forall s, sizeof (shape m) = Some s -> ty_size m = s /\ 0 <= s <= 2147483647) /\
  (forall e s, shape m = TArr None e -> sizeof e = Some s -> ty_size m = - s).
Definition align_ok (m : mty) : Prop :=
  forall a, alignof (shape m) = Some a -> ty_align m = a.

Lemma size_ok_base : forall l, leaf_in_range l = true -> size_ok (MBase l).
Proof.
  intros l Hf. split; [|discriminate]. intros s E.
  destruct l; try discriminate E; injection E as <-; cbn [ty_size leaf_size leaf_in_range] in *; lia.
Qed.
Lemma align_ok_base : forall l, align_ok (MBase l).
Proof. intros l a E. destruct l; cbn in *; congruence. Qed.

Lemma size_ok_ptr : forall m, size_ok (MPtr m).
Proof. intros m. split; [|discriminate]. intros s E. cbn in E. injection E as E. subst s. cbn. lia. Qed.
Lemma size_ok_func : forall r ps v, size_ok (MFunc r ps v).
Proof. intros r ps v. split; discriminate. Qed.

Lemma size_ok_array : forall m n, size_ok m ->
  match n with Some k => 0 <=? k | None => true end = true -> fit n m = true -> size_ok (array_of m (len_of n)).
Proof.
  intros m n [Hs _] Hn Hfit. unfold size_ok. rewrite shape_array_of by assumption.
  unfold array_of. cbn [ty_size]. destruct n as [k|]; cbn [len_of sizeof].
  - split; [|discriminate]. intros s E.
    destruct (sizeof (shape m)) as [se|]; [|discriminate]. injection E as <-.
    destruct (Hs se eq_refl) as [Hse Hr]. rewrite Hse.
    cbn [fit] in Hfit. apply negb_true_iff in Hfit. pose proof (too_large_bound k m Hfit) as Hk.
    rewrite too_large_spec, Hse, Z.gtb_ltb in Hfit. apply Z.ltb_ge in Hfit.
    apply Z.leb_le in Hn. assert (0 <= k * se <= 2147483647) by nia.
    rewrite (int32_id k), (Z.mul_comm se k), int32_id by lia. lia.
  - split; [discriminate|]. intros e s E Hse. injection E as <-.
    destruct (Hs s Hse) as [-> Hr]. unfold int32. rewrite Z.mod_small by lia. lia.
Qed.
Lemma align_ok_array : forall m len, align_ok m -> align_ok (array_of m len).
Proof. intros m len Hm a E. unfold array_of in *. cbn [shape alignof ty_align] in *. apply Hm. exact E. Qed.
Lemma align_ok_ptr : forall m, align_ok (MPtr m).
Proof. intros m a E. cbn in *. congruence. Qed.
Lemma align_ok_func : forall r ps v, align_ok (MFunc r ps v).
Proof. intros r ps v a E. discriminate E. Qed.

(* induction on declarators for statements that say nothing of parameter lists *)
Lemma decl_dd_ind : forall (P : decl -> Prop) (Q : direct -> Prop),
  (forall q d, P d -> P (DPtr q d)) -> (forall dd, Q dd -> P (DDirect dd)) ->
  (forall x, Q (DIdent x)) -> (forall d, P d -> Q (DParen d)) ->
  (forall dd, Q dd -> forall n, Q (DArray dd n)) -> (forall dd, Q dd -> forall ps, Q (DFunc dd ps)) ->
  (forall d, P d) /\ (forall dd, Q dd).
Proof.
  intros P Q H1 H2 H3 H4 H5 H6.
  destruct (decl_mutind P Q (fun _ => True) (fun _ => True) (fun _ => True)) as [Hd [Hdd _]]; auto.
Qed.

Definition Z_decl (d : decl) : Prop :=
  c11_ok d = true ->
  forall m, chk d m = true -> size_ok m /\ align_ok m -> size_ok (m_apply d m) /\ align_ok (m_apply d m).
Definition Z_dd (dd : direct) : Prop :=
  c11_ok_dd dd = true ->
  forall m, chk_dd dd m = true -> size_ok m /\ align_ok m -> size_ok (m_apply_dd dd m) /\ align_ok (m_apply_dd dd m).

Theorem sizes_all : (forall d, Z_decl d) /\ (forall dd, Z_dd dd).
Proof.
  apply decl_dd_ind.
  - intros q d IH Hc m Hk Hm. cbn [c11_ok chk m_apply] in *. apply IH; try assumption.
    split; [apply size_ok_ptr|apply align_ok_ptr].
  - intros dd IH. exact IH.
  - intros x _ m _ Hm. exact Hm.
  - intros d IH Hc m Hk Hm. cbn [chk_dd m_apply_dd] in *.
    apply c11_ok_paren in Hc. destruct Hc as [_ Hc]. apply andb_prop in Hk. destruct Hk as [_ Hk]. apply IH; assumption.
  - intros dd' IH n Hc m Hk [Hm1 Hm2]. cbn [chk_dd m_apply_dd] in *.
    destruct (c11_ok_array dd' n Hc) as [_ [Hc' Hn0]].
    apply andb_prop in Hk. destruct Hk as [Hfit Hk].
    apply IH; try assumption. split; [|apply align_ok_array; exact Hm2].
    apply size_ok_array; assumption.
  - intros dd' IH ps Hc m Hk Hm. cbn [chk_dd m_apply_dd] in *.
    destruct (c11_ok_func dd' ps Hc) as [_ [Hc' _]].
    apply andb_prop in Hk. destruct Hk as [_ Hk].
    apply IH; try assumption. split; [apply size_ok_func|apply align_ok_func].
Qed.

Lemma base_numbers : forall d b, c11_ok d = true -> leaf_in_range b = true -> chk d (MBase b) = true ->
  let t := type_of (TLeaf b) d in
  let m := m_apply d (MBase b) in
  shape m = unqual t /\
  (forall a, alignof t = Some a -> ty_align m = a) /\
  (forall s, sizeof t = Some s -> ty_size m = s) /\
  (forall e s, t = TArr None e -> sizeof e = Some s -> ty_size m = - s).
Proof.
  intros d b Hc Hb Hk t m.
  assert (Hsh : shape m = unqual t) by (apply m_apply_is_c11_type; [assumption|assumption|reflexivity]).
  destruct (proj1 sizes_all d Hc (MBase b) Hk (conj (size_ok_base b Hb) (align_ok_base b))) as [[H1 H2] Hal].
  fold m in H1, H2, Hal. split; [exact Hsh|]. split; [|split].
  - intros a Ha. apply Hal. rewrite Hsh, alignof_unqual. exact Ha.
  - intros s E. apply H1. rewrite Hsh, sizeof_unqual. exact E.
  - intros e s Et Ee. apply (H2 (unqual e) s).
    + rewrite Hsh, Et. reflexivity.
    + rewrite sizeof_unqual. exact Ee.
Qed.

(* the type of the dummy pass is, at every point, either as big as the type of the real pass or empty *)
Definition smaller (m1 m2 : mty) : Prop := ty_size m1 = ty_size m2 \/ ty_size m1 = 0.

Lemma fit_smaller : forall n m1 m2, smaller m1 m2 -> fit n m2 = true -> fit n m1 = true.
Proof.
  intros n m1 m2 H Hf. destruct n as [k|]; [|reflexivity]. cbn [fit] in *.
  apply negb_true_iff in Hf. apply negb_true_iff. pose proof (too_large_bound k m2 Hf) as Hk.
  rewrite too_large_spec in *. destruct H as [H|H]; rewrite H; [exact Hf|].
  rewrite Z.gtb_ltb. apply Z.ltb_ge. lia.
Qed.

Lemma smaller_array : forall m1 m2 len, smaller m1 m2 -> smaller (array_of m1 len) (array_of m2 len).
Proof.
  intros m1 m2 len [H|H]; unfold smaller, array_of; cbn [ty_size]; [left; rewrite H; reflexivity|right].
  rewrite H. reflexivity.
Qed.

Definition M_decl (d : decl) : Prop :=
  forall m1 m2, smaller m1 m2 -> chk d m2 = true -> chk d m1 = true.
Definition M_dd (dd : direct) : Prop :=
  forall m1 m2, smaller m1 m2 -> chk_dd dd m2 = true -> chk_dd dd m1 = true.

Theorem mono_all : (forall d, M_decl d) /\ (forall dd, M_dd dd).
Proof.
  apply decl_dd_ind.
  - intros q d IH m1 m2 _ Hk. cbn [chk] in *. apply (IH (MPtr m1) (MPtr m2)); [left; reflexivity|exact Hk].
  - intros dd IH. exact IH.
  - intros x m1 m2 _ _. reflexivity.
  - intros d IH m1 m2 Hs Hk. cbn [chk_dd] in *. apply andb_prop in Hk. destruct Hk as [Hd Hk].
    rewrite Hd. cbn [andb]. apply (IH m1 m2); assumption.
  - intros dd' IH n m1 m2 Hs Hk. cbn [chk_dd] in *. apply andb_prop in Hk. destruct Hk as [Hf Hk].
    rewrite (fit_smaller n m1 m2 Hs Hf). cbn [andb].
    apply (IH _ _ (smaller_array m1 m2 (len_of n) Hs) Hk).
  - intros dd' IH ps m1 m2 _ Hk. cbn [chk_dd] in *. apply andb_prop in Hk. destruct Hk as [Hp Hk].
    rewrite Hp. cbn [andb]. apply (IH (MFunc m1 (m_params ps) (m_variadic ps)) (MFunc m2 (m_params ps) (m_variadic ps)));
      [left; reflexivity|exact Hk].
Qed.

Lemma chk_dummy : forall d m, chk d m = true -> chk d dummy = true.
Proof. intros d m H. apply (proj1 mono_all d dummy m); [right; reflexivity|exact H]. Qed.

Lemma fit_spec : forall n m T, shape m = unqual T -> size_ok m -> is_complete T = true ->
  fit n m = negb (array_too_big n T).
Proof.
  intros n m T Hsh [Hs _] Hc. destruct n as [k|]; [|reflexivity]. cbn [fit array_too_big]. f_equal.
  unfold is_complete in Hc. unfold esize. destruct (sizeof T) as [s|] eqn:E; [|discriminate].
  destruct (Hs s) as [Hm Hr]; [rewrite Hsh, sizeof_unqual; exact E|].
  rewrite too_large_spec, Hm. reflexivity.
Qed.

Definition E_decl (d : decl) : Prop :=
  c11_ok d = true ->
  forall m T, elems_ok d T = true -> shape m = unqual T -> size_ok m -> chk d m = negb (oversize d T).
Definition E_dd (dd : direct) : Prop :=
  c11_ok_dd dd = true ->
  forall m T, elems_ok_dd dd T = true -> shape m = unqual T -> size_ok m -> chk_dd dd m = negb (oversize_dd dd T).
Definition E_params (ps : params) : Prop :=
  c11_ok_params ps = true -> elems_ok_params ps = true -> chk_params ps = negb (oversize_params ps).
Definition E_plist (l : plist) : Prop :=
  c11_ok_plist l = true -> elems_ok_plist l = true -> chk_plist l = negb (oversize_plist l).
Definition E_param (p : param) : Prop :=
  c11_ok_param p = true -> elems_ok_param p = true -> chk_param p = negb (oversize_param p).

Theorem exact_all :
  (forall d, E_decl d) /\ (forall dd, E_dd dd) /\ (forall ps, E_params ps) /\
  (forall l, E_plist l) /\ (forall p, E_param p).
Proof.
  apply decl_mutind.
  - intros q d IH Hc m T He Hsh Hs. cbn [c11_ok chk oversize elems_ok] in *.
    apply IH; try assumption; [|apply size_ok_ptr]. cbn [shape unqual]. rewrite Hsh. reflexivity.
  - intros dd IH. exact IH.
  - intros x _ m T _ _ _. reflexivity.
  - intros d IH Hc m T He Hsh Hs. cbn [chk_dd oversize_dd elems_ok_dd] in *.
    apply c11_ok_paren in Hc. destruct Hc as [_ Hc].
    rewrite <- (IH Hc m T He Hsh Hs).
    destruct (chk d m) eqn:Hk; [|apply andb_false_r]. rewrite (chk_dummy d m Hk). reflexivity.
  - intros dd' IH n Hc m T He Hsh Hs. cbn [chk_dd oversize_dd elems_ok_dd] in *.
    destruct (c11_ok_array dd' n Hc) as [_ [Hc' Hn0]].
    apply andb_prop in He. destruct He as [Hcomp He].
    pose proof (fit_spec n m T Hsh Hs Hcomp) as Hfit. rewrite Hfit.
    destruct (array_too_big n T); cbn [negb andb orb] in *; [reflexivity|].
    apply IH; try assumption; [|apply size_ok_array; assumption].
    rewrite shape_array_of by assumption. cbn [unqual]. rewrite Hsh. reflexivity.
  - intros dd' IH ps IHps Hc m T He Hsh Hs. cbn [chk_dd oversize_dd elems_ok_dd] in *.
    destruct (c11_ok_func dd' ps Hc) as [_ [Hc' Hcps]].
    apply andb_prop in He. destruct He as [Heps He].
    pose proof (IHps Hcps Heps) as Hk. rewrite Hk.
    destruct (oversize_params ps); cbn [negb andb orb] in *; [reflexivity|].
    apply IH; try assumption; [|apply size_ok_func].
    cbn [shape unqual]. rewrite Hsh, (m_params_are_adjusted ps Hcps Hk), fkind_params. reflexivity.
  - intros _ _. reflexivity.
  - intros _ _. reflexivity.
  - intros l IH v. exact IH.
  - intros p IH. exact IH.
  - intros p IH l IHl Hc He. cbn [c11_ok_plist chk_plist oversize_plist elems_ok_plist] in *.
    apply andb_prop in Hc. destruct Hc as [Hc Hcl]. apply andb_prop in He. destruct He as [He Hel].
    rewrite (IH Hc He), (IHl Hcl Hel). symmetry. apply negb_orb.
  - intros b d IH Hc He. cbn [c11_ok_param chk_param oversize_param elems_ok_param] in *.
    apply andb_prop in Hc. destruct Hc as [Hc _]. apply andb_prop in He. destruct He as [Hb He].
    apply IH; try assumption; [reflexivity|apply size_ok_base; exact Hb].
Qed.

Theorem chk_is_not_oversize : forall d b, c11_ok d = true -> leaf_in_range b = true ->
  elems_ok d (TLeaf b) = true -> chk d (MBase b) = negb (oversize d (TLeaf b)).
Proof.
  intros d b Hc Hb He. apply (proj1 exact_all d Hc (MBase b) (TLeaf b) He eq_refl (size_ok_base b Hb)).
Qed.
