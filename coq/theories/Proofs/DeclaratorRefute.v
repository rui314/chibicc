(* C08 (declarators): the witnesses.

   (a) Declarators that parse.c treats per C11 6.7.6 since /repo 8507b9f; what the model does with them is evaluated
       in Properties/Properties_C08_decl.v.
   (b) What parse.c still accepts although it is not C11 (notes, not violations of C08).
   (c) What it does with the tokens the abstract syntax leaves out ([ static / qualifiers ]). *)
From Coq Require Import List ZArith Bool Lia.
From Chibicc Require Import Spec.DeclSyntax Spec.DeclSpec6_7_6 Model.Declarator Proofs.DeclaratorParse.
Import ListNotations.
Local Open Scope Z_scope.

Definition abs0 : decl := DDirect (DIdent None).

(* `T ()` with the identifier omitted - as in `void g(int ());` - is "function with unspecified parameters
   returning T" (6.7.6.3p14): "(" followed by ")" or a type keyword opens a parameter list (/repo 8507b9f). *)
Definition d_unspec : decl := DDirect (DFunc (DIdent None) PUnspec).

(* void g(int ()) : the parameter is int ( * )() *)
Definition d_g_unspec : decl :=
  DDirect (DFunc (DIdent (Some 0%nat)) (PList (POne (Param LInt d_unspec)) false)).

(* (b): arrays of functions (6.7.6.2p1), functions returning arrays when parenthesised (6.7.6.3p1), a void
   parameter next to others, an identifier list / missing specifiers (implicit int) are accepted silently *)
Example accepts_array_of_functions :
  parse_declarator [TIdent 1%nat; TLBrack; TNum 3; TRBrack; TLParen; TBase LVoid; TRParen; TOther] (MBase LInt)
  = Ok (Some 1%nat, MArr (MFunc (MBase LInt) [] false) 3 3 1, [TOther]).
Proof. reflexivity. Qed.
Example accepts_function_returning_array :
  parse_declarator [TLParen; TIdent 1%nat; TLParen; TBase LVoid; TRParen; TRParen; TLBrack; TNum 3; TRBrack; TOther]
                   (MBase LInt)
  = Ok (Some 1%nat, MFunc (MArr (MBase LInt) 3 12 4) [] false, [TOther]).
Proof. reflexivity. Qed.
Example accepts_void_parameter :
  parse_declarator [TIdent 1%nat; TLParen; TBase LInt; TComma; TBase LVoid; TRParen; TOther] (MBase LInt)
  = Ok (Some 1%nat, MFunc (MBase LInt) [(None, MBase LInt); (None, MBase LVoid)] false, [TOther]).
Proof. reflexivity. Qed.
Example accepts_identifier_list_as_int :
  parse_declarator [TIdent 1%nat; TLParen; TIdent 2%nat; TComma; TIdent 3%nat; TRParen; TOther] (MBase LInt)
  = Ok (Some 1%nat, MFunc (MBase LInt) [(Some 2%nat, MBase LInt); (Some 3%nat, MBase LInt)] false, [TOther]).
Proof. reflexivity. Qed.
(* no suffix is parsed behind a parameter list: `f(void)[3]` stops in front of the "[" (the caller then fails) *)
Example no_suffix_after_params :
  parse_declarator [TIdent 1%nat; TLParen; TBase LVoid; TRParen; TLBrack; TNum 3; TRBrack] (MBase LInt)
  = Ok (Some 1%nat, MFunc (MBase LInt) [] false, [TLBrack; TNum 3; TRBrack]).
Proof. reflexivity. Qed.
(* a "(" directly behind the pointers that is followed by an identifier is still a nested declarator:
   `int (x)` declares x (and, outside the model, so does `int (T)` for a typedef name T - deliberately) *)
Example paren_ident_is_nested :
  parse_declarator [TLParen; TIdent 1%nat; TRParen; TOther] (MBase LInt) = Ok (Some 1%nat, MBase LInt, [TOther]).
Proof. reflexivity. Qed.

Fixpoint all_static_quals (l : list tok) : bool :=
  match l with
  | [] => true
  | TStatic :: r => all_static_quals r
  | TQual _ :: r => all_static_quals r
  | _ => false
  end.

Lemma skip_static_quals_app : forall sr toks,
  all_static_quals sr = true -> skip_static_quals (sr ++ toks) = skip_static_quals toks.
Proof.
  induction sr as [|t sr IH]; intros toks H; [reflexivity|].
  destruct t; try discriminate H; cbn [app skip_static_quals all_static_quals] in *; apply IH; exact H.
Qed.

(* (c): `static` and type qualifiers behind a "[" (6.7.6.2p1 / 6.7.6.3p7, meaningful only in the outermost array
   derivation of a parameter, where they would qualify the adjusted pointer - chibicc has no qualifiers) are
   skipped, in any number and order, anywhere, and change nothing *)
Theorem static_quals_ignored : forall fuel sr toks ty,
  all_static_quals sr = true ->
  array_dimensions fuel (sr ++ toks) ty = array_dimensions fuel toks ty.
Proof.
  intros fuel sr toks ty H. destruct fuel as [|f]; [reflexivity|].
  rewrite !array_dimensions_S. unfold array_dimensions_body.
  rewrite skip_static_quals_app by exact H. reflexivity.
Qed.

Example const_in_brackets_accepted :
  parse_declarator [TIdent 1%nat; TLBrack; TQual QConst; TStatic; TNum 3; TRBrack; TRParen] (MBase LInt)
  = Ok (Some 1%nat, MArr (MBase LInt) 3 12 4, [TRParen]).
Proof. reflexivity. Qed.
