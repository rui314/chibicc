(* Whole trees: every constant tree built from float / double constants with + - * /, unary minus and casts to
   float / double is folded by chibicc (Model/FloatFold.v) to its C11 value (Spec/C11Float.v), up to the choice of NaN;
   composed with run_expr_correct of FloatGenProofs: the folded value is what the emitted code computes at run time.
   Integer leaves / nodes, comparisons, ! && || ?: , and casts to integer types are outside [fp_tree]. *)
From Coq Require Import ZArith Bool List Lia.
From Flocq Require Import Core Binary Bits.
From Chibicc Require Import Spec.C11Int Spec.C11Float Spec.C11LDouble Model.ConstFold Model.FloatGen Model.FloatFold
     Proofs.X86SseProofs Proofs.FloatOpsProofs Proofs.FloatGenProofs Proofs.FloatFoldConv Proofs.FloatFoldProofs.
Local Open Scope Z_scope.

Definition is_fop (o : binop) : bool := match o with Add | Sub | Mul | Div => true | _ => false end.
Fixpoint fp_tree (e : fexpr) : bool :=
  match e with
  | FLitS _ | FLitD _ => true
  | FUn Neg a => fp_tree a
  | FBin o a b => is_fop o && fp_tree a && fp_tree b
  | FCast t a => is_fp t && fp_tree a
  | _ => false
  end.

Lemma uac_fp a b : is_fp a = true -> is_fp b = true -> is_fp (uac_ty a b) = true.
Proof. destruct a as [x| |], b as [y| |]; try discriminate; reflexivity. Qed.
Lemma promote_fp a : is_fp a = true -> promote_ty a = a.
Proof. destruct a; try discriminate; reflexivity. Qed.

Lemma fp_tree_type e : fp_tree e = true -> is_fp (ftype_of e) = true.
Proof.
  induction e as [t z|x|x|t n|o a IHa|o a IHa b IHb|t a IHa|c IHc a IHa b IHb|a IHa b IHb]; cbn [fp_tree]; intros H; try discriminate; try reflexivity.
  - destruct o; try discriminate. cbn [ftype_of]. rewrite (promote_fp _ (IHa H)). exact (IHa H).
  - apply andb_true_iff in H as [H Hb]. apply andb_true_iff in H as [Ho Ha].
    destruct o; try discriminate Ho; cbn [ftype_of is_arith]; apply uac_fp; auto.
  - apply andb_true_iff in H as [Ht _]. exact Ht.
Qed.

Lemma fp_val t v : is_fp t = true -> val_ok t v = true -> forall h, hmatch v h -> exists y, h = HF y.
Proof.
  intros Ft Vv h Hm. destruct t as [it| |]; [discriminate Ft| |]; destruct v; try discriminate Vv; destruct h as [?|y]; try contradiction; exists y; reflexivity.
Qed.

Section Tree.
Variable rho : nat -> val.

(* fold at a + - * / node, in C11's types: the && || and shift branches are not taken *)
Lemma fold_fop o a b : is_fop o = true ->
  fold (FBin o a b) =
  let C := uac_ty (ftype_of a) (ftype_of b) in
  hbind (hbind (fold a) (h_cast (ftype_of a) C)) (fun x => hbind (hbind (fold b) (h_cast (ftype_of b) C)) (fun y =>
    match C, x, y with
    | TI t, HI x, HI y => of_fres (m_binop o t x y)
    | _, HF x, HF y => hbind (h_arith C o x y) (fun r => Some (HF (round_to C r)))
    | _, _, _ => None
    end)).
Proof. intros Ho. rewrite <- mf_common_is_uac, <- !mf_type_is_c11. destruct o; try discriminate Ho; reflexivity. Qed.

(* the ND_CAST node that add_type puts above an operand: a subtree that folds to its value still does when converted to a floating type *)
Lemma cast_subtree a t x w : feval rho a = Some x -> (exists h, fold a = Some h /\ hmatch x h) ->
  is_fp t = true -> convert t x = Some w ->
  exists y, hbind (fold a) (h_cast (ftype_of a) t) = Some (HF y) /\ hmatch w (HF y).
Proof.
  intros Ea (h & Eh & Hm) Ft Cx.
  destruct (cast_to_fp_correct (ftype_of a) t x w h Ft (feval_ok rho a x Ea) Hm Cx) as (h' & Ec & Hm').
  destruct (fp_val t w Ft (convert_ok _ _ _ Cx) h' Hm') as (y & ->).
  exists y. rewrite Eh. exact (conj Ec Hm').
Qed.

Theorem fold_fp_tree : forall e v, fp_tree e = true -> feval rho e = Some v -> exists h, fold e = Some h /\ hmatch v h.
Proof.
  induction e as [t z|x|x|t n|o a IHa|o a IHa b IHb|t a IHa|c IHc a IHa b IHb|a IHa b IHb]; cbn [fp_tree]; intros v W H; try discriminate W.
  - injection H as <-. eexists. split; [reflexivity|]. cbn [hmatch]. apply round_to_s, feq_refl.
  - injection H as <-. eexists. split; [reflexivity|]. cbn [hmatch]. apply round_to_d, feq_refl.
  - (* unary minus: the operand is first cast to its own type *)
    destruct o; try discriminate W. cbn [feval] in H. destruct (feval rho a) as [x|] eqn:Ea; [|discriminate].
    pose proof (feval_ok rho a x Ea) as Vx. pose proof (fp_tree_type a W) as Fa.
    destruct (cast_subtree a (ftype_of a) x x Ea (IHa x W eq_refl) Fa) as (y & Ec & Hm).
    { rewrite <- (promote_fp _ Fa) at 1. apply convert_promote, Vx. }
    cbn [fold mf_type]. rewrite mf_promote, (mf_type_is_c11 a), (promote_fp _ Fa), Ec. cbn [hbind].
    exists (HF (round_to (ftype_of a) (opp_l y))). split.
    + destruct (ftype_of a); [discriminate Fa|reflexivity|reflexivity].
    + apply (neg_node_correct (ftype_of a) x v y Fa Hm Vx H).
  - (* + - * /: both operands are cast to the common type C *)
    apply andb_true_iff in W as [W Wb]. apply andb_true_iff in W as [Wo Wa].
    rewrite feval_bin in H by (intros ->; discriminate Wo). rewrite (fold_fop o a b Wo). unfold bin_value in H. cbv zeta.
    replace (is_shift o) with false in H by (destruct o; try discriminate Wo; reflexivity).
    set (C := uac_ty (ftype_of a) (ftype_of b)) in *.
    assert (FC : is_fp C = true) by (apply uac_fp; apply fp_tree_type; assumption).
    assert (Ao : is_arith o = true) by (destruct o; try discriminate Wo; reflexivity).
    destruct (feval rho a) as [x|] eqn:Ea; [|discriminate]. destruct (feval rho b) as [y|] eqn:Eb; [|discriminate].
    destruct (convert C x) as [x'|] eqn:Cx; [|discriminate]. destruct (convert C y) as [y'|] eqn:Cy; [|discriminate].
    destruct (cast_subtree a C x x' Ea (IHa x Wa eq_refl) FC Cx) as (ya & Eca & Hma).
    destruct (cast_subtree b C y y' Eb (IHb y Wb eq_refl) FC Cy) as (yb & Ecb & Hmb).
    destruct (arith_node_correct C o x' y' v ya yb FC Ao Hma Hmb (convert_ok _ _ _ Cx) (convert_ok _ _ _ Cy) H) as (r & Er & Hr).
    exists (HF (round_to C r)). split; [|exact Hr].
    rewrite Eca, Ecb. cbn [hbind]. rewrite Er. destruct C; [discriminate FC|reflexivity|reflexivity].
  - apply andb_true_iff in W as [Ft Wa]. cbn [feval] in H. destruct (feval rho a) as [x|] eqn:Ea; [|discriminate].
    cbn [fold]. rewrite mf_type_is_c11.
    destruct (cast_subtree a t x v Ea (IHa x Wa eq_refl) Ft H) as (y & Ec & Hm). exists (HF y). exact (conj Ec Hm).
Qed.
End Tree.

Theorem static_bits_equal_runtime rho e v : fp_tree e = true -> feval rho e = Some v ->
  exists sb b, static_bits (ftype_of e) e = Some sb /\ run_expr rho e = Some b /\
    match v with
    | VS x => ftype_of e = TF32 /\ (is_nan 24 128 x = false -> sb = b /\ b = bits_of_b32 x)
    | VD x => ftype_of e = TF64 /\ (is_nan 53 1024 x = false -> sb = b /\ b = bits_of_b64 x)
    | VI _ => False
    end.
Proof.
  intros W H. destruct (fold_fp_tree rho e v W H) as (h & Eh & Hm).
  destruct (run_expr_correct rho e v H) as (b & Eb & Rb).
  pose proof (fp_tree_type e W) as Ft. pose proof (feval_ok rho e v H) as Vv.
  destruct (fp_val _ _ Ft Vv h Hm) as (y & ->).
  unfold static_bits. rewrite Eh. cbn [hbind as_ld].
  destruct (ftype_of e) eqn:Et; [discriminate Ft| |].
  - destruct v as [?|x|?]; try discriminate Vv.
    eexists. exists b. split; [reflexivity|]. split; [exact Eb|]. split; [reflexivity|]. intros N.
    destruct Rb as (_ & _ & Rb). rewrite (feq_exact _ _ (carried_s y x Hm) N), (Rb N). split; reflexivity.
  - destruct v as [?|?|x]; try discriminate Vv.
    eexists. exists b. split; [reflexivity|]. split; [exact Eb|]. split; [reflexivity|]. intros N.
    destruct Rb as (_ & _ & Rb). rewrite (feq_exact _ _ (carried_d y x Hm) N), (Rb N). split; reflexivity.
Qed.
