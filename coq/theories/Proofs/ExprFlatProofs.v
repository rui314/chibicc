(* The jump code of && || ?: (and of everything else gen_expr composes) does what the code tree does: read off the
   same fact about the jump code with memory instructions (ExprMemFlatProofs.v).  Flattening commutes with the
   embedding of ExprGenProofs.v, and on an embedded program the machine with memory steps as the machine without. *)
From Coq Require Import ZArith List.
From Chibicc Require Import Base.Mach Spec.C11Int Model.X86Int Model.CodegenInt Model.ExprGen Model.ExprFlat
     Model.ExprMem Model.ExprMemFlat Proofs.CastTableProofs Proofs.ExprGenProofs Proofs.ExprMemFlatProofs.
Import ListNotations.
Local Open Scope Z_scope.

Definition fembedded (P : list finstr) (p : nat) (code : list finstr) : Prop :=
  forall i ins, nth_error code i = Some ins -> nth_error P (p + i) = Some ins.

Definition xinj (i : finstr) : minstr :=
  match i with
  | FIns i => XIns i | FImm v => XImm v | FPush => XPush | FPopRdi => XPopRdi | FJz t => XJz t | FJnz t => XJnz t | FJmp t => XJmp t
  end.

Lemma msize_inj : forall c, msize (inj c) = fsize c.
Proof. induction c; cbn [inj msize fsize]; congruence. Qed.

Lemma mflatten_inj : forall c p, mflatten (inj c) p = map xinj (gflatten c p).
Proof.
  assert (Z : forall t, xcmpz t = map xinj (cmpz t)) by (intros t; symmetry; apply map_map).
  induction c as [l|v| | |a IHa b IHb|a IHa ta b IHb tb|a IHa ta b IHb tb|c IHc tc a IHa b IHb]; intros p;
    cbn [inj mflatten gflatten]; rewrite ?map_app, ?msize_inj, ?Z, ?IHa, ?IHb, ?IHc; try reflexivity.
  (* left: GIns, a map over a map *)
  symmetry. apply map_map.
Qed.

Lemma xstep_inj rbp P pc s k m :
  xstep rbp (map xinj P) (pc, (s, k, m)) = match fstep P (pc, (s, k)) with Some (pc', (s', k')) => Some (pc', (s', k', m)) | None => None end.
Proof.
  unfold xstep, fstep. rewrite nth_error_map. destruct (nth_error P pc) as [[i|v| | |t|t|t]|]; cbn [option_map xinj]; try reflexivity.
  - destruct (exec1 i s); reflexivity.
  - destruct k; reflexivity.
Qed.

Definition drop_mem (st : xstate) : fstate := let '(pc, (s, k, _)) := st in (pc, (s, k)).

Lemma xstar_inj rbp P a b : xstar rbp (map xinj P) a b -> fstar P (drop_mem a) (drop_mem b).
Proof.
  induction 1 as [st|[pc [[s k] m]] st1 st2 Hs _ IH]; [apply fstar_refl|].
  rewrite xstep_inj in Hs. destruct (fstep P (pc, (s, k))) as [[pc1 [s1 k1]]|] eqn:E; [|discriminate Hs]. injection Hs as <-.
  exact (fstar_step P _ _ _ E IH).
Qed.

Theorem gflatten_simulates : forall c st st', grun c st = Some st' ->
  forall P p, fembedded P p (gflatten c p) -> fstar P (p, st) ((p + fsize c)%nat, st').
Proof.
  intros c [s k] [s' k'] H P p Hemb. set (m := fun _ : Z => 0).
  assert (Hm : mrun 0 (inj c) (s, k, m) = Some (s', k', m)) by (rewrite mrun_inj, H; reflexivity).
  assert (He : xembedded (map xinj P) p (mflatten (inj c) p)).
  { rewrite mflatten_inj. intros i ins Hi. rewrite nth_error_map in *. destruct (nth_error (gflatten c p) i) as [j|] eqn:E; [|discriminate Hi].
    rewrite (Hemb _ _ E). exact Hi. }
  rewrite <- msize_inj. exact (xstar_inj 0 P _ _ (mflatten_simulates 0 _ _ _ Hm _ p He)).
Qed.

(* value and control together: the jump code of a whole expression, placed anywhere, computes the C11 value *)
Theorem expr_code_correct : forall e v, eval e = Some v ->
  forall P p, fembedded P p (gflatten (compile e) p) ->
  forall s k, exists s', fstar P (p, (s, k)) ((p + fsize (compile e))%nat, (s', k)) /\ R (type_of e) v (rax s').
Proof.
  intros e v H P p Hemb s k. destruct (compile_correct e v H s k) as (s' & Hr & HR).
  exists s'. split; [|exact HR]. apply (gflatten_simulates _ _ _ Hr P p Hemb).
Qed.
