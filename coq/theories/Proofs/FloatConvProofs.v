(* The integer side of the rows u64f32 / u64f64 of the cast table (Model/FloatConv.v): halving with a sticky bit, rounding
   to nearest-even and doubling is rounding to nearest-even (halving_is_rne). *)
From Chibicc Require Import Base.Mach Model.X86Int Model.CodegenInt Model.FloatConv.
From Coq Require Import String.
Local Open Scope Z_scope.

(* With x = 4 a + v: the halved value is 2 a + t, its low bit t the OR of the two low bits of x (the sticky bit).
   The four values of v are four computations on the binary representation of a. *)
Lemma halve_sticky_4 a v : 0 <= a -> 0 <= v < 4 -> halve_sticky (4 * a + v) = 2 * a + (if v =? 0 then 0 else 1).
Proof.
  intros Ha Hv. assert (V : v = 0 \/ v = 1 \/ v = 2 \/ v = 3) by lia.
  destruct a as [|p|p]; [| |lia]; destruct V as [->|[->|[->| ->]]]; reflexivity.
Qed.

Lemma halve_sticky_range x m : 4 * m <= x < 8 * m -> 2 * m <= halve_sticky x < 4 * m.
Proof.
  intros Hx. destruct (Z.le_gt_cases m 0) as [Hm|Hm]; [lia|].
  pose proof (Z.div_mod x 4 ltac:(lia)) as D. pose proof (Z.mod_pos_bound x 4 eq_refl) as B.
  rewrite D, halve_sticky_4 by lia. destruct (x mod 4 =? 0); lia.
Qed.

Lemma compare_same a b c d : (a < b <-> c < d) -> (b < a <-> d < c) -> (a ?= b) = (c ?= d).
Proof. intros L G. destruct (Z.compare_spec a b), (Z.compare_spec c d); try reflexivity; lia. Qed.

Lemma rne_divmod s q r : 0 <= r < 2 ^ s ->
  rne (2 ^ s * q + r) s = 2 ^ s * match r ?= 2 ^ (s - 1) with Lt => q | Gt => q + 1 | Eq => if Z.even q then q else q + 1 end.
Proof.
  intros Hr. unfold rne.
  rewrite <- (Z.div_unique_pos _ _ q r Hr eq_refl), <- (Z.mod_unique_pos _ _ q r Hr eq_refl).
  destruct (Z.compare_spec r (2 ^ (s - 1))) as [E|L|G].
  - rewrite E, Z.ltb_irrefl. reflexivity.
  - apply Z.ltb_lt in L. rewrite L. reflexivity.
  - rewrite (proj2 (Z.ltb_ge _ _)) by lia. apply Z.ltb_lt in G. rewrite G. reflexivity.
Qed.

(* Rounding the halved value at s bits and doubling is rounding x at s + 1 bits: the quotient by 2^(s+1) is the same, and the
   remainder 2 u + t of the half compares with 2^(s-1) as the remainder 4 u + v of x does with 2^s, because 2^(s-1)
   is even (s >= 2; at s = 1 the statement fails for x = 5) and t = 0 exactly when v = 0. *)
Theorem halving_is_rne x s : 0 <= x -> 2 <= s -> 2 * rne (halve_sticky x) s = rne x (s + 1).
Proof.
  intros Hx Hs.
  set (w := 2 ^ (s - 2)). assert (Hw : 0 < w) by (apply Z.pow_pos_nonneg; lia).
  assert (E0 : 2 ^ (s - 1) = 2 * w) by (replace (s - 1) with (1 + (s - 2)) by lia; apply Z.pow_add_r; lia).
  assert (E1 : 2 ^ s = 4 * w) by (replace s with (2 + (s - 2)) at 1 by lia; apply Z.pow_add_r; lia).
  assert (E2 : 2 ^ (s + 1) = 8 * w) by (replace (s + 1) with (3 + (s - 2)) by lia; apply Z.pow_add_r; lia).
  pose proof (Z.div_mod x (2 ^ (s + 1)) ltac:(lia)) as Dx. pose proof (Z.mod_pos_bound x (2 ^ (s + 1)) ltac:(lia)) as Br.
  pose proof (Z.div_pos x (2 ^ (s + 1)) Hx ltac:(lia)) as Hq.
  set (q := x / 2 ^ (s + 1)) in *. set (r := x mod 2 ^ (s + 1)) in *. clearbody q r.
  pose proof (Z.div_mod r 4 ltac:(lia)) as Dr. pose proof (Z.mod_pos_bound r 4 eq_refl) as Bv.
  set (u := r / 4) in *. set (v := r mod 4) in *. clearbody u v.
  set (t := if v =? 0 then 0 else 1).
  assert (Ht : v = 0 /\ t = 0 \/ 0 < v /\ t = 1) by (subst t; destruct (Z.eqb_spec v 0); lia).
  assert (Hwq : 0 <= w * q) by (apply Z.mul_nonneg_nonneg; lia).
  assert (Hy : halve_sticky x = 2 ^ s * q + (2 * u + t)).
  { replace x with (4 * (2 * (w * q) + u) + v) by lia. rewrite halve_sticky_4 by lia. fold t. lia. }
  clearbody t. rewrite Hy, rne_divmod, Dx, (rne_divmod (s + 1) q r) by lia.
  replace (s + 1 - 1) with s by lia.
  rewrite (compare_same (2 * u + t) (2 ^ (s - 1)) r (2 ^ s)) by lia. rewrite E1, E2. ring.
Qed.

(* comparing the cast table of codegen.c (Gen/CastTable.v) with the one written down in Model/FloatRows.v: C02_fp_rows_correct *)
Fixpoint xinsn_eqb (a b : xinsn) : bool :=
  match a, b with
  | XText s, XText t => String.eqb s t
  | XI i, XI j => match i, j with
                  | IMovsbl, IMovsbl | IMovzbl, IMovzbl | IMovswl, IMovswl | IMovzwl, IMovzwl | IMovsxd, IMovsxd | IMovEaxEax, IMovEaxEax => true
                  | _, _ => false end
  | _, _ => false
  end.
Fixpoint list_eqb {A} (e : A -> A -> bool) (a b : list A) : bool :=
  match a, b with [], [] => true | x :: a', y :: b' => e x y && list_eqb e a' b' | _, _ => false end.
Definition cell_eqb (a b : option (list xinsn)) : bool :=
  match a, b with None, None => true | Some x, Some y => list_eqb xinsn_eqb x y | _, _ => false end.
