From Coq Require Import List Bool Arith Lia.
From Chibicc Require Import Model.Driver.
Import ListNotations.

Definition nontmp (p : path) : bool := match p with PTmp _ => false | _ => true end.
Definition vis (tr : list event) : list path := filter nontmp (written tr).     (* visible outputs written *)
Definition all_true (l : list bool) : Prop := Forall (fun b => b = true) l.

Lemma tmp_created_app a b : tmp_created (a ++ b) = tmp_created a ++ tmp_created b.
Proof. apply flat_map_app. Qed.
Lemma tmp_unlinked_app a b : tmp_unlinked (a ++ b) = tmp_unlinked a ++ tmp_unlinked b.
Proof. apply flat_map_app. Qed.
Lemma outcomes_app a b : outcomes (a ++ b) = outcomes a ++ outcomes b.
Proof. apply flat_map_app. Qed.
Lemma vis_app a b : vis (a ++ b) = vis a ++ vis b.
Proof. unfold vis, written. rewrite flat_map_app. apply filter_app. Qed.

(* what the atexit handler adds to a trace *)
Lemma unlink_obs l : tmp_unlinked (map EUnlink l) = l /\ tmp_created (map EUnlink l) = [] /\
                     outcomes (map EUnlink l) = [] /\ vis (map EUnlink l) = [].
Proof.
  induction l as [|n l [A [B [C D]]]]; [repeat split; reflexivity|].
  unfold vis, written, tmp_unlinked, tmp_created, outcomes in *. cbn [map flat_map app filter]. rewrite A. auto.
Qed.

(* what the iteration over one input is asked to produce (visible outputs) and to hand to the linker *)
Definition req_input (md : mode) (has_o : bool) (i : nat) (k : kind) : list path :=
  match eff_kind md k, md with
  | KObj, _ => []
  | KAsm, MC => [out_of has_o i]
  | KAsm, _ => []
  | KC, ME => [if has_o then POpt else PStdout]
  | KC, MS | KC, MC => [out_of has_o i]
  | KC, MLink => []
  end.
Definition ld_input (md : mode) (k : kind) : nat :=
  match eff_kind md k, md with KObj, _ => 1 | KAsm, MLink => 1 | KC, MLink => 1 | _, _ => 0 end.
Definition links (md : mode) : bool := match md with MLink => true | _ => false end.

Fixpoint reqs (md : mode) (has_o : bool) (i : nat) (ks : list kind) : list path :=
  match ks with [] => [] | k :: r => req_input md has_o i k ++ reqs md has_o (S i) r end.
Fixpoint lds (md : mode) (ks : list kind) : nat :=
  match ks with [] => 0 | k :: r => ld_input md k + lds md r end.

Section Run.
Variable orc : nat -> bool.
Variable md : mode.
Variable has_o : bool.

Lemma vis_spawn_tmp p t : (match p with Cc1 _ (Some (PTmp _)) | As _ (PTmp _) => True | _ => False end) -> vis [ESpawn p t] = [].
Proof. intros H. destruct p as [i [[]|]|a []|[]]; try contradiction; destruct t; reflexivity. Qed.

(* a run still under way: no failure yet, no temporary unlinked yet, [done] written, [nld] linker inputs collected *)
Record Good (s : dstate) (done : list path) (nld : nat) : Prop := {
  g_created : tmp_created (trace s) = seq 0 (tmps s);
  g_unlinked : tmp_unlinked (trace s) = [];
  g_ok : all_true (outcomes (trace s));
  g_vis : vis (trace s) = done;
  g_ld : ld_args s = nld
}.

(* a run that stopped on a failing subprocess: exit status 1, every temporary unlinked, exactly
   one failing subprocess and it is the last one started, visible outputs as they were *)
Definition Failed (o : outcome) (done : list path) : Prop :=
  exists tr, o = Exited 1 tr /\ tmp_unlinked tr = tmp_created tr /\
             (exists pre, outcomes tr = pre ++ [false] /\ all_true pre) /\ vis tr = done.

Definition Post (o : outcome) (done : list path) (Q : dstate -> Prop) : Prop :=
  match o with Running s => Q s | _ => Failed o done end.

Lemma andthen_post o f done Q R : Post o done Q -> (forall s, Q s -> Post (f s) done R) -> Post (andthen o f) done R.
Proof. destruct o; cbn; auto. Qed.

Lemma exit_obs s c : tmp_created (trace s) = seq 0 (tmps s) -> tmp_unlinked (trace s) = [] ->
  exists tr, do_exit s c = Exited c tr /\ tmp_unlinked tr = tmp_created tr /\
             outcomes tr = outcomes (trace s) /\ vis tr = vis (trace s).
Proof.
  intros G1 G2. eexists; split; [reflexivity|]. destruct (unlink_obs (seq 0 (tmps s))) as [A [B [C D]]].
  rewrite tmp_unlinked_app, tmp_created_app, outcomes_app, vis_app, A, B, C, D, G1, G2, !app_nil_r. auto.
Qed.

Lemma spawn_out s done nld p : Good s done nld -> Post (spawn orc s p) done (fun s' => Good s' (done ++ vis [ESpawn p true]) nld).
Proof.
  intros [G1 G2 G3 G4 G5]. unfold spawn. destruct (orc (nspawn s)).
  - constructor; cbn [trace tmps ld_args].
    + rewrite tmp_created_app, G1. exact (app_nil_r _).
    + rewrite tmp_unlinked_app, G2. reflexivity.
    + rewrite outcomes_app. apply Forall_app. split; [exact G3|]. repeat constructor.
    + rewrite vis_app, G4. reflexivity.
    + exact G5.
  - destruct (exit_obs {| tmps := tmps s; trace := trace s ++ [ESpawn p false]; ld_args := ld_args s; nspawn := S (nspawn s) |} 1)
      as [tr [E [T [O V]]]]; cbn [trace tmps] in *.
    + rewrite tmp_created_app, G1. exact (app_nil_r _).
    + rewrite tmp_unlinked_app, G2. reflexivity.
    + rewrite outcomes_app in O. rewrite vis_app, G4 in V. exists tr. repeat split; eauto.
      rewrite V. unfold vis. destruct p as [i [o|]|a o|o]; apply app_nil_r.
Qed.

Lemma spawn_tmp s done nld p : (match p with Cc1 _ (Some (PTmp _)) | As _ (PTmp _) => True | _ => False end) ->
  Good s done nld -> Post (spawn orc s p) done (fun s' => Good s' done nld).
Proof. intros Hp G. pose proof (spawn_out s done nld p G) as H. rewrite (vis_spawn_tmp p true Hp), app_nil_r in H. exact H. Qed.

Lemma mktmp_good s done nld : Good s done nld -> Good (snd (mktmp s)) done nld.
Proof.
  intros [G1 G2 G3 G4 G5]. constructor; cbn [mktmp snd trace tmps ld_args].
  - rewrite tmp_created_app, G1, seq_S. reflexivity.
  - rewrite tmp_unlinked_app, G2. reflexivity.
  - rewrite outcomes_app. cbn. rewrite app_nil_r. exact G3.
  - rewrite vis_app, G4. exact (app_nil_r _).
  - exact G5.
Qed.

Lemma add_ld_good s done nld : Good s done nld -> Good (add_ld s) done (S nld).
Proof. intros [G1 G2 G3 G4 G5]. constructor; cbn; auto. Qed.

Lemma do_input_ok s done nld i k : Good s done nld ->
  Post (do_input orc md has_o s i k) done (fun s' => Good s' (done ++ req_input md has_o i k) (nld + ld_input md k)).
Proof.
  intros G. unfold do_input, req_input, ld_input, out_of.
  destruct (eff_kind md k), md; cbn; rewrite ?app_nil_r, ?Nat.add_0_r, ?Nat.add_1_r.
  (* .s under -E or -S: nothing is done *)
  5, 6: exact G.
  (* .o, in all four modes: handed to the linker *)
  7-10: exact (add_ld_good _ _ _ G).
  - (* .c, -E *) destruct has_o; exact (spawn_out _ _ _ _ G).
  - (* .c, -S *) destruct has_o; exact (spawn_out _ _ _ _ G).
  - (* .c, -c : tmp; cc1; as *)
    eapply andthen_post; [apply spawn_tmp; [exact I|exact (mktmp_good _ _ _ G)]|].
    intros s2 G2. destruct has_o; exact (spawn_out _ _ _ _ G2).
  - (* .c, link : two temporaries; cc1; as; add to ld_args *)
    eapply andthen_post; [apply spawn_tmp; [exact I|exact (mktmp_good _ _ _ (mktmp_good _ _ _ G))]|].
    intros s3 G3. eapply andthen_post; [apply spawn_tmp; [exact I|exact G3]|]. intros s'. apply add_ld_good.
  - (* .s, -c *) destruct has_o; exact (spawn_out _ _ _ _ G).
  - (* .s, link *)
    eapply andthen_post; [apply spawn_tmp; [exact I|exact (mktmp_good _ _ _ G)]|]. intros s'. apply add_ld_good.
Qed.

Lemma loop_ok : forall ks s done nld i,
  Good s done nld ->
  match loop orc md has_o s i ks with
  | Running s' => Good s' (done ++ reqs md has_o i ks) (nld + lds md ks)
  | o => exists j, j < length ks /\ Failed o (done ++ reqs md has_o i (firstn j ks))
  end.
Proof.
  induction ks as [|k r IH]; intros s done nld i G; cbn [loop reqs lds].
  - rewrite app_nil_r, Nat.add_0_r. exact G.
  - pose proof (do_input_ok s done nld i k G) as H.
    destruct (do_input orc md has_o s i k) as [s1|c tr]; cbn [andthen].
    + specialize (IH s1 _ _ (S i) H). rewrite <- app_assoc, <- Nat.add_assoc in IH. destruct (loop orc md has_o s1 (S i) r); [exact IH|].
      destruct IH as [j [Hj F]]. exists (S j). split; [cbn; lia|]. cbn [firstn reqs]. rewrite app_assoc. exact F.
    + exists 0. split; [cbn; lia|]. cbn [firstn reqs]. rewrite app_nil_r. exact H.
Qed.

Definition usage_error (ks : list kind) : bool :=
  (1 <? length ks) && has_o && (match md with MLink => false | _ => true end).

Definition link_out : list path := [if has_o then POpt else PAout].

Definition verdict (ks : list kind) (o : outcome) : Prop :=
  exists c tr, o = Exited c tr /\
    tmp_unlinked tr = tmp_created tr /\
    (c = 0 \/ c = 1) /\
    (c = 0 -> all_true (outcomes tr) /\
              vis tr = reqs md has_o 0 ks ++ (if (0 <? lds md ks) && links md then link_out else [])) /\
    (c = 1 -> (usage_error ks = true /\ outcomes tr = [] /\ vis tr = []) \/
              ((exists pre, outcomes tr = pre ++ [false] /\ all_true pre) /\
               exists j, j <= length ks /\ vis tr = reqs md has_o 0 (firstn j ks) /\
                         (j < length ks \/ ((0 <? lds md ks) && links md) = true))).

Lemma verdict_failed ks o j : Failed o (reqs md has_o 0 (firstn j ks)) -> j <= length ks ->
  j < length ks \/ ((0 <? lds md ks) && links md) = true -> verdict ks o.
Proof.
  intros [tr [-> [T [O V]]]] Hj Hl. exists 1, tr. repeat split; auto; try discriminate. intros _. right. split; [exact O|]. exists j. auto.
Qed.

Lemma verdict_done ks s nld :
  Good s (reqs md has_o 0 ks ++ (if (0 <? lds md ks) && links md then link_out else [])) nld -> verdict ks (do_exit s 0).
Proof.
  intros G. destruct (exit_obs s 0 (g_created _ _ _ G) (g_unlinked _ _ _ G)) as [tr [E [T [O V]]]]. exists 0, tr.
  repeat split; auto; try discriminate; [rewrite O; exact (g_ok _ _ _ G)|rewrite V; exact (g_vis _ _ _ G)].
Qed.

Theorem driver_ok ks : verdict ks (driver orc md has_o ks).
Proof.
  unfold driver. set (s0 := {| tmps := 0; trace := []; ld_args := 0; nspawn := 0 |}).
  assert (G0 : Good s0 [] 0) by (repeat constructor).
  fold (usage_error ks). destruct (usage_error ks) eqn:U.
  - destruct (exit_obs s0 1 eq_refl eq_refl) as [tr [E [T [O V]]]]. exists 1, tr.
    repeat split; auto; discriminate.
  - pose proof (loop_ok ks s0 [] 0 0 G0) as H. cbn [app Nat.add] in H.
    destruct (loop orc md has_o s0 0 ks) as [s|c tr]; cbn [andthen].
    + rewrite (g_ld _ _ _ H). fold (links md). destruct ((0 <? lds md ks) && links md) eqn:L.
      * pose proof (spawn_out s _ _ (Ld (if has_o then POpt else PAout)) H) as S1.
        destruct (spawn orc s _) as [s1|c tr]; cbn [andthen].
        -- apply (verdict_done ks s1 (lds md ks)). rewrite L. unfold link_out. destruct has_o; exact S1.
        -- apply (verdict_failed ks _ (length ks)); [rewrite firstn_all; exact S1|lia|auto].
      * cbn [andthen]. apply (verdict_done ks s (lds md ks)). rewrite L, app_nil_r. exact H.
    + destruct H as [j [Hj F]]. apply (verdict_failed ks _ j); [exact F|lia|auto].
Qed.
End Run.

Lemma req_input_bound md has_o i k p : In p (req_input md has_o i k) -> p = PStdout \/ (has_o = true /\ p = POpt) \/ p = POut i.
Proof.
  unfold req_input, out_of. destruct (eff_kind md k), md, has_o; cbn [In]; intros H; try contradiction; destruct H as [<-|[]]; auto.
Qed.

(* the outputs requested for the inputs i, i+1, ... are, besides stdout and the -o file, derived from those very inputs: so
   what was written when input j failed, [reqs md has_o 0 (firstn j ks)], does not hold the output [POut j] of the failed input *)
Lemma reqs_bound md has_o : forall ks i p, In p (reqs md has_o i ks) ->
  p = PStdout \/ (has_o = true /\ p = POpt) \/ (exists j, i <= j < i + length ks /\ p = POut j).
Proof.
  induction ks as [|k r IH]; intros i p H; cbn [reqs] in H; [contradiction|].
  apply in_app_or in H as [H|H].
  - destruct (req_input_bound _ _ _ _ _ H) as [A|[A|A]]; auto. right; right. exists i. cbn [length]. split; [lia|exact A].
  - destruct (IH (S i) p H) as [A|[A|[j [Hj A]]]]; auto. right; right. exists j. cbn [length]. split; [lia|exact A].
Qed.

(* concurrency: runs whose footprints (outputs and temporaries) are disjoint do not interfere,
   whatever the interleaving of their file-system events *)
Section Interleave.
Variable P : Type.
Variable eqb : P -> P -> bool.
Hypothesis eqb_eq : forall a b, eqb a b = true <-> a = b.
Inductive fsev := FWrite (p : P) (tag : nat) | FUnlink (p : P).
Definition fs := P -> option nat.
Definition apply (f : fs) (e : fsev) : fs :=
  match e with
  | FWrite p t => fun q => if eqb q p then Some t else f q
  | FUnlink p => fun q => if eqb q p then None else f q
  end.
Definition touches (e : fsev) : P := match e with FWrite p _ | FUnlink p => p end.

Inductive interleaving : list fsev -> list fsev -> list fsev -> Prop :=
| il_nil : interleaving [] [] []
| il_l a la lb l : interleaving la lb l -> interleaving (a :: la) lb (a :: l)
| il_r b la lb l : interleaving la lb l -> interleaving la (b :: lb) (b :: l).

Lemma fold_apply_at l q : forall f g, f q = g q -> fold_left apply l f q = fold_left apply l g q.
Proof.
  induction l as [|e l IH]; intros f g H; [exact H|]. apply IH. destruct e; cbn [apply]; destruct (eqb q p); auto.
Qed.

(* nothing is asked of this run's own events la *)
Theorem untouched_paths_unaffected la lb l (inA : P -> Prop) : interleaving la lb l -> Forall (fun e => ~ inA (touches e)) lb ->
  forall f q, inA q -> fold_left apply l f q = fold_left apply la f q.
Proof.
  intros H. induction H as [|a la lb l H IH|b la lb l H IH]; intros HB f q Hq; cbn [fold_left]; auto.
  inversion HB as [|? ? Hb HB']; subst. rewrite (IH HB' (apply f b) q Hq). apply fold_apply_at.
  destruct b; cbn [apply touches] in *; destruct (eqb q p) eqn:E; auto; apply eqb_eq in E; subst; contradiction.
Qed.
End Interleave.
