(* C03 (switch, labels, goto): the converse of SwContProofs for function bodies - whenever the continuation
   machine of Spec/SwCont.v brings a function body to its end, the seek semantics of Spec/SwSem.v has that
   result, with a fuel read off the length of the run.  With SwContProofs: the two semantics define the same
   terminating runs.

   SwContProofs shows that srun has no result only where the machine, entered at the same place, does not
   finish within the steps the fuel covers, and that a result of srun is a run of the machine to the end of the
   function (sw_function_both).  So srun with fuel n + sheight body + 1 cannot fail on a run of n steps, and
   what it returns is that run (the machine is a function). *)
From Coq Require Import List Arith Bool Lia.
Import ListNotations.
From Chibicc Require Import Spec.SwSem Spec.SwCont Proofs.SwContProofs.

(* Fuel n + sheight body + 1 is enough for every run of the machine of at most n steps, from the
   beginning of the body or from one of its labels. *)
Theorem sw_continuations_complete_within : forall n m body s1 k1 o tr o',
  centry m body Kstop = Some (s1, k1) -> crun n body (s1, k1, o) = Some (tr, o') ->
  srun (S (n + sheight body)) m body o = Some (tr, o').
Proof.
  intros n m body s1 k1 o tr o' He Hn. pose proof (sw_function_both (S (n + sheight body)) m body o) as B. rewrite He in B.
  destruct (srun (S (n + sheight body)) m body o) as [[t2 o2]|].
  - destruct (cstar_final_unique (crun_sound _ _ _ _ _ Hn) B) as [-> ->]. reflexivity.
  - rewrite (B n (Nat.lt_succ_diag_r _)) in Hn. discriminate.
Qed.

Theorem sw_continuations_complete : forall body o tr o',
  cstar body (body, Kstop, o) tr (SSkip, Kstop, o') -> exists fuel, srun fuel None body o = Some (tr, o').
Proof.
  intros body o tr o' H. destruct (crun_complete H) as [n Hn]. exists (S (n + sheight body)).
  exact (sw_continuations_complete_within n None body body Kstop o tr o' eq_refl Hn).
Qed.

(* Another reading of the fuelled semantics, which the proof above does not need: its clauses as
   inference rules that hold "for all sufficiently large fuel".  rle a b: whatever result a is, b is
   too (the shape of "more fuel never changes a result"); xev: sexec has the result r from some fuel
   on; ev2 is the same for the loops, which take the fuel twice (F for the body, G for the
   iterations; sexec passes the same); dlev is the do loop from its body on, daev what follows one
   execution of the body, and dlev_iter the rule for one iteration. *)
Definition rle (a b : option sres) : Prop := forall r, a = Some r -> b = Some r.
Lemma rle_refl a : rle a a.
Proof. intros r H. exact H. Qed.
Definition xev (m : smode) (s : sstmt) (o : soracle) (r : sres) : Prop :=
  exists f0, forall f, f0 <= f -> sexec f m s o = Some r.
Definition ev2 (P : nat -> nat -> Prop) : Prop := exists f0, forall F G, f0 <= F -> f0 <= G -> P F G.
Definition dlev body kc (o : soracle) (r : sres) : Prop :=
  ev2 (fun F G => sdo_loop (sexec F None) G body kc o = Some r).
Definition daev body kc (r1 r : sres) : Prop :=
  ev2 (fun F G => sdo_after (sdo_loop (sexec F None) G body kc) kc (Some r1) = Some r).
Lemma dlev_iter body kc o r1 r : xev None body o r1 -> daev body kc r1 r -> dlev body kc o r.
Proof.
  intros [fa Hb] [fb Ha]. exists (S (max fa fb)). intros F G HF HG. destruct G as [|G]; [exfalso; lia|]. cbn [sdo_loop].
  rewrite (Hb F) by lia. apply Ha; lia.
Qed.
