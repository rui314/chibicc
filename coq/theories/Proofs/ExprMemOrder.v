(* 6.5p2 makes the evaluation order of unsequenced operands unobservable: whenever the two operands of an
   operator do not race (norace), evaluating the left one first or the right one first gives the same
   values, the same final store and the same definedness.  So the order Spec/C11IntMem.v fixes (the
   one chibicc uses) is not a choice that matters.  At the end, the expressions without objects: on them
   the specification is that of C11Int.v (meval_pure). *)
From Coq Require Import ZArith Bool List.
From Chibicc Require Import Base.ListFacts Spec.C11Int Spec.C11IntMem Proofs.ExprMemProofs Proofs.ExprMemCorrect.
Import ListNotations.
Local Open Scope Z_scope.

Lemma mem_nat_In x l : mem_nat x l = true <-> In x l.
Proof. exact (existsb_nat_In x l). Qed.

Lemma disjoint_spec l1 l2 : disjoint l1 l2 = true -> forall x, In x l1 -> ~ In x l2.
Proof.
  unfold disjoint. rewrite forallb_forall. intros H x Hx Hx2. specialize (H x Hx).
  apply negb_true_iff in H. apply mem_nat_In in Hx2. congruence.
Qed.

(* the frame rule for stores: env1 has the variables of env and differs from it on W at most *)
Definition frame_ok (W : list nat) (env env1 : venv) : Prop :=
  length env1 = length env /\ forall z, ~ In z W -> vget env1 z = vget env z.

Definition eqon (S : list nat) (e1 e2 : venv) : Prop :=
  length e1 = length e2 /\ forall z, In z S -> vget e1 z = vget e2 z.
Definition res_equiv (S : list nat) (r r' : option (Z * venv)) : Prop :=
  match r, r' with
  | Some (v, e1), Some (v', e1') => v = v' /\ eqon S e1 e1'
  | None, None => True
  | _, _ => False
  end.

Lemma eqon_vset S e1 e2 x v : eqon S e1 e2 -> eqon S (vset e1 x v) (vset e2 x v).
Proof.
  intros [L H]. split; [rewrite !vset_length; exact L|]. intros z Hz. rewrite !vget_vset, L.
  destruct (_ && _); [reflexivity|apply H; exact Hz].
Qed.

Lemma read_var_eqon G S e1 e2 x : eqon S e1 e2 -> In x S -> read_var G e1 x = read_var G e2 x.
Proof. intros [_ H] Hx. unfold read_var. rewrite (H x Hx). reflexivity. Qed.

(* meval is parametric in the store.  Rel may be any relation between stores that the variables e reads cannot tell apart
   (respects) and that a write of the same value to a variable e writes keeps (stable): two evaluations of e from related
   stores then give the same value and related stores, or are both undefined. *)
Section Param.
Variable G : tyenv.
Variable Rel : venv -> venv -> Prop.

Definition respects (x : nat) : Prop := forall e1 e2, Rel e1 e2 -> read_var G e1 x = read_var G e2 x.
Definition stable (x : nat) : Prop := forall e1 e2 v, Rel e1 e2 -> Rel (vset e1 x v) (vset e2 x v).

Definition res_rel (r r' : option (Z * venv)) : Prop :=
  match r, r' with
  | Some (v, e1), Some (v', e1') => v = v' /\ Rel e1 e1'
  | None, None => True
  | _, _ => False
  end.

Lemma rel_bind (r r' : option (Z * venv)) (f f' : Z -> venv -> option (Z * venv)) :
  res_rel r r' -> (forall x e1 e1', Rel e1 e1' -> res_rel (f x e1) (f' x e1')) ->
  res_rel (match r with Some (x, e1) => f x e1 | None => None end) (match r' with Some (x, e1) => f' x e1 | None => None end).
Proof. destruct r as [[x e1]|], r' as [[x' e1']|]; cbn; try contradiction; auto. intros [<- HE] Hf. apply Hf, HE. Qed.

Lemma rel_some v e1 e1' : Rel e1 e1' -> res_rel (Some (v, e1)) (Some (v, e1')).
Proof. intros H. split; [reflexivity|exact H]. Qed.

(* the reads / writes of a sub-expression are among those of the expression *)
Ltac subexpr H := let z := fresh "z" in let Hz := fresh "Hz" in
  intros z Hz; apply H; cbn [reads writes]; clear - Hz; rewrite ?in_app_iff in *; cbn [In] in *; tauto.

Theorem meval_rel : forall e, (forall x, In x (reads e) -> respects x) -> (forall x, In x (writes e) -> stable x) ->
  forall env env', Rel env env' -> res_rel (meval G env e) (meval G env' e).
Proof.
  induction e as [t v0|x|o a IHa|o a IHa b IHb|t a IHa|c IHc a IHa b IHb|a IHa b IHb|x a IHa|o x a IHa|post inc x];
    intros HR HW env env' HE.
  - cbn [meval]. destruct (in_range t v0); [apply rel_some; exact HE|exact I].
  - cbn [meval]. rewrite (HR x (or_introl eq_refl) env env' HE). destruct (read_var G env' x); [apply rel_some; exact HE|exact I].
  - cbn [meval]. apply rel_bind; [apply IHa; [subexpr HR|subexpr HW|exact HE]|]. intros x e1 e1' HE1.
    destruct (eval_unval _ _ _); [apply rel_some; exact HE1|exact I].
  - assert (IA := IHa ltac:(subexpr HR) ltac:(subexpr HW)). assert (IB := IHb ltac:(subexpr HR) ltac:(subexpr HW)).
    assert (Last : forall x y e2 e2', Rel e2 e2' ->
              res_rel (match eval_binval o (mtype G a) (mtype G b) x y with Some v => Some (v, e2) | None => None end)
                      (match eval_binval o (mtype G a) (mtype G b) x y with Some v => Some (v, e2') | None => None end)).
    { intros x y e2 e2' HE2. destruct (eval_binval _ _ _ _ _); [apply rel_some; exact HE2|exact I]. }
    destruct (is_logical o) eqn:L.
    + (* && ||: the left operand settles the value (the try), or the right one is evaluated *)
      destruct o; try discriminate L; cbn [meval]; (apply rel_bind; [apply IA; exact HE|]); intros x e1 e1' HE1;
        [destruct (x =? 0)|destruct (negb (x =? 0))]; try (apply rel_some; exact HE1);
        (apply rel_bind; [apply IB; exact HE1|]); intros y e2 e2' HE2; apply rel_some; exact HE2.
    + rewrite !(meval_bin G _ o a b L). destruct (norace a b); [|exact I]. destruct (lhs_first o).
      * apply rel_bind; [apply IA; exact HE|]. intros x e1 e1' HE1. apply rel_bind; [apply IB; exact HE1|]. intros y e2 e2'. apply Last.
      * apply rel_bind; [apply IB; exact HE|]. intros y e1 e1' HE1. apply rel_bind; [apply IA; exact HE1|]. intros x e2 e2'. apply Last.
  - cbn [meval]. apply rel_bind; [apply IHa; [subexpr HR|subexpr HW|exact HE]|]. intros x e1 e1' HE1. apply rel_some; exact HE1.
  - cbn [meval]. apply rel_bind; [apply IHc; [subexpr HR|subexpr HW|exact HE]|]. intros x e1 e1' HE1.
    destruct (negb (x =? 0)); (apply rel_bind; [first [apply IHa|apply IHb]; [subexpr HR|subexpr HW|exact HE1]|]);
      intros y e2 e2' HE2; apply rel_some; exact HE2.
  - cbn [meval]. apply rel_bind; [apply IHa; [subexpr HR|subexpr HW|exact HE]|]. intros x e1 e1' HE1. apply IHb; [subexpr HR|subexpr HW|exact HE1].
  - cbn [meval]. destruct (mem_nat x (writes a)); [exact I|].
    apply rel_bind; [apply IHa; [subexpr HR|subexpr HW|exact HE]|]. intros y e1 e1' HE1. apply rel_some, (HW x (or_introl eq_refl)), HE1.
  - cbn [meval]. destruct (_ || _); [exact I|].
    apply rel_bind; [apply IHa; [subexpr HR|subexpr HW|exact HE]|]. intros y e1 e1' HE1.
    rewrite (HR x (or_introl eq_refl) e1 e1' HE1).
    destruct (read_var G e1' x); [|exact I]. destruct (eval_binval _ _ _ _ _); [|exact I]. apply rel_some, (HW x (or_introl eq_refl)), HE1.
  - cbn [meval]. rewrite (HR x (or_introl eq_refl) env env' HE).
    destruct (read_var G env' x); [|exact I]. destruct (eval_binval _ _ _ _ _); [|exact I]. apply rel_some, (HW x (or_introl eq_refl)), HE.
Qed.
End Param.

(* independence: the relation "equal on S" *)
Lemma meval_indep G : forall e S env env',
  incl (reads e ++ writes e) S -> eqon S env env' -> res_equiv S (meval G env e) (meval G env' e).
Proof.
  intros e S env env' HI. apply (meval_rel G (eqon S)).
  - intros x Hx e1 e2 HE. apply (read_var_eqon G S e1 e2 x HE), HI, in_or_app. left. exact Hx.
  - intros x _ e1 e2 v. apply eqon_vset.
Qed.

(* the frame rule: the relation "the same store, and off the writes of e it is still env" *)
Lemma meval_frame G : forall e env v env1, meval G env e = Some (v, env1) -> frame_ok (writes e) env env1.
Proof.
  intros e env v env1 H. set (Rel := fun e1 e2 : venv => e1 = e2 /\ frame_ok (writes e) env e1).
  assert (HW : forall x, In x (writes e) -> stable Rel x).
  { intros x Hx e1 e2 w [<- [L F]]. split; [reflexivity|]. split; [rewrite vset_length; exact L|].
    intros z Hz. rewrite vget_vset. destruct (Nat.eqb_spec x z) as [->|_]; [contradiction|apply F, Hz]. }
  pose proof (meval_rel G Rel e (fun x _ e1 e2 HE => f_equal (fun s => read_var G s x) (proj1 HE)) HW env env (conj eq_refl (conj eq_refl (fun z _ => eq_refl)))) as P.
  rewrite H in P. exact (proj2 (proj2 P)).
Qed.

Definition eval_then (G : tyenv) (env : venv) (p q : mexpr) : option (Z * Z * venv) :=
  match meval G env p with
  | Some (x, e1) => match meval G e1 q with Some (y, e2) => Some (x, y, e2) | None => None end
  | None => None
  end.
Definition swap_res (r : option (Z * Z * venv)) : option (Z * Z * venv) :=
  match r with Some (y, x, e) => Some (x, y, e) | None => None end.

Lemma frame_eqon W S env env1 : frame_ok W env env1 -> (forall z, In z S -> ~ In z W) -> eqon S env env1.
Proof. intros [L H] HS. split; [symmetry; exact L|]. intros z Hz. symmetry. apply H. apply HS. exact Hz. Qed.

(* b evaluates alike before and after an operand a that writes nothing b reads or writes *)
Lemma meval_after G a b env env1 : frame_ok (writes a) env env1 -> disjoint (writes a) (reads b ++ writes b) = true ->
  res_equiv (reads b ++ writes b) (meval G env b) (meval G env1 b).
Proof.
  intros FA DA. apply meval_indep; [apply incl_refl|]. apply (frame_eqon _ _ _ _ FA). intros z Hz Hw. exact (disjoint_spec _ _ DA z Hw Hz).
Qed.

Theorem meval_order_irrelevant G a b env :
  norace a b = true -> eval_then G env a b = swap_res (eval_then G env b a).
Proof.
  (* a writes nothing b looks at, so b evaluates alike from env and from the store a leaves (meval_after), and a likewise
     after b: the same values, defined together.  The two final stores are then compared variable by variable, each
     evaluation leaving alone what it does not write (meval_frame) *)
  intros Hn. unfold norace in Hn. apply andb_true_iff in Hn as [Da Db]. unfold eval_then.
  destruct (meval G env a) as [[x e1]|] eqn:Ea.
  - pose proof (meval_frame G a _ _ _ Ea) as FA. pose proof (meval_after G a b env e1 FA Da) as IB.
    destruct (meval G env b) as [[y eb]|] eqn:Eb, (meval G e1 b) as [[y' e2]|] eqn:Eb1; cbn in IB; try contradiction; [|reflexivity].
    destruct IB as [<- [Lb Hb]].
    pose proof (meval_frame G b _ _ _ Eb) as FB. pose proof (meval_frame G b _ _ _ Eb1) as FB1.
    pose proof (meval_after G b a env eb FB Db) as IA. rewrite Ea in IA.
    destruct (meval G eb a) as [[x' e2']|] eqn:Ea1; cbn in IA; [|contradiction].
    destruct IA as [<- [La Ha]]. pose proof (meval_frame G a _ _ _ Ea1) as FA1.
    cbn [swap_res]. f_equal. f_equal.
    destruct FA as [LA FA], FB as [LB FB], FB1 as [LB1 FB1], FA1 as [LA1 FA1].
    apply (nth_ext e2 e2' 0 0); [congruence|]. intros z Hz. fold (vget e2 z). fold (vget e2' z).
    assert (Out : forall W, mem_nat z W = false -> ~ In z W) by (intros W E Hin; apply mem_nat_In in Hin; congruence).
    (* z is written by a, by b or by neither - not by both *)
    destruct (mem_nat z (writes a)) eqn:Ez; [|destruct (mem_nat z (writes b)) eqn:Ez'].
    + apply mem_nat_In in Ez. rewrite <- (Ha z) by (apply in_app_iff; auto). apply FB1.
      intros Hwb. apply (disjoint_spec _ _ Db z Hwb). apply in_app_iff. right. exact Ez.
    + apply mem_nat_In in Ez'. rewrite <- (Hb z) by (apply in_app_iff; auto). symmetry. apply FA1, Out, Ez.
    + rewrite (FB1 z), (FA z), (FA1 z), (FB z) by (apply Out; assumption). reflexivity.
  - destruct (meval G env b) as [[y eb]|] eqn:Eb; [|reflexivity].
    pose proof (meval_after G b a env eb (meval_frame G b _ _ _ Eb) Db) as IA. rewrite Ea in IA.
    destruct (meval G eb a) as [[x' e2']|]; cbn in IA; [contradiction|reflexivity].
Qed.

(* consequence for the specification: the order fixed in meval for a binary operator is immaterial *)
Corollary meval_bin_either_order G env o a b : is_logical o = false ->
  meval G env (MBin o a b) =
  if norace a b then
    match eval_then G env a b with
    | Some (x, y, e2) => match eval_binval o (mtype G a) (mtype G b) x y with Some v => Some (v, e2) | None => None end
    | None => None
    end
  else None.
Proof.
  intros L. rewrite (meval_bin G env o a b L). destruct (norace a b) eqn:Hn; [|reflexivity].
  destruct (lhs_first o).
  - unfold eval_then. destruct (meval G env a) as [[x e1]|]; [|reflexivity]. destruct (meval G e1 b) as [[y e2]|]; reflexivity.
  - rewrite (meval_order_irrelevant G a b env Hn). unfold eval_then.
    destruct (meval G env b) as [[y e1]|]; [|reflexivity]. destruct (meval G e1 a) as [[x e2]|]; reflexivity.
Qed.

(* expressions without objects: the tree of C11Int.v as an expression over objects, the right inverse of to_expr *)
Fixpoint of_expr (e : expr) : mexpr :=
  match e with
  | Lit t v => MLit t v
  | Un o a => MUn o (of_expr a)
  | Bin o a b => MBin o (of_expr a) (of_expr b)
  | Cast t a => MCast t (of_expr a)
  | Cond c a b => MCond (of_expr c) (of_expr a) (of_expr b)
  | Comma a b => MComma (of_expr a) (of_expr b)
  end.

Lemma to_expr_inv : forall e e', to_expr e = Some e' -> e = of_expr e'.
Proof.
  induction e as [t v0|x|o a IHa|o a IHa b IHb|t a IHa|c IHc a IHa b IHb|a IHa b IHb|x a IHa|o x a IHa|post inc x];
    intros e' H; cbn [to_expr] in H; try discriminate H.
  - injection H as <-. reflexivity.
  - destruct (to_expr a) as [a'|]; [|discriminate]. injection H as <-. rewrite (IHa a' eq_refl). reflexivity.
  - destruct (to_expr a) as [a'|]; [|discriminate]. destruct (to_expr b) as [b'|]; [|discriminate]. injection H as <-.
    rewrite (IHa a' eq_refl), (IHb b' eq_refl). reflexivity.
  - destruct (to_expr a) as [a'|]; [|discriminate]. injection H as <-. rewrite (IHa a' eq_refl). reflexivity.
  - destruct (to_expr c) as [c'|]; [|discriminate]. destruct (to_expr a) as [a'|]; [|discriminate]. destruct (to_expr b) as [b'|]; [|discriminate].
    injection H as <-. rewrite (IHc c' eq_refl), (IHa a' eq_refl), (IHb b' eq_refl). reflexivity.
  - destruct (to_expr a) as [a'|]; [|discriminate]. destruct (to_expr b) as [b'|]; [|discriminate]. injection H as <-.
    rewrite (IHa a' eq_refl), (IHb b' eq_refl). reflexivity.
Qed.

Lemma of_expr_writes : forall e, writes (of_expr e) = [].
Proof.
  induction e as [t v|o a IHa|o a IHa b IHb|t a IHa|c IHc a IHa b IHb|a IHa b IHb]; cbn [of_expr writes]; rewrite ?IHc, ?IHa, ?IHb; reflexivity.
Qed.

Definition lift_res (env : venv) (r : option Z) : option (Z * venv) :=
  match r with Some v => Some (v, env) | None => None end.

Theorem meval_pure G : forall e, mtype G (of_expr e) = type_of e /\ forall env, meval G env (of_expr e) = lift_res env (eval e).
Proof.
  induction e as [t v|o a [Ty Ev]|o a [Tya Ea] b [Tyb Eb]|t a [_ Ev]|c [_ Evc] a [Tya Eva] b [Tyb Evb]|a [_ Eva] b [Tyb Evb]]; cbn [of_expr].
  - split; [reflexivity|]. intros env. cbn [meval eval]. destruct (in_range t v); reflexivity.
  - split; [destruct o; cbn [mtype type_of]; rewrite ?Ty; reflexivity|]. intros env.
    cbn [meval eval]. rewrite Ev, Ty. destruct (eval a) as [xv|]; [|reflexivity]. cbn [lift_res]. unfold eval_unval.
    destruct o; try reflexivity; destruct (arith_result _ _); reflexivity.
  - split; [cbn [mtype type_of]; rewrite Tya, Tyb; reflexivity|]. intros env.
    destruct (is_logical o) eqn:L.
    + destruct o; try discriminate L; cbn [meval eval]; rewrite Ea; (destruct (eval a) as [xv|]; [|reflexivity]); cbn [lift_res];
        [destruct (xv =? 0)|destruct (negb (xv =? 0))]; try reflexivity; rewrite Eb; destruct (eval b); reflexivity.
    + rewrite (meval_bin G env o _ _ L), (eval_bin o a b L), Tya, Tyb. unfold norace. rewrite !of_expr_writes. cbn [disjoint forallb andb].
      (* without objects the order of the operands does not matter: no evaluation changes the store *)
      destruct (lhs_first o); rewrite ?Ea, ?Eb; destruct (eval a) as [xv|], (eval b) as [yv|]; cbn [lift_res]; rewrite ?Ea, ?Eb;
        cbn [lift_res]; try reflexivity; destruct (eval_binval _ _ _ _ _); reflexivity.
  - split; [reflexivity|]. intros env. cbn [meval eval]. rewrite Ev. destruct (eval a); reflexivity.
  - split; [cbn [mtype type_of]; rewrite Tya, Tyb; reflexivity|]. intros env.
    cbn [meval eval]. rewrite Evc. destruct (eval c) as [xv|]; [|reflexivity]. cbn [lift_res]. rewrite Tya, Tyb.
    destruct (negb (xv =? 0)); [rewrite Eva; destruct (eval a)|rewrite Evb; destruct (eval b)]; reflexivity.
  - split; [exact Tyb|]. intros env. cbn [meval eval]. rewrite Eva. destruct (eval a); [|reflexivity]. cbn [lift_res]. apply Evb.
Qed.
