(* The scanners of Model/LitScan.v against the grammar of Spec/LitSpec.v: escape sequences, string
   literal bodies in the five encodings, character constants.  Each scanner is run on a spelling
   followed by an arbitrary rest, [spell x ++ rest], and shown to return the value of x and that
   rest.  The digit table of the grammar meets the C code's character arithmetic by a sweep over
   ASCII; the three scanning loops share one induction over the elements ([reads_items]), the two
   searches for the closing quote one walk over them (Section Walk). *)
From Chibicc Require Import Base.Mach Model.Unicode Spec.Utf Model.IntLit Spec.IntLitSpec
     Proofs.UnicodeProofs Model.LitScan Spec.LitSpec.
Local Open Scope N_scope.

Lemma digit_value_ascii b d : digit_value b = Some d -> b < 128.
Proof.
  unfold digit_value. destruct (find _ digit_table) as [e|] eqn:E; [|discriminate].
  intros _. apply find_some in E. destruct E as [Hin Hk]. apply N.eqb_eq in Hk. subst b.
  assert (H : forallb (fun e => fst e <? 128) digit_table = true) by reflexivity.
  rewrite forallb_forall in H. apply N.ltb_lt, H, Hin.
Qed.

(* the table lists exactly the characters of isxdigit, each with the value from_hex gives it:
   checked on the 128 ASCII characters, above which both sides are empty *)
Definition digit_agrees (b : N) : bool :=
  match digit_value b with Some d => isxdigit b && (d =? from_hex b) | None => negb (isxdigit b) end.

Lemma digit_value_from_hex b : digit_value b = if isxdigit b then Some (from_hex b) else None.
Proof.
  destruct (N.ltb_spec b 128) as [Hs|Hl].
  - assert (H : digit_agrees b = true)
      by (apply (forall_below digit_agrees 128); [vm_compute; reflexivity|exact Hs]).
    unfold digit_agrees in H. destruct (digit_value b) as [d|], (isxdigit b); try discriminate; [|reflexivity].
    apply N.eqb_eq in H. subst d. reflexivity.
  - destruct (digit_value b) as [d|] eqn:E; [apply digit_value_ascii in E; lia|].
    replace (isxdigit b) with false; [reflexivity|]. unfold isxdigit, isdigit. lia.
Qed.

Lemma digit_of_hex base b : is_digit_of base b = isxdigit b && (from_hex b <? base).
Proof. unfold is_digit_of. rewrite digit_value_from_hex. destruct (isxdigit b); reflexivity. Qed.

Lemma dval_hex b : isxdigit b = true -> dval b = from_hex b.
Proof. intros H. unfold dval. rewrite digit_value_from_hex, H. reflexivity. Qed.

Lemma from_hex_cases b : isxdigit b = true ->
  (48 <= b <= 57 /\ from_hex b = b - 48) \/ (97 <= b <= 102 /\ from_hex b = b - 87) \/
  (65 <= b <= 70 /\ from_hex b = b - 55).
Proof.
  unfold isxdigit, isdigit, from_hex. intros H.
  destruct ((48 <=? b) && (b <=? 57)) eqn:E1; [lia|]. destruct ((97 <=? b) && (b <=? 102)) eqn:E2; lia.
Qed.

(* glibc's digit values are those of from_hex on hexadecimal digits and 16 or more on the other
   letters: for a base up to 16 its digits are the grammar's *)
Lemma strtoul_hex b : isxdigit b = true -> strtoul_digit b = Some (from_hex b).
Proof.
  intros H. unfold strtoul_digit, isdigit, islower, isupper.
  destruct (from_hex_cases b H) as [[Hr ->]|[[Hr ->]|[Hr ->]]].
  - replace ((48 <=? b) && (b <=? 57)) with true by lia. reflexivity.
  - replace ((48 <=? b) && (b <=? 57)) with false by lia.
    replace ((97 <=? b) && (b <=? 122)) with true by lia. f_equal. lia.
  - replace ((48 <=? b) && (b <=? 57)) with false by lia.
    replace ((97 <=? b) && (b <=? 122)) with false by lia.
    replace ((65 <=? b) && (b <=? 90)) with true by lia. f_equal. lia.
Qed.

Lemma base_digit_hex base b : base <= 16 -> is_base_digit base b = isxdigit b && (from_hex b <? base).
Proof.
  intros Hb. unfold is_base_digit. destruct (isxdigit b) eqn:H; [rewrite strtoul_hex by exact H; reflexivity|].
  unfold strtoul_digit, isxdigit, isdigit, islower, isupper in *.
  replace ((48 <=? b) && (b <=? 57)) with false by lia.
  destruct ((97 <=? b) && (b <=? 122)) eqn:E2; [cbv iota beta; lia|].
  destruct ((65 <=? b) && (b <=? 90)) eqn:E3; [cbv iota beta; lia|reflexivity].
Qed.

Lemma digit_of_base base b : base <= 16 -> is_digit_of base b = is_base_digit base b.
Proof. intros Hb. rewrite digit_of_hex, base_digit_hex by exact Hb. reflexivity. Qed.

Lemma digit_facts base b : is_digit_of base b = true ->
  isxdigit b = true /\ dval b = from_hex b /\ dval b < base /\ strtoul_digit b = Some (dval b).
Proof.
  intros H. rewrite digit_of_hex in H. apply andb_prop in H. destruct H as [Hx Hlt].
  rewrite (dval_hex b Hx). repeat split; [exact Hx|apply N.ltb_lt, Hlt|apply strtoul_hex, Hx].
Qed.

Lemma hexdig_isxdigit b : is_digit_of 16 b = isxdigit b.
Proof.
  rewrite digit_of_hex. destruct (isxdigit b) eqn:H; [|reflexivity].
  destruct (from_hex_cases b H) as [[Hr ->]|[[Hr ->]|[Hr ->]]]; lia.
Qed.

Lemma low_digit base b : base <= 10 -> is_digit_of base b = (48 <=? b) && (b <? 48 + base).
Proof.
  intros Hb. rewrite digit_of_hex. destruct (isxdigit b) eqn:H; cbn [andb].
  - destruct (from_hex_cases b H) as [[Hr ->]|[[Hr ->]|[Hr ->]]]; lia.
  - unfold isxdigit, isdigit in H. lia.
Qed.

Lemma octdig_is_octal b : is_digit_of 8 b = is_octal b.
Proof. rewrite low_digit by lia. unfold is_octal. lia. Qed.
Lemma decdig_isdigit b : is_digit_of 10 b = isdigit b.
Proof. rewrite low_digit by lia. unfold isdigit. lia. Qed.
Lemma bindig_01 b : is_digit_of 2 b = ((b =? 48) || (b =? 49)).
Proof. rewrite low_digit by lia. lia. Qed.

Lemma oct_digit d : is_digit_of 8 d = true -> d - 48 = dval d.
Proof.
  intros H. destruct (digit_facts 8 d H) as (_ & -> & _). rewrite octdig_is_octal in H.
  unfold is_octal, from_hex in *. replace ((48 <=? d) && (d <=? 57)) with true by lia. reflexivity.
Qed.

Definition two32 : N := 4294967296.

(* the step of [digits_value 16]: [fold_left hstep ds 0] is [digits_value 16 ds] by conversion *)
Definition hstep (a ch : N) : N := a * 16 + dval ch.

(* the C code reduces the accumulator modulo 2^32 in every round, the theorems reduce the grammar's value once;
   so the two digit loops (hex_loop here, read_universal_char in UcnProofs) are stated for an accumulator
   [acc mod two32], and this is their round *)
Lemma hstep_mod a d : (a mod two32 * 16 + dval d) mod two32 = hstep a d mod two32.
Proof.
  unfold hstep. rewrite <- N.add_mod_idemp_l, N.mul_mod_idemp_l, N.add_mod_idemp_l by discriminate. reflexivity.
Qed.

Lemma hex_loop_spec ds : forall acc rest,
  forallb (is_digit_of 16) ds = true -> isxdigit (peek rest) = false ->
  hex_loop (acc mod two32) (ds ++ rest) = (fold_left hstep ds acc mod two32, rest).
Proof.
  induction ds as [|d ds IH]; intros acc rest Hds Hrest.
  - cbn [app fold_left].
    destruct rest as [|b r]; [reflexivity|]. cbn [hex_loop]. cbn [peek] in Hrest. rewrite Hrest. reflexivity.
  - apply andb_prop in Hds. destruct Hds as [Hd Hds].
    destruct (digit_facts 16 d Hd) as (Hx & Hv & _).
    cbn [app hex_loop fold_left]. rewrite Hx. unfold u32. rewrite N.shiftl_mul_pow2, <- Hv.
    rewrite <- IH by assumption. f_equal. apply hstep_mod.
Qed.

Lemma simple_escape_read e rest :
  read_escaped_char (simple_char e :: rest) = Ok (simple_value e, rest).
Proof. destruct e; reflexivity. Qed.

Lemma digits_value_bound base ds : forallb (is_digit_of base) ds = true ->
  digits_value base ds < base ^ N.of_nat (length ds).
Proof.
  intros Hds. unfold digits_value.
  (* each round of the Horner scheme multiplies the room acc + 1 by the base *)
  enough (H : forall acc, fold_left (fun a ch => a * base + dval ch) ds acc + 1 <= (acc + 1) * base ^ N.of_nat (length ds))
    by (specialize (H 0); lia).
  induction ds as [|d ds IH]; intros acc; cbn [fold_left length]; [cbn; lia|].
  destruct (andb_prop _ _ Hds) as [Hd Hds']. destruct (digit_facts base d Hd) as (_ & _ & Hlt & _).
  rewrite Nat2N.inj_succ, N.pow_succ_r'. specialize (IH Hds' (acc * base + dval d)). nia.
Qed.

Lemma octal_value_bound ds : (length ds <= 3)%nat -> forallb (is_digit_of 8) ds = true -> digits_value 8 ds < 512.
Proof.
  intros Hl Hds. apply (N.lt_le_trans _ _ _ (digits_value_bound 8 ds Hds)).
  change 512 with (8 ^ 3). apply N.pow_le_mono_r; lia.
Qed.

Lemma read_escaped_char_x p :
  read_escaped_char (120 :: p) = if isxdigit (peek p) then Ok (hex_loop 0 p) else Err ErrHexEscape.
Proof. reflexivity. Qed.

(* modulo 2^32: the C code accumulates in an int, kept as its 32-bit pattern *)
Theorem read_escaped_char_spec e rest :
  valid_escape e = true -> escape_ends_before e (peek rest) = true ->
  read_escaped_char (spell_escape_body e ++ rest) = Ok (escape_value e mod two32, rest).
Proof.
  intros Hv He. destruct e as [s| |ds|ds]; cbn [spell_escape_body escape_value app].
  - rewrite simple_escape_read. f_equal. f_equal. symmetry. apply N.mod_small. destruct s; reflexivity.
  - reflexivity.
  - (* octal: up to three digits, a value below 512; the C code tests for a second and a third
       digit and builds the value by shifts, which is the fold of the spec up to conversion *)
    cbn [valid_escape] in Hv. cbn [escape_ends_before] in He.
    apply andb_prop in Hv. destruct Hv as [Hlen Hds]. apply andb_prop in Hlen. destruct Hlen as [Hl1 Hl3].
    apply Nat.leb_le in Hl3.
    rewrite N.mod_small by (pose proof (octal_value_bound ds Hl3 Hds); unfold two32; lia).
    destruct ds as [|d1 ds]; [discriminate|]. destruct (andb_prop _ _ Hds) as [H1 Hds1].
    cbn [app read_escaped_char]. rewrite <- !octdig_is_octal, H1, !N.shiftl_mul_pow2, (oct_digit d1 H1).
    destruct ds as [|d2 ds]; cbn [app peek tl length Nat.eqb orb] in *.
    { destruct (is_digit_of 8 (peek rest)); [discriminate|reflexivity]. }
    destruct (andb_prop _ _ Hds1) as [H2 Hds2]. rewrite H2, (oct_digit d2 H2).
    destruct ds as [|d3 ds]; cbn [app peek tl length Nat.eqb orb] in *.
    { destruct (is_digit_of 8 (peek rest)); [discriminate|reflexivity]. }
    destruct (andb_prop _ _ Hds2) as [H3 _]. rewrite H3, (oct_digit d3 H3).
    destruct ds; [reflexivity|cbn [length] in Hl3; lia].
  - cbn [valid_escape] in Hv. cbn [escape_ends_before] in He.
    apply andb_prop in Hv. destruct Hv as [Hlen Hds].
    destruct ds as [|d ds]; [discriminate|]. destruct (andb_prop _ _ Hds) as [Hd _].
    rewrite read_escaped_char_x. change (peek ((d :: ds) ++ rest)) with d. rewrite <- hexdig_isxdigit, Hd.
    rewrite (hex_loop_spec (d :: ds) 0); [reflexivity|exact Hds|].
    rewrite <- hexdig_isxdigit. destruct (is_digit_of 16 (peek rest)); [discriminate|reflexivity].
Qed.

Lemma rfc3629_high_bytes c : 128 <= c -> forallb (fun b => 128 <=? b) (rfc3629 c) = true.
Proof.
  intros Hlo. assert (H : forall t x, 128 <= t -> (128 <=? t + x) = true) by (intros; lia).
  unfold rfc3629. replace (c <? 128) with false by lia.
  destruct (c <? 2048), (c <? 65536); cbn [forallb]; rewrite !H by discriminate; reflexivity.
Qed.

Lemma rfc3629_low c : c < 128 -> rfc3629 c = [c].
Proof. intros H. unfold rfc3629. replace (c <? 128) with true by lia. reflexivity. Qed.

Lemma rfc3629_length c : (1 <= length (rfc3629 c) <= 4)%nat.
Proof. unfold rfc3629. destruct (c <? 128), (c <? 2048), (c <? 65536); cbn [length]; lia. Qed.

Lemma is_scalar_bound c : is_scalar c = true -> c < 1114112.
Proof. unfold is_scalar. lia. Qed.

(* a byte that neither ends nor escapes anything, for delimiter q *)
Definition plain_byte (q b : N) : bool := negb (b =? q) && negb (b =? 10) && negb (b =? 92) && negb (b =? 0).

Lemma valid_chr_scalar q c : valid_item q (IChr c) = true -> c < 1114112.
Proof. cbn [valid_item]. rewrite !andb_true_iff. intros [[[[H _] _] _] _]. exact (is_scalar_bound c H). Qed.

Lemma valid_chr_bytes q c : (q = 34 \/ q = 39) -> valid_item q (IChr c) = true -> forallb (plain_byte q) (rfc3629 c) = true.
Proof.
  intros Hq Hv. cbn [valid_item] in Hv.
  destruct (N.ltb_spec c 128) as [Hs|Hl].
  - rewrite rfc3629_low by exact Hs. cbn [forallb]. unfold plain_byte. lia.
  - pose proof (rfc3629_high_bytes c Hl) as Hh.
    rewrite forallb_forall in *. intros b Hin. specialize (Hh b Hin). unfold plain_byte. lia.
Qed.

Lemma digits_plain q ds : (q = 34 \/ q = 39) -> forallb (is_digit_of 16) ds = true -> forallb (plain_byte q) ds = true.
Proof.
  intros Hq H. rewrite forallb_forall in *. intros b Hin. specialize (H b Hin).
  rewrite hexdig_isxdigit in H. unfold isxdigit, isdigit, plain_byte in *. lia.
Qed.

Lemma octal_is_hex ds : forallb (is_digit_of 8) ds = true -> forallb (is_digit_of 16) ds = true.
Proof.
  intros H. rewrite forallb_forall in *. intros b Hin. specialize (H b Hin).
  unfold is_digit_of in *. destruct (digit_value b); [lia|discriminate].
Qed.

(* the spelling of an escape is a backslash pair - whose second character is not the u or U of a
   universal character name - followed by hexadecimal digits, which are plain bytes ([digits_plain]) *)
Lemma escape_shape e : valid_escape e = true ->
  exists x ds, spell_escape_body e = x :: ds /\ forallb (is_digit_of 16) ds = true /\ x <> 117 /\ x <> 85.
Proof.
  intros Hv. destruct e as [s| |ds|ds]; cbn [spell_escape_body valid_escape] in *.
  - exists (simple_char s), []. repeat split; destruct s; discriminate.
  - exists 101, []. repeat split; discriminate.
  - apply andb_prop in Hv. destruct Hv as [Hl Hds]. destruct ds as [|d ds]; [discriminate|].
    exists d, ds. pose proof (octal_is_hex _ Hds) as Hh. cbn [forallb] in Hh, Hds.
    apply andb_prop in Hh. destruct Hh as [_ Hh]. apply andb_prop in Hds. destruct Hds as [Hd _].
    rewrite octdig_is_octal in Hd. unfold is_octal in Hd.
    repeat split; [exact Hh|lia|lia].
  - apply andb_prop in Hv. destruct Hv as [Hl Hds]. exists 120, ds. repeat split; [exact Hds|discriminate|discriminate].
Qed.

Lemma spell_items_cons it l : spell_items (it :: l) = spell_item it ++ spell_items l.
Proof. reflexivity. Qed.

(* both searches for the closing quote (string_literal_end, char_literal_end) step over a plain
   byte and over a backslash pair, hence over the spelling of every valid element *)
Section Walk.
  Variables (A : Type) (W : list N -> A) (q : N).
  Hypothesis Hq : q = 34 \/ q = 39.
  Hypothesis W_plain : forall b more, plain_byte q b = true -> W (b :: more) = W more.
  Hypothesis W_pair : forall x more, W (92 :: x :: more) = W more.

  Lemma walk_plain bs more : forallb (plain_byte q) bs = true -> W (bs ++ more) = W more.
  Proof.
    induction bs as [|b bs IH]; intros H; [reflexivity|].
    destruct (andb_prop _ _ H) as [Hb Hbs].
    cbn [app]. rewrite W_plain by exact Hb. apply IH. exact Hbs.
  Qed.

  Lemma walk_item it more : valid_item q it = true -> W (spell_item it ++ more) = W more.
  Proof.
    intros Hv. destruct it as [c|e].
    - apply walk_plain. apply valid_chr_bytes; assumption.
    - cbn [valid_item] in Hv. destruct (escape_shape e Hv) as [x [ds [Hsp [Hds _]]]].
      cbn [spell_item]. unfold spell_escape. rewrite Hsp. cbn [app]. rewrite W_pair.
      apply walk_plain. apply digits_plain; assumption.
  Qed.

  Lemma walk_items l more : forallb (valid_item q) l = true -> W (spell_items l ++ more) = W more.
  Proof.
    induction l as [|it l IH]; intros H; [reflexivity|].
    destruct (andb_prop _ _ H) as [Hit Hl].
    rewrite spell_items_cons, <- app_assoc, walk_item by exact Hit. apply IH. exact Hl.
  Qed.
End Walk.

Lemma sle_walk l more : forallb (valid_item 34) l = true ->
  string_literal_end (spell_items l ++ more) = string_literal_end more.
Proof.
  apply (walk_items _ string_literal_end 34); [left; reflexivity| |reflexivity].
  intros b more' Hb. unfold plain_byte in Hb. cbn [string_literal_end].
  replace (b =? 34) with false by lia. replace (b =? 10) with false by lia.
  replace (b =? 92) with false by lia. reflexivity.
Qed.

Lemma sle_items l rest : forallb (valid_item 34) l = true ->
  string_literal_end (spell_items l ++ 34 :: rest) = Ok (34 :: rest).
Proof. intros H. rewrite sle_walk by exact H. reflexivity. Qed.

Definition item_follow (it : item) (next : N) : bool :=
  match it with IEsc e => escape_ends_before e next | IChr _ => true end.

(* a run of the loop from p, which is not behind end, that stores r.  A round shortens p and the model gives
   the loop the length of the text as fuel, so any fuel that covers the bytes of p does *)
Definition loops (elem : list N -> res (list N * list N)) (endlen : nat) (p r : list N) : Prop :=
  (endlen <= length p)%nat /\ forall f, (length p <= f)%nat -> lit_loop elem f endlen p = Ok r.

Lemma loops_end elem p : loops elem (length p) p [].
Proof.
  split; [apply le_n|]. intros f _. destruct f; cbn [lit_loop]; rewrite Nat.leb_refl; reflexivity.
Qed.

Lemma loops_step elem endlen p us p' r :
  elem p = Ok (us, p') -> (length p' < length p)%nat ->
  loops elem endlen p' r -> loops elem endlen p (us ++ r).
Proof.
  intros He Hl [Hle H]. split; [lia|]. intros f Hf. destruct f as [|f]; [lia|]. cbn [lit_loop].
  replace (length p <=? endlen)%nat with false by lia. rewrite He, H by lia. reflexivity.
Qed.

Definition reads_items (elem : list N -> res (list N * list N)) (U : item -> list N) : Prop :=
  forall it more endlen r,
    valid_item 34 it = true -> item_follow it (peek more) = true ->
    loops elem endlen more r -> loops elem endlen (spell_item it ++ more) (U it ++ r).

Lemma peek_app a q t : peek (a ++ q :: t) = first_byte a q.
Proof. destruct a as [|x a']; reflexivity. Qed.

Section Loop.
  Variable elem : list N -> res (list N * list N).
  Variable U : item -> list N.
  Hypothesis Hitem : reads_items elem U.

  Lemma loop_items l : forall rest, valid_items 34 l = true ->
    loops elem (S (length rest)) (spell_items l ++ 34 :: rest) (concat (map U l)).
  Proof.
    induction l as [|it l IH]; intros rest Hv.
    - exact (loops_end elem (34 :: rest)).
    - unfold valid_items in Hv. cbn [forallb munch_ok] in Hv.
      apply andb_prop in Hv. destruct Hv as [Hv1 Hv2]. apply andb_prop in Hv1. destruct Hv1 as [Hit Hl].
      apply andb_prop in Hv2. destruct Hv2 as [Hfol Hm].
      rewrite spell_items_cons, <- app_assoc. apply Hitem.
      + exact Hit.
      + rewrite peek_app. destruct it as [c|e]; [reflexivity|exact Hfol].
      + apply IH. unfold valid_items. rewrite Hl, Hm. reflexivity.
  Qed.

  Theorem read_literal_items l rest :
    valid_items 34 l = true ->
    read_literal_with elem (spell_items l ++ 34 :: rest) = Ok (concat (map U l) ++ [0], rest).
  Proof.
    intros Hv. unfold read_literal_with.
    assert (Hl : forallb (valid_item 34) l = true) by (unfold valid_items in Hv; apply andb_prop in Hv; tauto).
    rewrite sle_items by exact Hl.
    change (length (34 :: rest)) with (S (length rest)).
    rewrite (proj2 (loop_items l rest Hv)) by apply le_n. reflexivity.
  Qed.
End Loop.

Definition trunc_units (bits : N) (p : sprefix) (it : item) : list N :=
  match it with
  | IEsc e => [escape_value e mod 2 ^ bits]
  | IChr _ => item_units p it
  end.

Lemma narrow_copy bs : forall more endlen r,
  forallb (plain_byte 34) bs = true ->
  loops narrow_elem endlen more r -> loops narrow_elem endlen (bs ++ more) (bs ++ r).
Proof.
  induction bs as [|b bs IH]; intros more endlen r Hp H; [exact H|].
  destruct (andb_prop _ _ Hp) as [Hb Hbs].
  apply (loops_step _ _ _ [b] (bs ++ more)).
  - cbn [app narrow_elem]. unfold plain_byte in Hb. replace (b =? 92) with false by lia. reflexivity.
  - cbn [app length]. rewrite app_length. lia.
  - apply IH; assumption.
Qed.

Lemma mod_mul_mod x b c : b <> 0 -> c <> 0 -> (x mod (b * c)) mod b = x mod b.
Proof.
  intros Hb Hc. rewrite N.mod_mul_r by assumption.
  rewrite (N.mul_comm b), N.mod_add, N.mod_mod by exact Hb. reflexivity.
Qed.

(* a round on an escape sequence, for a loop that hands a backslash to esc_elem: one unit, the
   value cut to the element width *)
Lemma esc_round elem trunc bits p e more endlen r :
  (forall p1, elem (92 :: p1) = esc_elem trunc p1) -> (forall x, trunc (x mod two32) = x mod 2 ^ bits) ->
  valid_escape e = true -> escape_ends_before e (peek more) = true ->
  loops elem endlen more r -> loops elem endlen (spell_escape e ++ more) (trunc_units bits p (IEsc e) ++ r).
Proof.
  intros Helem Htr Hv Hfol. unfold spell_escape. cbn [app].
  apply loops_step; [|cbn [length]; rewrite app_length; lia].
  rewrite Helem. unfold esc_elem. rewrite read_escaped_char_spec by assumption. cbn [trunc_units]. rewrite Htr. reflexivity.
Qed.

Lemma chr_decodes q c more : (q = 34 \/ q = 39) -> valid_item q (IChr c) = true ->
  exists b l, rfc3629 c ++ more = b :: l /\ (b =? 92) = false /\ decode_utf8 (b :: l) = DecOk c more.
Proof.
  intros Hq Hv. pose proof (valid_chr_bytes q c Hq Hv) as Hp. pose proof (valid_chr_scalar _ _ Hv) as Hc.
  pose proof (decode_rfc3629 c more ltac:(lia)) as Hd.
  destruct (rfc3629 c) as [|b l] eqn:E; [pose proof (rfc3629_length c) as Hl; rewrite E in Hl; cbn in Hl; lia|].
  exists b, (l ++ more). repeat split; [|exact Hd].
  destruct (andb_prop _ _ Hp) as [Hb _]. unfold plain_byte in Hb. lia.
Qed.

(* a round on a source character, for a loop that hands anything else to decode_utf8 *)
Lemma dec_round elem F us c more endlen r :
  (forall b p1, (b =? 92) = false -> elem (b :: p1) = dec_elem F (b :: p1)) ->
  valid_item 34 (IChr c) = true -> F c = us ->
  loops elem endlen more r -> loops elem endlen (rfc3629 c ++ more) (us ++ r).
Proof.
  intros Helem Hv HF. destruct (chr_decodes 34 c more (or_introl eq_refl) Hv) as [b [l [E [Hb Hd]]]].
  apply loops_step; [|rewrite app_length; pose proof (rfc3629_length c); lia].
  rewrite E, Helem by exact Hb. unfold dec_elem. rewrite Hd, HF. reflexivity.
Qed.

Lemma narrow_item (p : sprefix) : (p = SPnone \/ p = SPu8) -> reads_items narrow_elem (trunc_units 8 p).
Proof.
  intros Hp it more endlen r Hv Hfol. destruct it as [c|e].
  - cbn [spell_item trunc_units item_units].
    replace (match p with SPnone | SPu8 => rfc3629 c | SPu => utf16_spec c | _ => [c] end) with (rfc3629 c)
      by (destruct Hp; subst p; reflexivity).
    apply narrow_copy. apply valid_chr_bytes; [left; reflexivity|exact Hv].
  - apply (esc_round narrow_elem to_char); [reflexivity| |exact Hv|exact Hfol].
    intros x. exact (mod_mul_mod x (2 ^ 8) (2 ^ 24) ltac:(discriminate) ltac:(discriminate)).
Qed.

Lemma utf16_item : reads_items utf16_elem (trunc_units 16 SPu).
Proof.
  intros it more endlen r Hv Hfol. destruct it as [c|e].
  - apply (dec_round utf16_elem utf16_units); [|exact Hv|].
    + intros b p1 Hb. cbn [utf16_elem]. rewrite Hb. reflexivity.
    + apply utf16_is_spec. exact (valid_chr_scalar _ _ Hv).
  - apply (esc_round utf16_elem to_u16); [reflexivity| |exact Hv|exact Hfol].
    intros x. exact (mod_mul_mod x (2 ^ 16) (2 ^ 16) ltac:(discriminate) ltac:(discriminate)).
Qed.

Lemma utf32_item (p : sprefix) : (p = SPU \/ p = SPL) -> reads_items utf32_elem (trunc_units 32 p).
Proof.
  intros Hp it more endlen r Hv Hfol. destruct it as [c|e].
  - cbn [trunc_units item_units].
    replace (match p with SPnone | SPu8 => rfc3629 c | SPu => utf16_spec c | _ => [c] end) with [c]
      by (destruct Hp; subst p; reflexivity).
    apply (dec_round utf32_elem (fun c => [u32 c])); [|exact Hv|].
    + intros b p1 Hb. cbn [utf32_elem]. rewrite Hb. reflexivity.
    + pose proof (valid_chr_scalar _ _ Hv). unfold u32. rewrite N.mod_small by lia. reflexivity.
  - apply (esc_round utf32_elem u32); [reflexivity| |exact Hv|exact Hfol].
    intros x. apply N.mod_mod. discriminate.
Qed.

Definition model_sprefix (p : sprefix) : str_prefix :=
  match p with SPnone => StrNone | SPu8 => StrU8 | SPu => StrU16 | SPU => StrU32 | SPL => StrWide end.
Definition model_elem_ty (t : elem_ty) : c_elem_ty :=
  match t with ElChar => TyChar | ElU16 => TyUShort | ElU32 => TyUInt | ElWchar => TyInt end.

(* the units chibicc stores: each escape value truncated to the element width *)
Definition stored_units (p : sprefix) (l : list item) : list N :=
  concat (map (trunc_units (elem_bits (string_elem_ty p)) p) l) ++ [0].

Theorem string_token_stored p l rest :
  valid_items 34 l = true ->
  string_token (model_sprefix p) (spell_items l ++ 34 :: rest) =
    Ok (model_elem_ty (string_elem_ty p), stored_units p l, rest).
Proof.
  intros Hv. unfold stored_units.
  destruct p; cbn [model_sprefix string_token string_elem_ty model_elem_ty elem_bits];
    unfold read_string_literal, read_utf16_string_literal, read_utf32_string_literal.
  - rewrite (read_literal_items narrow_elem (trunc_units 8 SPnone) (narrow_item SPnone (or_introl eq_refl))) by exact Hv. reflexivity.
  - rewrite (read_literal_items narrow_elem (trunc_units 8 SPu8) (narrow_item SPu8 (or_intror eq_refl))) by exact Hv. reflexivity.
  - rewrite (read_literal_items utf16_elem (trunc_units 16 SPu) utf16_item) by exact Hv. reflexivity.
  - rewrite (read_literal_items utf32_elem (trunc_units 32 SPU) (utf32_item SPU (or_introl eq_refl))) by exact Hv. reflexivity.
  - rewrite (read_literal_items utf32_elem (trunc_units 32 SPL) (utf32_item SPL (or_intror eq_refl))) by exact Hv. reflexivity.
Qed.

Lemma stored_is_spec p l : items_in_range p l = true -> stored_units p l = spec_string_units p l.
Proof.
  intros Hr. unfold stored_units, spec_string_units. f_equal. f_equal.
  unfold items_in_range in Hr. rewrite forallb_forall in Hr.
  apply map_ext_in. intros it Hin. specialize (Hr it Hin). destruct it as [c|e]; [reflexivity|].
  cbn [trunc_units item_units]. unfold escape_in_range in Hr. rewrite N.mod_small by lia. reflexivity.
Qed.

Lemma escape_ends_before_quote e q : (q = 34 \/ q = 39) -> escape_ends_before e q = true.
Proof. intros [-> | ->]; destruct e as [s| |ds|ds]; cbn [escape_ends_before]; try reflexivity; apply orb_true_r. Qed.

(* the int that read_char_literal computes for one element *)
Definition item_int (it : item) : N :=
  match it with IChr c => c | IEsc e => escape_value e mod two32 end.

Lemma read_char_literal_gen it tail : valid_item 39 it = true -> item_follow it (peek tail) = true ->
  read_char_literal (spell_item it ++ tail) =
    match char_literal_end tail with Some r => Ok (item_int it, r) | None => Err ErrUnclosedChar end.
Proof.
  intros Hv Hfol. destruct it as [c|e].
  - destruct (chr_decodes 39 c tail (or_intror eq_refl) Hv) as [b [l [E [Hb Hd]]]].
    pose proof (valid_chr_scalar _ _ Hv) as Hc.
    cbn [spell_item item_int]. rewrite E. cbn [read_char_literal]. rewrite Hb, Hd.
    unfold u32. rewrite N.mod_small by lia. reflexivity.
  - cbn [valid_item] in Hv. cbn [spell_item item_int]. unfold spell_escape. cbn [app read_char_literal].
    change (92 =? 92) with true. cbn iota.
    rewrite read_escaped_char_spec; [reflexivity|exact Hv|exact Hfol].
Qed.

Lemma read_char_literal_item it rest : valid_item 39 it = true ->
  read_char_literal (spell_item it ++ 39 :: rest) = Ok (item_int it, rest).
Proof.
  intros Hv. rewrite read_char_literal_gen; [reflexivity|exact Hv|].
  destruct it as [c|e]; [reflexivity|]. apply escape_ends_before_quote. right. reflexivity.
Qed.

Definition model_cprefix (p : cprefix) : chr_prefix :=
  match p with CPnone => ChrNone | CPu => ChrU16 | CPU => ChrU32 | CPL => ChrWide end.
Definition model_char_ty (t : char_ty) : c_char_ty :=
  match t with CtInt => CTyInt | CtU16 => CTyUShort | CtU32 => CTyUInt end.

(* what chibicc makes of any single element, in range or not: the int is cut to the width of
   the constant's character type (and read as signed for plain and wide constants) *)
Definition stored_char_value (p : cprefix) (it : item) : Z :=
  match p with
  | CPnone => sext 8 (item_int it mod 256)
  | CPu => Z.of_N (item_int it mod 65536)
  | CPU => Z.of_N (item_int it mod two32)
  | CPL => sext 32 (item_int it mod two32)
  end.

Lemma num_int_small z : (-2147483648 <= z < 2147483648)%Z -> num_value CTyInt z = z.
Proof. intros Hz. unfold num_value. destruct (z mod 4294967296 <? 2147483648)%Z eqn:E; lia. Qed.

Lemma item_int_bound it : valid_item 39 it = true -> item_int it < two32.
Proof.
  intros Hv. destruct it as [c|e]; cbn [item_int]; [pose proof (valid_chr_scalar _ _ Hv); unfold two32; lia|].
  apply N.mod_lt. discriminate.
Qed.

Theorem char_token_stored p it rest : valid_item 39 it = true ->
  exists val, char_token (model_cprefix p) (spell_item it ++ 39 :: rest) =
                Ok (val, model_char_ty (char_const_ty p), rest) /\
              num_value (model_char_ty (char_const_ty p)) val = stored_char_value p it.
Proof.
  intros Hv. unfold char_token. rewrite read_char_literal_item by exact Hv.
  pose proof (item_int_bound it Hv) as Hx. unfold stored_char_value.
  generalize dependent (item_int it). intros x Hx. unfold two32 in *.
  destruct p; cbn [model_cprefix char_const_ty model_char_ty]; eexists; (split; [reflexivity|]).
  - unfold sext8, sext. change (2 ^ (8 - 1)) with 128. change (2 ^ 8) with 256.
    rewrite num_int_small; [reflexivity|]. destruct (x mod 256 <? 128) eqn:E; lia.
  - unfold num_value. lia.
  - unfold num_value, sext32. destruct (x <? 2147483648) eqn:E; lia.
  - unfold sext32, sext. change (2 ^ (32 - 1)) with 2147483648. change (2 ^ 32) with 4294967296.
    rewrite (N.mod_small x) by lia.
    rewrite num_int_small; [reflexivity|]. destruct (x <? 2147483648) eqn:E; lia.
Qed.

Lemma stored_char_is_spec p it v : valid_item 39 it = true ->
  spec_char_value p it = Some v -> stored_char_value p it = v.
Proof.
  intros Hv Hs. unfold stored_char_value, two32.
  destruct it as [c|e]; cbn [item_int].
  - pose proof (valid_chr_scalar _ _ Hv) as Hc.
    destruct p; cbn [spec_char_value] in Hs.
    + destruct (c <? 128) eqn:E; [|discriminate]. inversion Hs; subst v. unfold sext.
      change (2 ^ (8 - 1)) with 128. rewrite N.mod_small by lia. rewrite E. reflexivity.
    + destruct (c <? 65536) eqn:E; [|discriminate]. inversion Hs; subst v. rewrite N.mod_small by lia. reflexivity.
    + inversion Hs; subst v. rewrite N.mod_small by lia. reflexivity.
    + inversion Hs; subst v. unfold sext. change (2 ^ (32 - 1)) with 2147483648.
      rewrite N.mod_small by lia. replace (c <? 2147483648) with true by lia. reflexivity.
  - (* an escape in the range of the type is below 2^32 and below the width: no cut changes it *)
    unfold two32. destruct p; cbn [spec_char_value] in Hs;
      destruct (escape_in_range _ e) eqn:R; try discriminate;
      inversion Hs; subst v; unfold escape_in_range in R; f_equal; lia.
Qed.

Theorem char_token_spec p it rest v : valid_item 39 it = true -> spec_char_value p it = Some v ->
  exists val, char_token (model_cprefix p) (spell_item it ++ 39 :: rest) =
                Ok (val, model_char_ty (char_const_ty p), rest) /\
              num_value (model_char_ty (char_const_ty p)) val = v.
Proof.
  intros Hv Hs. destruct (char_token_stored p it rest Hv) as [val [H1 H2]].
  exists val. split; [exact H1|]. rewrite H2. apply stored_char_is_spec; assumption.
Qed.

Theorem char_unclosed_empty : read_char_literal [] = Err ErrUnclosedChar.
Proof. reflexivity. Qed.

Lemma cle_items l more : forallb (valid_item 39) l = true ->
  char_literal_end (spell_items l ++ more) = char_literal_end more.
Proof.
  apply (walk_items _ char_literal_end 39); [right; reflexivity| |reflexivity].
  intros b more' Hb. unfold plain_byte in Hb. cbn [char_literal_end].
  replace (b =? 39) with false by lia. replace (b =? 92) with false by lia. reflexivity.
Qed.

(* the search steps over one byte or two, so the claim is carried for a list and its tail *)
Lemma cle_none_tl bs : forallb (fun b => negb (b =? 39)) bs = true ->
  char_literal_end bs = None /\ char_literal_end (tl bs) = None.
Proof.
  induction bs as [|b bs IH]; intros H; [split; reflexivity|].
  destruct (andb_prop _ _ H) as [Hb Hbs]. destruct (IH Hbs) as [IH1 IH2].
  split; [|exact IH1]. cbn [char_literal_end]. replace (b =? 39) with false by lia.
  destruct (b =? 92); [|exact IH1]. destruct bs; [reflexivity|exact IH2].
Qed.

Lemma cle_none bs : forallb (fun b => negb (b =? 39)) bs = true -> char_literal_end bs = None.
Proof. intros H. apply cle_none_tl, H. Qed.

(* 'a\'' followed by ; is one token with value 97: char_literal_end steps over the escaped quote
   (/repo commit 6181ddd) *)
Example char_multichar_escaped_quote :
  valid_items 39 [IChr 97; IEsc (ESimple SQuote)] = true /\
  read_char_literal (spell_items [IChr 97; IEsc (ESimple SQuote)] ++ [39; 59]) = Ok (97, [59]).
Proof. vm_compute. split; reflexivity. Qed.
