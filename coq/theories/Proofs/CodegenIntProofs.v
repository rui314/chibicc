(* The integer instruction selection of gen_expr computes the C11 result, for all operand values.
   Everything rests on one observation: a register holding a value of type t agrees with the value
   modulo 2^n, n the operand size (R_eqmn).  An operation that is a congruence modulo 2^n may therefore
   work on whatever the register holds; one that needs the value itself reads the register at the
   signedness and operand size of t, and that reading is the value (reg_val). *)
From Chibicc Require Import Base.Mach Spec.C11Int Model.X86Int Model.CodegenInt
     Model.ConstFold Proofs.ConstFoldProofs Proofs.CastTableProofs.
Local Open Scope Z_scope.

(* congruence modulo 2^n; the cong_ lemmas of ConstFoldProofs apply to it as they stand, and so do R_eqmn, R_intro
   and R_cut of CastTableProofs *)
Definition eqmn (n a b : Z) : Prop := a mod 2 ^ n = b mod 2 ^ n.

Lemma eqmn_sym n a b : eqmn n a b -> eqmn n b a.
Proof. exact (@eq_sym _ _ _). Qed.
Lemma eqmn_trans n x y z : eqmn n x y -> eqmn n y z -> eqmn n x z.
Proof. exact (@eq_trans _ _ _ _). Qed.

Lemma eqmn_mod n a : 0 <= n -> eqmn n (a mod 2 ^ n) a.
Proof. intros. apply Zmod_mod. Qed.

Lemma half_bits w : 0 < 2 ^ (bits w - 1) /\ 2 ^ bits w = 2 * 2 ^ (bits w - 1).
Proof. destruct w; split; reflexivity. Qed.

Lemma lo_fits w z : 0 <= lo w z < 2 ^ bits w.
Proof. apply Z.mod_pos_bound. destruct (half_bits w). lia. Qed.

(* the w-bit instructions read their operands at int, unsigned, long or unsigned long *)
Definition rty (sg : bool) (w : opsz) : ity :=
  match w with W32 => if sg then I32 else U32 | W64 => if sg then I64 else U64 end.
Lemma sgn_conv w z : sgn w z = conv (rty true w) z. Proof. destruct w; reflexivity. Qed.
Lemma lo_conv w z : lo w z = conv (rty false w) z. Proof. destruct w; reflexivity. Qed.
Lemma rty_not_bool sg w : rty sg w <> IBool. Proof. destruct sg, w; discriminate. Qed.
Lemma rty_width sg w : width (rty sg w) = bits w. Proof. destruct sg, w; reflexivity. Qed.

Lemma wbits_le64 t : 0 <= wbits t <= bits W64.
Proof. unfold wbits. destruct (opw t); split; discriminate. Qed.
Lemma wbits_width t : big t -> width t = wbits t.
Proof. intros [-> | [-> | [-> | ->]]]; reflexivity. Qed.

(* what an instruction that reads or writes w' >= n bits sees and leaves *)
Lemma lo_R t w' v r : wbits t <= bits w' -> R t v r -> eqmn (wbits t) (lo w' r) v.
Proof.
  intros Hw HR. eapply eqmn_trans; [|apply R_eqmn; exact HR]. apply mod_pow2_mod. split; [apply wbits_le64|exact Hw].
Qed.
Lemma wr_R t w' z v : big t -> wbits t <= bits w' -> eqmn (wbits t) z v -> R t v (lo w' z).
Proof.
  intros Hb Hw He. apply R_cut; [apply big_not_bool, Hb|split; [exact Hw|destruct w'; discriminate]|exact He].
Qed.

Lemma reg_val t v r : in_range t v = true -> R t v r -> conv (rty (is_signed t) (opw t)) r = v.
Proof.
  intros Hr HR. apply (read_val t); [apply rty_not_bool|exact Hr|exact HR|destruct t; reflexivity|].
  rewrite rty_width. apply Z.le_refl.
Qed.
Lemma sgn_val t v r : is_signed t = true -> in_range t v = true -> R t v r -> sgn (opw t) r = v.
Proof. intros Hs Hr HR. rewrite sgn_conv, <- Hs. apply reg_val; assumption. Qed.
Lemma lo_val t v r : is_signed t = false -> in_range t v = true -> R t v r -> lo (opw t) r = v.
Proof. intros Hs Hr HR. rewrite lo_conv, <- Hs. apply reg_val; assumption. Qed.

(* equal low parts mean equal readings, so equal values: the zero flag of cmp *)
Lemma lo_eq_iff t a b ra rb : in_range t a = true -> in_range t b = true -> R t a ra -> R t b rb ->
  (lo (opw t) ra = lo (opw t) rb <-> a = b).
Proof.
  intros Ra Rb HA HB. split.
  - intros E. rewrite <- (reg_val t a ra Ra HA), <- (reg_val t b rb Rb HB).
    apply conv_cong; [apply rty_not_bool|]. rewrite rty_width. exact E.
  - intros <-. exact (eq_trans (R_eqmn _ _ _ HA) (eq_sym (R_eqmn _ _ _ HB))).
Qed.

Lemma conv_mod_big t z : big t -> eqmn (wbits t) (conv t z) z.
Proof. intros Hb. unfold eqmn. rewrite <- (wbits_width t Hb). apply conv_mod, big_not_bool, Hb. Qed.

Lemma arith_result_mod t r v : big t -> arith_result t r = Some v -> eqmn (wbits t) r v.
Proof. intros Hb H. rewrite (arith_result_conv t r v (big_not_bool t Hb) H). apply eqmn_sym, conv_mod_big, Hb. Qed.

(* p, run from s, ends with v of type rt in %rax *)
Section Done.
Variable s : xstate.
Definition done (p : list insn) (rt : ity) (v : Z) : Prop :=
  exists s', exec p s = Some s' /\ R rt v (rax s').
End Done.

Lemma exec_app p q s : exec (p ++ q) s = match exec p s with Some s' => exec q s' | None => None end.
Proof. revert s. induction p as [|i p IH]; intros s; cbn [app exec]; [reflexivity|]. destruct (exec1 i s); [apply IH|reflexivity]. Qed.

Lemma done_cons i s s1 p t v : exec1 i s = Some s1 -> done s1 p t v -> done s (i :: p) t v.
Proof. intros E (s' & E' & HR). exists s'. split; [cbn [exec]; rewrite E; exact E'|exact HR]. Qed.

(* an instruction writing, in w' >= n bits, something congruent to the value *)
Lemma wr_done t w' s i z v : big t -> wbits t <= bits w' ->
  exec1 i s = Some (wr w' s z) -> eqmn (wbits t) z v -> done s [i] t v.
Proof. intros Hb Hw E Hz. eapply done_cons; [exact E|]. eexists. split; [reflexivity|]. apply wr_R; assumption. Qed.

(* setcc %al; movz: the condition as an int.  mz is movzb %al,%rax, movzx %al,%eax or movzx %al,%rax: one meaning in X86Int *)
Lemma setcc_done s c mz bv : (forall s0, exec1 mz s0 = Some (set_rax s0 (rax s0 mod 256))) ->
  cond s c = bv -> done s [ISet c; mz] I32 (b2z bv).
Proof.
  intros Hmz <-. eexists. split; [cbn [exec exec1]; rewrite Hmz; reflexivity|]. cbn [rax set_al set_rax].
  replace ((_ - _ + _) mod 256) with (b2z (cond s c)) by (destruct (cond s c); cbn [b2z]; lia).
  destruct (cond s c); repeat split; easy.
Qed.

Section Ops.
Variable t : ity.
Hypothesis Hb : big t.
Variables (a b : Z) (s : xstate).
Hypothesis Ra : in_range t a = true.
Hypothesis Rb : in_range t b = true.
Hypothesis HA : R t a (rax s).
Hypothesis HB : R t b (rdi s).

Local Notation w := (opw t).
Local Notation n := (wbits t).

(* + - * & | ^ are congruences modulo 2^n, applied to the low parts *)
Lemma ring_done (f : Z -> Z -> Z) i v :
  (forall x x' y y', eqmn n x x' -> eqmn n y y' -> eqmn n (f x y) (f x' y')) ->
  exec1 i s = Some (wr w s (f (lo w (rax s)) (lo w (rdi s)))) ->
  eqmn n (f a b) v -> done s [i] t v.
Proof.
  intros Hf E Hv. eapply wr_done; [exact Hb|apply Z.le_refl|exact E|].
  eapply eqmn_trans; [|exact Hv]. apply Hf; apply lo_R; try apply Z.le_refl; assumption.
Qed.

Lemma bit_done (f : Z -> Z -> Z) g i :
  (forall u v k, Z.testbit (f u v) k = g (Z.testbit u k) (Z.testbit v k)) ->
  exec1 i s = Some (wr w s (f (lo w (rax s)) (lo w (rdi s)))) -> done s [i] t (conv t (f a b)).
Proof.
  intros Hf E. apply (ring_done f i); [|exact E|apply eqmn_sym, conv_mod_big, Hb].
  intros x x' y y'. apply (cong_bitwise f g), wbits_le64. exact Hf.
Qed.

(* comparisons: the flags of cmp are the C11 comparison of the operands *)
Lemma cmp_conds : exists s1, exec1 (ICmp w) s = Some s1 /\
  cond s1 CE = (a =? b) /\ cond s1 (if is_signed t then CL else CB) = (a <? b).
Proof.
  eexists. split; [reflexivity|]. split.
  - cbn [cond f_zf]. apply eq_iff_eq_true. rewrite !Z.eqb_eq. apply lo_eq_iff; assumption.
  - destruct (is_signed t) eqn:Es; cbn [cond f_lt f_cf].
    + rewrite (sgn_val t a), (sgn_val t b); auto.
    + rewrite (lo_val t a), (lo_val t b); auto.
Qed.
End Ops.

Theorem cmp_ok t a b s : in_range t a = true -> in_range t b = true -> R t a (rax s) -> R t b (rdi s) ->
  forall o, is_cmp o = true -> o <> OGt -> o <> OGe -> done s (gen_binop o t) I32 (eval_cmp o a b).
Proof.
  intros Ra Rb HA HB o Ho N1 N2. destruct (cmp_conds t a b s Ra Rb HA HB) as (s1 & E1 & Ce & Cl).
  assert (G : forall c bv, cond s1 c = bv -> done s [ICmp (opw t); ISet c; IMovzbRax] I32 (b2z bv)).
  { intros c bv E. eapply done_cons; [exact E1|]. apply setcc_done; [reflexivity|exact E]. }
  destruct o; try discriminate Ho; try congruence; cbn [gen_binop eval_cmp]; apply G.
  - exact Ce.
  - cbn [cond] in *. rewrite Ce. reflexivity.
  - exact Cl.
  - destruct (is_signed t); cbn [cond] in *; rewrite Ce, Cl; lia.
Qed.

Lemma sgn_above wd x c : sgn wd (x - lo wd x + c) = sgn wd c.
Proof.
  apply (sx_cong (bits wd)). unfold lo. rewrite <- (Z_mod_plus_full c (x / 2 ^ bits wd)). f_equal.
  pose proof (Z_div_mod_eq_full x (2 ^ bits wd)). lia.
Qed.

Lemma sgn_lo wd z : (if sgn wd z <? 0 then -1 else 0) * 2 ^ bits wd + lo wd z = sgn wd z.
Proof.
  pose proof (lo_fits wd z). destruct (half_bits wd). unfold sgn. fold (lo wd z). cbv zeta.
  destruct (_ <=? _) eqn:E1; destruct (_ <? 0) eqn:E2; lia.
Qed.

(* cqo / cdq: ?dx:?ax becomes the sign extension of ?ax.  X86Int's cdq keeps the upper half of %rdx, which idiv %edi
   does not read: sgn_above *)
Lemma sext_exec wd s : exists s1, exec1 (match wd with W64 => ICqo | W32 => ICdq end) s = Some s1 /\
  rax s1 = rax s /\ rdi s1 = rdi s /\ sgn wd (rdx s1) * 2 ^ bits wd + lo wd (rax s1) = sgn wd (rax s).
Proof.
  assert (S1 : forall c : bool, sgn wd (if c then 2 ^ bits wd - 1 else 0) = if c then -1 else 0) by (destruct wd, c; reflexivity).
  destruct wd; (eexists; split; [reflexivity|]); cbn [rax rdi rdx]; repeat split.
  - rewrite sgn_above, S1. apply sgn_lo.
  - rewrite S1. apply sgn_lo.
Qed.

Lemma idiv_exec wd s1 A B :
  sgn wd (rdx s1) * 2 ^ bits wd + lo wd (rax s1) = A -> sgn wd (rdi s1) = B -> B <> 0 ->
  - 2 ^ (bits wd - 1) <= Z.quot A B < 2 ^ (bits wd - 1) ->
  exists s', exec1 (IIdiv wd) s1 = Some s' /\ rax s' = lo wd (Z.quot A B) /\ rdx s' = lo wd (Z.rem A B).
Proof.
  intros H1 H2 H3 H4. unfold exec1. rewrite H1, H2.
  replace (B =? 0) with false by lia.
  replace ((Z.quot A B <? - 2 ^ (bits wd - 1)) || (2 ^ (bits wd - 1) <=? Z.quot A B)) with false by lia.
  eexists. split; [reflexivity|]. split; reflexivity.
Qed.

Lemma udiv_le a b : 0 <= a -> 0 < b -> 0 <= a / b <= a.
Proof. intros Ha Hb. split; [apply Z.div_pos; assumption|]. apply Z.div_le_upper_bound; [exact Hb|]. nia. Qed.

Lemma udiv_exec wd s A B : lo wd (rax s) = A -> lo wd (rdi s) = B -> 0 < B ->
  exists s', exec [IMovZeroDx wd; IDiv wd] s = Some s' /\ rax s' = A / B /\ rdx s' = A mod B.
Proof.
  intros H1 H2 H3. pose proof (lo_fits wd (rax s)) as H4. cbn [exec exec1 rax rdx rdi]. rewrite H1, H2 in *.
  change (lo wd 0) with (0 mod 2 ^ bits wd). rewrite Zmod_0_l. cbn [Z.mul Z.add].
  replace (B =? 0) with false by lia. pose proof (udiv_le A B (proj1 H4) H3).
  replace (2 ^ bits wd <=? A / B) with false by lia. eexists. split; [reflexivity|]. split; reflexivity.
Qed.

Section Div.
Variable t : ity.
Hypothesis Hb : big t.
Variables (a b : Z) (s : xstate).
Hypothesis Ra : in_range t a = true.
Hypothesis Rb : in_range t b = true.
Hypothesis HA : R t a (rax s).
Hypothesis HB : R t b (rdi s).
Hypothesis Hb0 : b <> 0.
Local Notation w := (opw t).

(* cqo/cdq; idiv (signed) or mov $0,%?dx; div (unsigned) leave the quotient and the remainder;
   only the signed quotient can fail to fit *)
Lemma divmod_exec : (is_signed t = true -> in_range t (Z.quot a b) = true) ->
  exists s', exec (gen_divmod t) s = Some s' /\ R t (Z.quot a b) (rax s') /\ R t (Z.rem a b) (rdx s').
Proof.
  intros Hq. unfold gen_divmod. destruct (is_signed t) eqn:Es.
  - cbn [exec]. replace (if size_of t =? 8 then ICqo else ICdq) with (match w with W64 => ICqo | W32 => ICdq end)
      by (unfold opw; destruct (size_of t =? 8); reflexivity).
    destruct (sext_exec w s) as (s1 & -> & Ea & Ed & Hd). destruct (idiv_exec w s1 a b) as (s' & -> & Eq & Er).
    + rewrite Hd. apply sgn_val; assumption.
    + rewrite Ed. apply sgn_val; assumption.
    + exact Hb0.
    + pose proof (in_range_fits _ _ (Hq eq_refl)) as F. destruct (half_bits w). unfold wmin, wbits in F. rewrite Es in F. lia.
    + exists s'. rewrite Eq, Er. split; [reflexivity|]. split; apply (wr_R t w); try apply Z.le_refl; auto; reflexivity.
  - pose proof (in_range_fits _ _ Ra) as Fa. pose proof (in_range_fits _ _ Rb) as Fb. unfold wmin in Fa, Fb. rewrite Es in Fa, Fb.
    destruct (udiv_exec w s a b) as (s' & E & Eq & Er); try (apply lo_val; assumption); [lia|].
    rewrite Z.quot_div_nonneg, Z.rem_mod_nonneg by lia.
    pose proof (udiv_le a b ltac:(lia) ltac:(lia)). pose proof (Z.mod_pos_bound a b ltac:(lia)).
    assert (2 ^ wbits t <= 2 ^ 64) by (apply Z.pow_le_mono_r; [lia|apply wbits_le64]).
    exists s'. rewrite Eq, Er. split; [exact E|]. split; (apply R_intro; [apply big_not_bool, Hb|lia|reflexivity]).
Qed.

Theorem div_ok v : arith_result t (Z.quot a b) = Some v -> done s (gen_binop Div t) t v.
Proof.
  intros H. destruct divmod_exec as (s' & E & R1 & _).
  - intros Es. unfold arith_result in H. rewrite Es in H. destruct (in_range t (Z.quot a b)); [reflexivity|discriminate].
  - exists s'. split; [exact E|]. apply R_intro; [apply big_not_bool, Hb|apply R1|].
    eapply eqmn_trans; [apply R_eqmn; exact R1|apply arith_result_mod; assumption].
Qed.

Theorem mod_ok : in_range t (Z.quot a b) = true -> done s (gen_binop Mod t) t (Z.rem a b).
Proof.
  intros Hq. destruct (divmod_exec (fun _ => Hq)) as (s' & E & _ & R2).
  exists (set_rax s' (rdx s')). split; [|exact R2]. cbn [gen_binop]. rewrite exec_app, E. reflexivity.
Qed.
End Div.

(* the count, of any integer type, is read from %cl modulo the operand size, 2^5 or 2^6: a matter of the low 32 bits *)
Lemma count_ok tn nv r wd : R tn nv r -> 0 <= nv < bits wd -> r mod bits wd = nv.
Proof.
  intros HR Hn. rewrite <- (Z.mod_small nv (bits wd) Hn).
  destruct wd; [apply (mod_pow2_eq r nv 5 32)|apply (mod_pow2_eq r nv 6 32)]; (lia || exact (R_low _ _ _ HR)).
Qed.

Theorem shift_codegen_ok o t a tn nv s v :
  big t -> in_range t a = true -> R t a (rax s) -> R tn nv (rdi s) ->
  eval_shift o t a nv = Some v -> done s (gen_binop o t) t v.
Proof.
  intros Hb Ra HA HN H. apply eval_shift_inv in H as [Hn H]. rewrite (wbits_width t Hb) in Hn.
  assert (Hc : rdi s mod bits (opw t) = nv) by (apply (count_ok tn); assumption).
  destruct H as [[-> H] | [-> ->]]; cbn [gen_binop]; (eapply done_cons; [reflexivity|]).
  - eapply wr_done; [exact Hb|apply Z.le_refl|reflexivity|]. cbn [rcx rax]. rewrite Hc.
    eapply eqmn_trans; [apply cong_mul; [apply lo_R; [apply Z.le_refl|exact HA]|reflexivity]|].
    apply arith_result_mod; assumption.
  - (* sar of the signed view, shr of the unsigned one *)
    destruct (is_signed t) eqn:Es;
      (eapply wr_done; [exact Hb|apply Z.le_refl|reflexivity|]); cbn [rcx rax]; rewrite Hc.
    + rewrite (sgn_val t a); auto. reflexivity.
    + rewrite (lo_val t a); auto. reflexivity.
Qed.

(* neg and not are emitted on the whole of %rax, whatever the type: still congruences modulo 2^n *)
Lemma unop_done t a s (f : Z -> Z) i v : big t -> R t a (rax s) ->
  (forall x x', eqmn (wbits t) x x' -> eqmn (wbits t) (f x) (f x')) ->
  exec1 i s = Some (wr W64 s (f (lo W64 (rax s)))) -> eqmn (wbits t) (f a) v -> done s [i] t v.
Proof.
  intros Hb HA Hf E Hv. eapply wr_done; [exact Hb|apply wbits_le64|exact E|].
  eapply eqmn_trans; [|exact Hv]. apply Hf, lo_R; [apply wbits_le64|exact HA].
Qed.

Theorem neg_codegen_ok t a s v : big t -> R t a (rax s) -> arith_result t (- a) = Some v -> done s (gen_unop Neg t) t v.
Proof. intros Hb HA H. apply (unop_done t a s Z.opp _ v Hb HA (cong_opp _)); [reflexivity|apply arith_result_mod; assumption]. Qed.

Theorem not_codegen_ok t a s : big t -> R t a (rax s) -> done s (gen_unop BitNot t) t (conv t (Z.lnot a)).
Proof. intros Hb HA. apply (unop_done t a s Z.lnot _ _ Hb HA (cong_lnot _)); [reflexivity|apply eqmn_sym, conv_mod_big, Hb]. Qed.

Theorem lognot_codegen_ok t a s : in_range t a = true -> R t a (rax s) ->
  done s (gen_unop LogNot t) I32 (b2z (a =? 0)).
Proof.
  intros Ra HA. eapply done_cons; [reflexivity|]. rewrite <- (R_zero t a (rax s) Ra HA).
  apply setcc_done; reflexivity.
Qed.

Theorem arith_codegen_ok o t a b s v :
  big t -> is_arith o = true -> in_range t a = true -> in_range t b = true ->
  R t a (rax s) -> R t b (rdi s) ->
  eval_bin_arith o t a b = Some v -> done s (gen_binop o t) t v.
Proof.
  intros Hb Ho Ra Rb HA HB H.
  destruct o; try discriminate Ho; cbn [eval_bin_arith] in H.
  - apply (ring_done t Hb a b s HA HB Z.add _ v (cong_add _)); [reflexivity|apply arith_result_mod; assumption].
  - apply (ring_done t Hb a b s HA HB Z.sub _ v (cong_sub _)); [reflexivity|apply arith_result_mod; assumption].
  - apply (ring_done t Hb a b s HA HB Z.mul _ v (cong_mul _)); [reflexivity|apply arith_result_mod; assumption].
  - destruct (Z.eqb_spec b 0) as [|E0]; [discriminate|]. exact (div_ok t Hb a b s Ra Rb HA HB E0 v H).
  - destruct (Z.eqb_spec b 0) as [|E0]; [discriminate|]. destruct (in_range t (Z.quot a b)) eqn:Eq; [|discriminate].
    injection H as <-. exact (mod_ok t Hb a b s Ra Rb HA HB E0 Eq).
  - injection H as <-. apply (bit_done t Hb a b s HA HB Z.land _ _ Z.land_spec). reflexivity.
  - injection H as <-. apply (bit_done t Hb a b s HA HB Z.lor _ _ Z.lor_spec). reflexivity.
  - injection H as <-. apply (bit_done t Hb a b s HA HB Z.lxor _ _ Z.lxor_spec). reflexivity.
Qed.
