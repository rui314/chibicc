(* [Inv] adds to [WInv] what makes the probe loop end: [used] counts the non-empty slots and is below the
   capacity, so some slot is Empty, and the capacity is a power of two, so the probe sequence reaches it
   ([probe_not_exhausted]).  [Rep m d]: m is well formed and holds the dictionary d; get, delete and the
   probe-and-claim step are stated on it. *)
From Coq Require Import List PeanoNat NArith Bool Lia.
From Chibicc Require Import Model.Hashmap Proofs.HashmapWalk.
Import ListNotations.
Local Open Scope N_scope.

(* the load-factor tests of hashmap.c, freed of the division *)
Lemma leb_div h a c : c <> 0 -> (h <=? a / c) = (h * c <=? a).
Proof.
  intros Hc. destruct (N.leb_spec (h * c) a).
  - apply N.leb_le, N.div_le_lower_bound; lia.
  - apply N.leb_gt, N.div_lt_upper_bound; lia.
Qed.

(* 1073741824 = 2^30 = int_max1 / 2 is the bound on used * 100 in every hypothesis of these files: below
   it the [int] products of the load-factor tests stay below int_max1, and a capacity that the keys
   still fill to LOW_WATERMARK is below 2^30, so that rehash can double it once more *)
Lemma no_overflow u : u * 100 < 1073741824 -> (int_max1 <=? u * 100) = false.
Proof. intros H. apply N.leb_gt. unfold int_max1. lia. Qed.

(* the uint64_t wrap-around of [hash + i] is invisible modulo a power of two *)
Lemma mod_pow2_mod x a : a <= 64 -> (x mod two64) mod 2 ^ a = x mod 2 ^ a.
Proof.
  intros Ha. replace two64 with (2 ^ a * 2 ^ (64 - a)).
  - rewrite N.mod_mul_r, (N.mul_comm (2 ^ a)), N.mod_add, N.mod_mod by (apply N.pow_nonzero; lia).
    reflexivity.
  - rewrite <- N.pow_add_r. replace (a + (64 - a)) with 64 by lia. reflexivity.
Qed.

Lemma idx_pow2 h i n a : N.of_nat n = 2 ^ a -> a <= 64 ->
  idx h i n = N.to_nat ((h + N.of_nat i) mod N.of_nat n).
Proof. intros Hn Ha. unfold idx. rewrite Hn. rewrite mod_pow2_mod; auto. Qed.

(* the probe sequence visits every slot: e is reached at step (e - h) mod n *)
Lemma pseq_complete h n a e :
  N.of_nat n = 2 ^ a -> a <= 64 -> (e < n)%nat -> In e (pseq h n).
Proof.
  intros Hn Ha He. unfold pseq. apply in_map_iff.
  set (c := N.of_nat n). assert (Hc : c <> 0) by (unfold c; lia).
  pose proof (N.mod_upper_bound h c Hc) as Hh.
  set (i := (N.of_nat e + c - h mod c) mod c).
  assert (Hi : i < c) by (apply N.mod_upper_bound, Hc).
  exists (N.to_nat i). split; [|apply in_seq; unfold c in Hi; lia].
  rewrite (idx_pow2 h _ n a), N2Nat.id by auto. fold c. unfold i.
  rewrite <- (N.add_mod_idemp_l h), N.add_mod_idemp_r by auto.
  replace (h mod c + (N.of_nat e + c - h mod c)) with (N.of_nat e + 1 * c) by lia.
  rewrite N.mod_add, N.mod_small by (unfold c; lia). apply Nat2N.id.
Qed.

Section Inv.
Variable K V : Type.
Variable keqb : K -> K -> bool.
Hypothesis keqb_eq : forall a b, keqb a b = true <-> a = b.
Variable hash : K -> N.
Variable P : hm_params.

Notation slot := (slot K V).
Notation hmap := (hmap K V).
Notation probe := (probe K V keqb hash).
Notation WInv := (WInv K V keqb hash).
Notation absf := (absf K V keqb hash).
Notation upd := (upd K V keqb).

(* side conditions on the constants of hashmap.c; they hold of Gen/HashmapConsts.v ([consts_ok] in HashmapInst.v) *)
Definition params_ok : Prop :=
  (exists a0, init_size P = 2 ^ a0) /\ init_size P < int_max1 /\
  1 <= low_wm P /\ low_wm P <= high_wm P /\ high_wm P < 100 /\
  100 <= (100 - high_wm P) * init_size P.
Hypothesis Pok : params_ok.

(* What the watermarks are for: a table filled below LOW_WATERMARK is below HIGH_WATERMARK,
   and below HIGH_WATERMARK a table of at least the initial size has a slot to spare
   besides the one an insertion may take. *)
Lemma below_low_below_high u c : u * 100 < low_wm P * c -> u * 100 < high_wm P * c.
Proof.
  destruct Pok as (_ & _ & _ & Hlh & _). intros H.
  pose proof (N.mul_le_mono_r _ _ c Hlh). lia.
Qed.

Lemma below_high_room u c : init_size P <= c -> u * 100 < high_wm P * c -> u + 1 < c.
Proof.
  destruct Pok as (_ & _ & _ & _ & Hh & Hroom). intros Hi H.
  pose proof (N.mul_le_mono_l _ _ (100 - high_wm P) Hi) as Hm.
  rewrite N.mul_sub_distr_r in Hm, Hroom. lia.
Qed.

Lemma empty_below_high : 0 * 100 < high_wm P * init_size P.
Proof.
  destruct Pok as (_ & _ & Hlow & Hlh & _ & Hroom). apply N.mul_pos_pos; [lia|].
  destruct (init_size P); [rewrite N.mul_0_r in Hroom|]; lia.
Qed.

Definition nonempty (s : slot) : bool := match s with Empty => false | _ => true end.
Definition cnt (bs : list slot) : nat := length (filter nonempty bs).

Lemma cnt_cons a l : cnt (a :: l) = (Nat.b2n (nonempty a) + cnt l)%nat.
Proof. unfold cnt. simpl. destruct (nonempty a); reflexivity. Qed.

Lemma cnt_set_nth j x l :
  (j < length l)%nat ->
  (cnt (set_nth j x l) + Nat.b2n (nonempty (nth j l Empty)) = cnt l + Nat.b2n (nonempty x))%nat.
Proof.
  revert j; induction l as [|a l IH]; intros [|j] H; simpl in H; try lia;
    cbn [set_nth nth]; rewrite !cnt_cons.
  - lia.
  - specialize (IH j ltac:(lia)). lia.
Qed.

Lemma cnt_le_length l : (cnt l <= length l)%nat.
Proof. unfold cnt. induction l as [|a l IH]; simpl; [lia | destruct (nonempty a); simpl; lia]. Qed.

Lemma exists_empty l : (cnt l < length l)%nat -> exists e, (e < length l)%nat /\ nth e l Empty = Empty.
Proof.
  unfold cnt. induction l as [|a l IH]; simpl; intros H; [lia|].
  destruct a; [exists 0%nat; split; [lia|auto] | ..].
  all: destruct IH as (e & He & E); [simpl in H; lia|]; exists (S e); split; [lia|auto].
Qed.

Lemma cnt_repeat n : cnt (repeat Empty n) = 0%nat.
Proof. unfold cnt. induction n; simpl; auto. Qed.

Definition capacity_ok (m : hmap) : Prop :=
  exists a, capacity m = 2 ^ a /\ init_size P <= capacity m /\
            capacity m < int_max1 /\ used m < capacity m.

Record Inv (m : hmap) : Prop := {
  I_w : WInv (buckets m);
  I_cnt : used m = N.of_nat (cnt (buckets m));
  I_shape : buckets m = [] \/ capacity_ok m
}.

Lemma inv_empty : Inv (empty_map K V).
Proof.
  constructor; simpl; auto.
  intros k j v Hj; simpl in Hj; lia.
Qed.

(* The simulation relation: the map is well formed and holds the dictionary d.  d is a variable,
   equal to what the array denotes only pointwise, so that the lemmas about single operations
   compose along a history without any appeal to extensionality. *)
Definition Rep (m : hmap) (d : K -> option V) : Prop :=
  Inv m /\ forall x, absf (buckets m) x = d x.

Lemma inv_rep m : Inv m -> Rep m (absf (buckets m)).
Proof. intros HI. split; [exact HI | reflexivity]. Qed.

Lemma inv_capacity_ok m : Inv m -> buckets m <> [] -> capacity_ok m.
Proof. intros [_ _ [H|H]] Hne; auto; congruence. Qed.

Lemma capacity_ok_used m : capacity_ok m -> used m < capacity m.
Proof. intros (a & _ & _ & _ & H). exact H. Qed.

(* the table rehash and the first put start from *)
Lemma fresh_ok c :
  (exists a, c = 2 ^ a) -> init_size P <= c -> c < int_max1 ->
  let m0 := {| buckets := repeat (@Empty K V) (N.to_nat c); used := 0 |} in
  Rep m0 (fun _ => None) /\ capacity_ok m0 /\ capacity m0 = c.
Proof.
  intros [a Ea] Hi Hlt m0.
  assert (Hcap : capacity m0 = c) by (unfold capacity; simpl; rewrite repeat_length; apply N2Nat.id).
  assert (Hs : capacity_ok m0).
  { exists a. rewrite Hcap. simpl. pose proof (N.pow_nonzero 2 a). lia. }
  repeat apply conj; auto; simpl.
  - constructor; simpl; auto using winv_empty. rewrite cnt_repeat. reflexivity.
  - apply absf_repeat_empty; auto.
Qed.

(* A slot takes a tombstone or an entry; [u] is the C counter, which moves only when the slot
   was empty. *)
Lemma inv_write m j s u :
  Inv m -> capacity_ok m -> (j < length (buckets m))%nat -> nonempty s = true ->
  WInv (set_nth j s (buckets m)) ->
  u = (if nonempty (nth j (buckets m) Empty) then used m else used m + 1) ->
  u < capacity m ->
  let m' := {| buckets := set_nth j s (buckets m); used := u |} in
  Inv m' /\ capacity_ok m' /\ capacity m' = capacity m.
Proof.
  intros [_ Hcnt _] (a & E1 & E2 & E3 & _) Hj Hs HW' Hu Hlt m'.
  assert (Hcap : capacity m' = capacity m) by (unfold capacity; simpl; rewrite length_set_nth; auto).
  assert (Hs' : capacity_ok m') by (exists a; rewrite Hcap; auto).
  repeat apply conj; auto. constructor; simpl; auto.
  pose proof (cnt_set_nth j s _ Hj) as Hc. rewrite Hs in Hc.
  destruct (nonempty (nth j (buckets m) Empty)); simpl in Hc; lia.
Qed.

(* [used < capacity] leaves an Empty slot, and the probe sequence meets every slot *)
Lemma probe_not_exhausted m k :
  Inv m -> capacity_ok m -> probe k (buckets m) <> Exhausted.
Proof.
  intros [HW Hc _] [a [Ea [_ [Hlt Hu]]]].
  unfold capacity in *.
  destruct (exists_empty (buckets m)) as [e [He Ee]]; [lia|].
  rewrite probe_eq. eapply walk_not_exhausted; eauto.
  eapply pseq_complete; eauto.
  rewrite Ea in Hlt. change int_max1 with (2 ^ 31) in Hlt. apply N.pow_lt_mono_r_iff in Hlt; lia.
Qed.

Lemma get_ok m d k : Rep m d -> hm_get K V keqb hash m k = Ok (d k).
Proof.
  intros [HI Hd]. unfold hm_get. rewrite <- Hd, absf_probe.
  destruct (buckets m) as [|s bs'] eqn:Eb; auto.
  rewrite <- Eb.
  destruct (probe k (buckets m)) eqn:Pr; auto.
  elim (probe_not_exhausted m k); auto. apply inv_capacity_ok; congruence.
Qed.

Lemma delete_ok m d k : Rep m d ->
  exists m', hm_delete K V keqb hash m k = Ok m' /\ Rep m' (upd d k None) /\ used m' = used m.
Proof.
  intros [HI Hd]. unfold hm_delete.
  (* nothing to delete: the map stays, and so does the dictionary *)
  assert (Hnop : absf (buckets m) k = None ->
    exists m', Ok m = Ok m' /\ Rep m' (upd d k None) /\ used m' = used m).
  { intros Hk. exists m. split; [reflexivity|]. split; [|reflexivity]. split; [exact HI|].
    intros x. rewrite <- Hk, !Hd. symmetry. apply upd_same; auto. }
  destruct (buckets m) as [|s bs'] eqn:Eb; [apply Hnop; reflexivity|].
  rewrite <- Eb in *.
  assert (Hs : capacity_ok m) by (apply inv_capacity_ok; congruence).
  destruct (probe k (buckets m)) as [j v|e t|] eqn:Pr.
  - destruct (write_found K V keqb keqb_eq hash _ d _ _ _ None (I_w _ HI) Hd Pr) as (Hj & Ej & HW' & Hab).
    destruct (inv_write m j Tomb (used m) HI Hs Hj eq_refl HW') as (HI' & _).
    { rewrite Ej. reflexivity. }
    { apply capacity_ok_used, Hs. }
    eexists. split; [reflexivity|]. split; [split|]; auto.
  - apply Hnop. rewrite absf_probe, Pr. reflexivity.
  - elim (probe_not_exhausted m k); auto.
Qed.

Lemma insert_ok m d k v :
  Rep m d -> capacity_ok m -> used m * 100 < high_wm P * capacity m ->
  exists m', insert_nr K V keqb hash m k v = Ok m' /\ Rep m' (upd d k (Some v)) /\ capacity_ok m' /\
    used m' <= used m + 1 /\ capacity m' = capacity m.
Proof.
  intros [HI Hd] Hs Hload. pose proof (I_w _ HI) as HW. pose proof Hs as (a & _ & Hinit & _ & Hu).
  pose proof (below_high_room _ _ Hinit Hload) as Hroom.
  unfold insert_nr.
  destruct (probe k (buckets m)) as [j v0|e t|] eqn:Pr.
  - destruct (write_found K V keqb keqb_eq hash _ d _ _ _ (Some v) HW Hd Pr) as (Hj & Ej & HW' & Hab).
    destruct (inv_write m j (Full k v) (used m) HI Hs Hj eq_refl HW') as (HI' & Hs' & Hcap); auto.
    { rewrite Ej. reflexivity. }
    eexists. split; [reflexivity|]. repeat apply conj; auto. apply N.le_add_r.
  - destruct (write_stop K V keqb keqb_eq hash _ d _ _ _ v HW Hd Pr) as (Hc & Ec & HW' & Hab).
    destruct t as [t0|]; unfold claim in *.
    + destruct (inv_write m t0 (Full k v) (used m) HI Hs Hc eq_refl HW') as (HI' & Hs' & Hcap); auto.
      { rewrite Ec. reflexivity. }
      eexists. split; [reflexivity|]. repeat apply conj; auto. apply N.le_add_r.
    + destruct (inv_write m e (Full k v) (used m + 1) HI Hs Hc eq_refl HW') as (HI' & Hs' & Hcap); auto.
      { rewrite Ec. reflexivity. }
      eexists. split; [reflexivity|]. repeat apply conj; auto. apply N.le_refl.
  - elim (probe_not_exhausted m k); auto.
Qed.

End Inv.
