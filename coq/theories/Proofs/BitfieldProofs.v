From Chibicc Require Import Base.Mach Model.Bitfield.
Local Open Scope Z_scope.

(* Everything is read off bit by bit; the comparisons that select a bit are left to lia. *)

Lemma w64_bit x i : 0 <= i -> Z.testbit (w64 x) i = Z.testbit x i && (i <? 64).
Proof. intros Hi. unfold w64. rewrite Z.land_spec, Z.testbit_ones_nonneg by lia. reflexivity. Qed.

Lemma w64_high x i : 64 <= i -> Z.testbit (w64 x) i = false.
Proof. intros Hi. rewrite w64_bit by lia. replace (i <? 64) with false by lia. apply andb_false_r. Qed.

(* a 64-bit register read as signed repeats bit 63 upwards *)
Lemma sx64_bit x i : 0 <= i -> Z.testbit (sx64 (w64 x)) i = Z.testbit x (Z.min i 63).
Proof.
  intros Hi. unfold sx64. rewrite (w64_bit x 63), andb_true_r by lia.
  destruct (Z.ltb_spec i 64) as [H|H]; [rewrite Z.min_l by lia|rewrite Z.min_r by lia].
  - (* below bit 64 the extension adds nothing *)
    replace (Z.testbit x i) with (Z.testbit (w64 x) i)
      by (rewrite w64_bit by lia; replace (i <? 64) with true by lia; apply andb_true_r).
    destruct (Z.testbit x 63); [|reflexivity].
    rewrite Z.lor_spec, Z.shiftl_spec, (Z.testbit_neg_r _ (i - 64)) by lia. apply orb_false_r.
  - destruct (Z.testbit x 63); [|apply w64_high, H].
    rewrite Z.lor_spec, Z.shiftl_spec, Z.bits_m1 by lia. apply orb_true_r.
Qed.

Theorem load_u_bits u off w i : 0 <= off -> 0 < w -> off + w <= 64 -> 0 <= i ->
  Z.testbit (bf_load_u u off w) i = (i <? w) && Z.testbit u (off + i).
Proof.
  intros Ho Hw Hs Hi. unfold bf_load_u. rewrite Z.shiftr_spec, w64_bit, Z.shiftl_spec by lia.
  replace (i + (64 - w) - (64 - w - off)) with (off + i) by lia.
  replace (i + (64 - w) <? 64) with (i <? w) by lia. apply andb_comm.
Qed.

Theorem load_s_bits u off w i : 0 <= off -> 0 < w -> off + w <= 64 -> 0 <= i ->
  Z.testbit (bf_load_s u off w) i = Z.testbit u (off + Z.min i (w - 1)).
Proof.
  intros Ho Hw Hs Hi. unfold bf_load_s. rewrite Z.shiftr_spec, sx64_bit, Z.shiftl_spec by lia. f_equal. lia.
Qed.

Theorem store_bits u v off w i : 0 <= off -> 0 < w -> off + w <= 64 -> 0 <= i -> i < 64 ->
  Z.testbit (bf_store u v off w) i = if (off <=? i) && (i <? off + w) then Z.testbit v (i - off) else Z.testbit u i.
Proof.
  intros Ho Hw Hs Hi Hi64. unfold bf_store.
  rewrite w64_bit, Z.lor_spec, Z.land_spec, !w64_bit, Z.lnot_spec, !Z.shiftl_spec, Z.land_spec, !Z.testbit_ones by lia.
  replace (i <? 64) with true by lia.
  replace ((0 <=? i - off) && (i - off <? w)) with ((off <=? i) && (i <? off + w)) by lia.
  destruct ((off <=? i) && (i <? off + w)), (Z.testbit u i), (Z.testbit v (i - off)); reflexivity.
Qed.

Lemma store_high u v off w i : 64 <= i -> Z.testbit (bf_store u v off w) i = false.
Proof. apply w64_high. Qed.

Lemma store_field_bits u v off w j : 0 <= off -> off + w <= 64 -> 0 <= j < w ->
  Z.testbit (bf_store u v off w) (off + j) = Z.testbit v j.
Proof.
  intros Ho Hs Hj. rewrite store_bits by lia.
  replace ((off <=? off + j) && (off + j <? off + w)) with true by lia. f_equal. lia.
Qed.

Theorem store_keeps_other_bits u v off w i : 0 <= off -> 0 < w -> off + w <= 64 -> 0 <= i < 64 -> i < off \/ off + w <= i ->
  Z.testbit (bf_store u v off w) i = Z.testbit u i.
Proof. intros. rewrite store_bits by lia. replace ((off <=? i) && (i <? off + w)) with false by lia. reflexivity. Qed.

Theorem store_then_load_u u v off w : 0 <= off -> 0 < w -> off + w <= 64 -> bf_load_u (bf_store u v off w) off w = Z.land v (Z.ones w).
Proof.
  intros Ho Hw Hs. apply Z.bits_inj'. intros i Hi. rewrite load_u_bits, Z.land_spec, Z.testbit_ones_nonneg by lia.
  destruct (Z.ltb_spec i w); [|symmetry; apply andb_false_r].
  rewrite store_field_bits by lia. symmetry. apply andb_true_r.
Qed.

Lemma load_depends_on_field u u' off w : 0 <= off -> 0 < w -> off + w <= 64 ->
  (forall i, off <= i < off + w -> Z.testbit u i = Z.testbit u' i) ->
  bf_load_u u off w = bf_load_u u' off w /\ bf_load_s u off w = bf_load_s u' off w.
Proof.
  intros Ho Hw Hs H. split; apply Z.bits_inj'; intros i Hi.
  - rewrite !load_u_bits by lia. destruct (Z.ltb_spec i w); [|reflexivity]. cbn [andb]. apply H. lia.
  - rewrite !load_s_bits by lia. apply H. lia.
Qed.

Lemma w64_small x : 0 <= x < 2 ^ 64 -> w64 x = x.
Proof. intros Hx. unfold w64. rewrite Z.land_ones by lia. apply Z.mod_small, Hx. Qed.

Theorem elem_addr_exact base idx size : 0 <= base -> 0 <= idx -> 0 <= size -> base + idx * size < 2 ^ 63 -> elem_addr base idx size = base + idx * size.
Proof.
  intros Hb Hi Hs Hlt. unfold elem_addr.
  assert (Hm : 0 <= idx * size) by (apply Z.mul_nonneg_nonneg; assumption).
  destruct (Z.eq_dec size 0) as [->|Hne].
  - rewrite !Z.mul_0_r in *. rewrite (w64_small 0), w64_small by lia. reflexivity.
  - (* the index itself is below 2^63, being at most idx * size *)
    pose proof (Z.mul_le_mono_nonneg_l 1 size idx Hi ltac:(lia)) as Hle. rewrite Z.mul_1_r in Hle.
    rewrite (w64_small idx), (w64_small (idx * size)), w64_small by lia. reflexivity.
Qed.
