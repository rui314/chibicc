(* Per-operator lemmas for the code gen_expr emits on int / float / double operands (Model/FloatGen.v)
   against Spec/C11Float.v: every operand bit pattern, NaNs, infinities, signed zeros and denormals included.
   The composition for whole trees is Proofs/FloatGenProofs.v.
   The SSE instructions are defined from the same Flocq operations as the specification, so what is
   proved here is: the selection of the ss / sd form, the order of the operands (which one reaches
   %xmm0, which %xmm1), the decoding of ZF / PF / CF after ucomis, the sign-bit xor, the rows of the
   regenerated cast table, the loads, the bit-level handling of the lanes, and the stack discipline
   of one binary operator. *)
From Coq Require Import ZArith Bool List Lia.
From Flocq Require Import Core Binary Bits.
From Chibicc Require Import Base.Mach Spec.C11Int Spec.C11Float Model.X86Int Model.CodegenInt Gen.CastTable
     Model.ConstFold Proofs.ConstFoldProofs Proofs.CastTableProofs Proofs.CodegenIntProofs
     Model.X86Sse Model.FloatGen Proofs.X86SseProofs Proofs.X86SseRowsProofs.
Local Open Scope Z_scope.

(* how a C value sits in the registers: an integer in %rax as its type asks (CastTableProofs.R), a float / double in the
   low lane of %xmm0, up to the choice of NaN *)
Definition Rv (t : ty) (v : val) (s : mstate) : Prop :=
  match t, v with
  | TI it, VI z => R it z (rax (ix s))
  | TF32, VS x => feq (f32 (x0 s)) x
  | TF64, VD x => feq (f64 (x0 s)) x
  | _, _ => False
  end.

(* [sgn w r] unfolds to [X86Int.sx (bits w) r]: what is proved of sx serves the signed view of a register *)
Lemma sx_val n r z : 0 < n -> r mod 2 ^ n = z mod 2 ^ n -> - 2 ^ (n - 1) <= z < 2 ^ (n - 1) -> X86Int.sx n r = z.
Proof. intros Hn E B. rewrite <- (sx_id n z Hn B). apply (sx_cong n r z E). Qed.

(* sign- and zero-extension of the low k bits of a register or memory cell that holds z modulo 2^n *)
Lemma sx_low k n z : 0 < k <= n -> - 2 ^ (k - 1) <= z < 2 ^ (k - 1) -> X86Int.sx k (z mod 2 ^ n) = z.
Proof. intros Hk B. apply sx_val; [lia|apply mod_pow2_mod; lia|exact B]. Qed.
Lemma zx_low k n z : 0 <= k <= n -> 0 <= z < 2 ^ k -> (z mod 2 ^ n) mod 2 ^ k = z.
Proof. intros Hk B. rewrite (mod_pow2_mod z k n Hk). apply Z.mod_small, B. Qed.

(* what cvtsi2ss / cvtsi2sd / fild read: the signed view of %eax / %rax is the C value, for a type all of whose values
   int resp. long has.  sgn W32, sgn W64 and mod 2^32 are conv at int, long and unsigned int by computation: read_val *)
Lemma sgn32_val f z r : in_range f z = true -> R f z r -> represents_all I32 f = true -> sgn W32 r = z.
Proof. intros Hz HR Hf. apply (read_val f I32); try assumption; [discriminate|destruct (wbits_cases f); cbn [width]; lia]. Qed.
Lemma sgn64_val z r : in_range I64 z = true -> R I64 z r -> sgn W64 r = z.
Proof. intros Hz HR. apply (read_val I64 I64); try assumption; (discriminate || reflexivity). Qed.
Lemma u32_val z r : in_range U32 z = true -> R U32 z r -> r mod 2 ^ 32 = z.
Proof. intros Hz HR. apply (read_val U32 U32); try assumption; (discriminate || reflexivity). Qed.
Lemma sgn64_u32 z r : in_range U32 z = true -> R U32 z r -> sgn W64 (r mod 2 ^ 32) = z.
Proof.
  intros Hz HR. rewrite (u32_val z r Hz HR).
  apply (conv_unique I64); [discriminate|exact (in_range_sub I64 U32 z eq_refl Hz)|reflexivity].
Qed.

Lemma u64_range z : in_range U64 z = true -> 0 <= z < 2 ^ 64.
Proof. apply (range_unsigned U64 z eq_refl). Qed.
Lemma R_u64_exact f z r : in_range f z = true -> R f z r -> (f = IBool \/ f = U64) -> r = z /\ 0 <= z < 2 ^ 64.
Proof.
  intros Hz [Hr HR] [-> | ->].
  - subst r. auto.
  - pose proof (u64_range z Hz) as B. rewrite Z.mod_small in HR by exact B. auto.
Qed.

Lemma R_lo32 t z : in_range t z = true -> size_of t <=? 4 = true -> R t z (lo W32 z).
Proof.
  intros Hr Hs. destruct t; try discriminate Hs; try (apply (R_mod _ z 32); [discriminate|discriminate|lia]).
  apply (range_unsigned IBool z eq_refl) in Hr. cbn [width] in Hr. unfold lo. cbn [bits]. rewrite Z.mod_small by lia. split; [lia|reflexivity].
Qed.
Lemma R_self t z : in_range t z = true -> is_signed t = false -> R t z z.
Proof.
  intros Hr Hs. apply (range_unsigned t z Hs) in Hr.
  assert (B : 0 <= z < 2 ^ 64).
  { split; [apply Hr|]. apply (Z.lt_le_trans _ _ _ (proj2 Hr)), Z.pow_le_mono_r; [reflexivity|apply width_bounds]. }
  split; [exact B|]. destruct t; try discriminate Hs; try reflexivity. symmetry. apply Z.mod_small, B.
Qed.

(* a value of a narrow type, stored modulo 2^n and brought back by the extending load of its type *)
Lemma R_sx_low t n z : is_signed t = true -> (size_of t <=? 4) = true -> (width t <=? n) = true -> in_range t z = true ->
  R t z (lo W32 (X86Int.sx (width t) (z mod 2 ^ n))).
Proof.
  intros Hs H4 Hn Hz. apply Z.leb_le in Hn. pose proof (width_bounds t) as Hw.
  rewrite sx_low; [apply R_lo32; assumption|lia|apply range_signed; assumption].
Qed.
Lemma R_zx_low t n z : is_signed t = false -> (width t <=? n) = true -> in_range t z = true ->
  R t z ((z mod 2 ^ n) mod 2 ^ width t).
Proof.
  intros Hs Hn Hz. apply Z.leb_le in Hn. pose proof (width_bounds t) as Hw.
  rewrite zx_low; [apply R_self; assumption|lia|apply range_unsigned; assumption].
Qed.

Lemma val_ok_int it v : val_ok (TI it) v = true -> exists z, v = VI z /\ in_range it z = true.
Proof. destruct v as [z|x|x]; cbn; try discriminate. intros H. exists z. split; [reflexivity|exact H]. Qed.

Lemma to_int_some t ip w : to_int t ip = Some w -> exists z, ip = Some z /\ in_range t z = true /\ w = VI z.
Proof.
  unfold to_int. destruct ip as [z|]; [|discriminate]. destruct (in_range t z) eqn:E; [|discriminate].
  intros [= <-]. exists z. auto.
Qed.

Lemma convert_int t z : convert (TI t) (VI z) = Some (VI (conv t z)).
Proof. destruct t; reflexivity. Qed.

Lemma f32_zero : f32 0 = B754_zero 24 128 false. Proof. reflexivity. Qed.
Lemma f64_zero : f64 0 = B754_zero 53 1024 false. Proof. reflexivity. Qed.

Lemma compopp_swap {p e} (a b : binary_float p e) : Bcompare p e b a = option_map CompOpp (Bcompare p e a b).
Proof. apply Bcompare_swap. Qed.

Lemma fcmp_b2z o c : fcmp o c = b2z (fcmp o c =? 1).
Proof. destruct o, c as [[]|]; reflexivity. Qed.

Lemma arith_s_fop o a b : arith_s o a b = option_map (fun f => barith xprec32 xemax32 binop_nan_pl32 f a b) (fop_of o).
Proof. destruct o; reflexivity. Qed.
Lemma arith_d_fop o a b : arith_d o a b = option_map (fun f => barith xprec64 xemax64 binop_nan_pl64 f a b) (fop_of o).
Proof. destruct o; reflexivity. Qed.

(* sete / setne / seta / setae with the parity test, as gen_expr pairs them with == != < <= *)
Definition setcc (o : binop) : list sinsn :=
  match o with
  | OEq => [SI (ISet CE); SSetnpDl; SAndDlAl]
  | ONe => [SI (ISet CNE); SSetpDl; SOrDlAl]
  | OLt => [SSeta]
  | _ => [SSetae]
  end.

Lemma mbinop_arith o f t : is_fp t = true -> fop_of o = Some f -> mbinop o t = [SArith f (fsz_of t)].
Proof. destruct t; [discriminate| |]; destruct o; try discriminate; intros _ [= <-]; reflexivity. Qed.
Lemma mbinop_cmp o t : is_fp t = true -> (o = OEq \/ o = ONe \/ o = OLt \/ o = OLe) ->
  mbinop o t = SUcomi01 (fsz_of t) :: setcc o ++ [SAnd1Al; SI IMovzbRax].
Proof. destruct t; [discriminate| |]; intros _ [-> | [-> | [-> | ->]]]; reflexivity. Qed.

Section WithMem.
Variable mem : Z -> Z.

Lemma sexec_int p : forall s a', exec p (ix s) = Some a' -> sexec mem (map SI p) s = Some (with_ix s a').
Proof.
  induction p as [|i p IH]; intros s a' H; cbn [map sexec exec] in *.
  - injection H as <-. destruct s; reflexivity.
  - cbn [sexec1]. destruct (exec1 i (ix s)) as [a1|]; [|discriminate].
    rewrite (IH (with_ix s a1) a' H). reflexivity.
Qed.

Lemma sexec_cons i r s : sexec mem (i :: r) s = match sexec1 mem i s with Some s' => sexec mem r s' | None => None end.
Proof. reflexivity. Qed.

Lemma sexec_app p q s : sexec mem (p ++ q) s = match sexec mem p s with Some s' => sexec mem q s' | None => None end.
Proof.
  revert s. induction p as [|i p IH]; intros s; cbn [app sexec]; [reflexivity|].
  destruct (sexec1 mem i s); [apply IH|reflexivity].
Qed.

Lemma int_code_ok p t v s : (exists a', exec p (ix s) = Some a' /\ R t v (rax a')) ->
  exists s', sexec mem (map SI p) s = Some s' /\ Rv (TI t) (VI v) s'.
Proof. intros (a' & E & Ra). exists (with_ix s a'). split; [apply sexec_int, E|exact Ra]. Qed.

(* [after_ucomi s c]: the flags say that the instruction's first operand is in relation c to its second.  gen_expr gives
   ucomis (and fcomip) the right operand of the C operator first, so the setcc sequence it pairs with operator o leaves
   in %al the truth value of "second o first". *)
Lemma setcc_ok o c rest s : (o = OEq \/ o = ONe \/ o = OLt \/ o = OLe) -> exists s',
  sexec mem (setcc o ++ rest) (after_ucomi s c) = sexec mem rest s' /\ al (ix s') = fcmp o (option_map CompOpp c).
Proof.
  intros [-> | [-> | [-> | ->]]]; (eexists; split; [cbn [setcc app sexec sexec1 exec1]; reflexivity|]); cbn [ix with_ix f_pf cond].
  - (* sete %al ; setnp %dl ; and %dl, %al : ZF and not PF *)
    rewrite al_logic_al; rewrite al_set_dl, al_set_al, dl_set_dl, land_bits; [destruct c as [[]|]; reflexivity|apply b2z_byte].
  - (* setne %al ; setp %dl ; or %dl, %al : not ZF, or PF *)
    rewrite al_logic_al; rewrite al_set_dl, al_set_al, dl_set_dl, lor_bits; [destruct c as [[]|]; reflexivity|apply b2z_byte].
  - (* seta : neither CF nor ZF *) rewrite al_set_al. destruct c as [[]|]; reflexivity.
  - (* setae : not CF *) rewrite al_set_al. destruct c as [[]|]; reflexivity.
Qed.

(* and $1, %al ; movzb %al, %rax : the truth value as an int *)
Lemma tail_bool s b : al (ix s) = b2z b -> exists s',
  sexec mem [SAnd1Al; SI IMovzbRax] s = Some s' /\ rax (ix s') = b2z b.
Proof.
  intros H. eexists. split; [cbn [sexec sexec1 exec1]; reflexivity|]. cbn [ix with_ix rax set_rax].
  change (rax (logic_al (ix s) (Z.land (al (ix s)) 1)) mod 256) with (al (logic_al (ix s) (Z.land (al (ix s)) 1))).
  rewrite H, land_bit1. apply al_logic_al, b2z_byte.
Qed.

(* the zero test that follows a comparison with zero: sete ; setnp ; and ; cmp $1, %al *)
Lemma zero_flag_ok c s : exists s',
  sexec mem (setcc OEq ++ [SCmp1Al]) (after_ucomi s c) = Some s' /\ f_zf (ix s') = (fcmp OEq c =? 1).
Proof.
  destruct (setcc_ok OEq c [SCmp1Al] s (or_introl eq_refl)) as (s1 & E & A). rewrite E.
  eexists. split; [reflexivity|]. cbn [ix with_ix f_zf set_flags]. rewrite A. destruct c as [[]|]; reflexivity.
Qed.

Lemma m_cmp_zero_fp t : is_fp t = true ->
  m_cmp_zero t = [SXorp11 (fsz_of t); SUcomi10 (fsz_of t)] ++ (setcc OEq ++ [SCmp1Al]).
Proof. destruct t; [discriminate| |]; reflexivity. Qed.

Lemma cmp_zero_fp t v s : is_fp t = true -> Rv t v s ->
  exists s', sexec mem (m_cmp_zero t) s = Some s' /\ f_zf (ix s') = negb (truth v).
Proof.
  intros Ht HR. rewrite (m_cmp_zero_fp t Ht), sexec_app.
  assert (exists c, sexec mem [SXorp11 (fsz_of t); SUcomi10 (fsz_of t)] s = Some (after_ucomi (with_x1 s 0) c) /\
                    (fcmp OEq c =? 1) = negb (truth v)) as (c & -> & <-).
  { destruct t as [it| |]; [discriminate| |]; destruct v as [z|x|x]; try contradiction; cbn [Rv truth] in *;
      (eexists; split; [reflexivity|]); cbn [x0 x1 with_x1]; rewrite negb_involutive, <- (is_zero_feq _ _ HR).
    - rewrite f32_lane64, f32_zero. unfold is_zero, b32_compare. destruct (Bcompare 24 128 _ _) as [[]|]; reflexivity.
    - rewrite f64_lane64, f64_zero. unfold is_zero, b64_compare. destruct (Bcompare 53 1024 _ _) as [[]|]; reflexivity. }
  apply zero_flag_ok.
Qed.

(* the right operand, in %xmm1 *)
Definition Rv1 (t : ty) (v : val) (s : mstate) : Prop :=
  match t, v with
  | TF32, VS x => feq (f32 (x1 s)) x
  | TF64, VD x => feq (f64 (x1 s)) x
  | _, _ => False
  end.

Lemma fp_arith_ok o f t va vb w s : is_fp t = true -> fop_of o = Some f -> Rv t va s -> Rv1 t vb s ->
  eval_common o t va vb = Some w ->
  exists s', sexec mem (mbinop o t) s = Some s' /\ Rv t w s'.
Proof.
  intros Ht Ho Ha Hb He. rewrite (mbinop_arith o f t Ht Ho).
  assert (Ar : is_arith o = true) by (destruct o; try discriminate; reflexivity).
  destruct t as [it| |]; [discriminate| |]; destruct va as [?|a|a]; try contradiction; destruct vb as [?|b|b]; try contradiction;
    cbn [Rv Rv1 eval_common] in *; rewrite Ar in He; (eexists; split; [reflexivity|]); cbn [Rv with_x0 x0].
  - rewrite arith_s_fop, Ho in He. injection He as <-. rewrite f32_put, arith32_barith. apply barith_feq; assumption.
  - rewrite arith_d_fop, Ho in He. injection He as <-. rewrite f64_put, arith64_barith. apply barith_feq; assumption.
Qed.

(* ucomis %xmm0, %xmm1 compares the right operand with the left one *)
Lemma fp_cmp_ok o t va vb w s : is_fp t = true -> (o = OEq \/ o = ONe \/ o = OLt \/ o = OLe) -> Rv t va s -> Rv1 t vb s ->
  eval_common o t va vb = Some w ->
  exists s', sexec mem (mbinop o t) s = Some s' /\ Rv (TI I32) w s'.
Proof.
  intros Ht Ho Ha Hb He. rewrite (mbinop_cmp o t Ht Ho), sexec_cons.
  assert (Ar : is_arith o = false) by (destruct Ho as [-> | [-> | [-> | ->]]]; reflexivity).
  assert (exists c, sexec1 mem (SUcomi01 (fsz_of t)) s = Some (after_ucomi s c) /\ w = VI (fcmp o (option_map CompOpp c))) as (c & -> & ->).
  { destruct t as [it| |]; [discriminate| |]; destruct va as [?|a|a]; try contradiction; destruct vb as [?|b|b]; try contradiction;
      cbn [Rv Rv1 eval_common] in *; rewrite Ar in He; injection He as <-; (eexists; split; [reflexivity|]).
    - unfold b32_compare. rewrite (compare_feq _ _ _ _ Hb Ha), <- compopp_swap. reflexivity.
    - unfold b64_compare. rewrite (compare_feq _ _ _ _ Hb Ha), <- compopp_swap. reflexivity. }
  destruct (setcc_ok o c [SAnd1Al; SI IMovzbRax] s Ho) as (s2 & -> & A). rewrite fcmp_b2z in A |- *.
  destruct (tail_bool s2 _ A) as (s3 & E3 & A3). exists s3. split; [exact E3|apply R_b2z, A3].
Qed.

Lemma fp_neg_ok t v w s : is_fp t = true -> Rv t v s -> eval_unary Neg t v = Some w ->
  exists s', sexec mem (mneg t) s = Some s' /\ Rv t w s'.
Proof.
  intros Ht HR He. destruct t as [it| |]; [discriminate| |]; destruct v as [z|x|x]; try contradiction;
    cbn [Rv eval_unary] in *; injection He as <-; (eexists; split; [cbn [mneg sexec sexec1]; reflexivity|]);
    cbn [Rv ix x0 x1 with_ix with_x0 with_x1 rax set_rax].
  - change (lane32 (lane64 (reg64 (lo W64 1 * 2 ^ 31)))) with (2 ^ 31).
    unfold f32 at 1. rewrite lane32_lane64, lane32_put32.
    destruct (neg_bits32 (lane32 (x0 s)) (lane32_range _)) as [Rg Eq]. rewrite (lane32_small _ Rg), Eq.
    eapply feq_trans; [apply flip_opp32|apply opp32_feq; exact HR].
  - change (lane64 (lane64 (reg64 (lo W64 1 * 2 ^ 63)))) with (2 ^ 63).
    unfold f64 at 1. rewrite lane64_idem.
    destruct (neg_bits64 (lane64 (x0 s)) (lane64_range _)) as [Rg Eq]. rewrite (lane64_small _ Rg), Eq.
    eapply feq_trans; [apply flip_opp64|apply opp64_feq; exact HR].
Qed.

Lemma sete_movzx s : exists s', sexec mem [SI (ISet CE); SI IMovzxRax] s = Some s' /\ rax (ix s') = b2z (f_zf (ix s)).
Proof. eexists. split; [reflexivity|apply (al_set_al (ix s))]. Qed.
Lemma setne_movzx s : exists s', sexec mem [SI (ISet CNE); SI IMovzxEax] s = Some s' /\ rax (ix s') = b2z (negb (f_zf (ix s))).
Proof. eexists. split; [reflexivity|apply (al_set_al (ix s))]. Qed.

Lemma lognot_ok t v s : val_ok t v = true -> Rv t v s ->
  exists s', sexec mem (m_cmp_zero t ++ [SI (ISet CE); SI IMovzxRax]) s = Some s' /\ Rv (TI I32) (VI (b2z (negb (truth v)))) s'.
Proof.
  intros Hv HR. destruct (is_fp t) eqn:Ht.
  - rewrite sexec_app. destruct (cmp_zero_fp t v s Ht HR) as (s1 & -> & Z1).
    destruct (sete_movzx s1) as (s2 & E2 & A2). exists s2. split; [exact E2|]. apply R_b2z. rewrite A2, Z1. reflexivity.
  - destruct t as [it| |]; try discriminate. destruct (val_ok_int it v Hv) as (z & -> & Hz). cbn [truth]. rewrite negb_involutive.
    apply (int_code_ok (gen_unop LogNot it)), lognot_codegen_ok; assumption.
Qed.

Lemma mcast_int f t : mcast (TI f) (TI t) = map SI (cast_insns f t).
Proof. destruct f, t; vm_compute; reflexivity. Qed.

Lemma mcast_int_fp f t : is_fp t = true -> mcast (TI f) t =
  match f with
  | IBool | U64 => [SU64ToF (fsz_of t)]
  | U32 => [SI IMovEaxEax; SCvtsi2s (fsz_of t) W64]
  | I64 => [SCvtsi2s (fsz_of t) W64]
  | _ => [SCvtsi2s (fsz_of t) W32]
  end.
Proof. destruct t; [discriminate| |]; destruct f; reflexivity. Qed.

Lemma cvtsi2s_ok t w z v s : is_fp t = true -> convert t (VI z) = Some v -> sgn w (rax (ix s)) = z ->
  exists s', sexec mem [SCvtsi2s (fsz_of t) w] s = Some s' /\ Rv t v s'.
Proof.
  intros Ht Hc E. destruct t as [it| |]; [discriminate| |]; injection Hc as <-; (eexists; split; [reflexivity|]);
    cbn [Rv with_x0 x0]; rewrite E; [rewrite f32_put|rewrite f64_put]; apply feq_refl.
Qed.
Lemma u64_to_f_ok t z v s : is_fp t = true -> convert t (VI z) = Some v -> rax (ix s) = z -> 0 <= z < 2 ^ 64 ->
  exists s', sexec mem [SU64ToF (fsz_of t)] s = Some s' /\ Rv t v s'.
Proof.
  intros Ht Hc E Hz. destruct t as [it| |]; [discriminate| |]; injection Hc as <-; (eexists; split; [reflexivity|]); cbn [Rv fsz_of].
  - rewrite (exec_u64_to_f32 s z E Hz). apply feq_refl.
  - rewrite (exec_u64_to_f64 s z E Hz). apply feq_refl.
Qed.

Lemma int_to_fp_ok f t z w s : is_fp t = true -> in_range f z = true -> R f z (rax (ix s)) -> convert t (VI z) = Some w ->
  exists s', sexec mem (mcast (TI f) t) s = Some s' /\ Rv t w s'.
Proof.
  intros Ht Hz HR Hc. rewrite (mcast_int_fp f t Ht). destruct f.
  (* _Bool and unsigned long; the five types all of whose values int has; unsigned int; long *)
  1, 9: destruct (R_u64_exact _ z _ Hz HR) as [Er Rz]; [auto|apply (u64_to_f_ok t z w s Ht Hc Er Rz)].
  1-5: apply (cvtsi2s_ok t W32 z w s Ht Hc), (sgn32_val _ z _ Hz HR eq_refl).
  - rewrite sexec_cons. apply (cvtsi2s_ok t W64 z w _ Ht Hc), (sgn64_u32 z _ Hz HR).
  - apply (cvtsi2s_ok t W64 z w s Ht Hc), (sgn64_val z _ Hz HR).
Qed.

(* the rows from float / double to an integer type other than _Bool and unsigned long: cvttss2si / cvttsd2si into %eax
   or %rax, then the row of the integer table from int resp. long to the type *)
Definition via (t : ity) : ity := match t with U32 | I64 => I64 | _ => I32 end.
Lemma mcast_fp_int from t : is_fp from = true -> t <> IBool -> t <> U64 ->
  mcast from (TI t) = SCvtts2si (fsz_of from) (opw (via t)) :: map SI (cast_insns (via t) t).
Proof. intros Hf Hb Hu. destruct from; [discriminate| |]; destruct t; try congruence; reflexivity. Qed.
Lemma mcast_fp_u64 from : is_fp from = true -> mcast from (TI U64) = [SFToU64 (fsz_of from)].
Proof. destruct from; [discriminate| |]; reflexivity. Qed.

Lemma via_range t z : t <> IBool -> t <> U64 -> in_range t z = true ->
  in_range (via t) z = true /\ - 2 ^ (bits (opw (via t)) - 1) <= z < 2 ^ (bits (opw (via t)) - 1).
Proof.
  intros Hb Hu Hz. assert (Hv : in_range (via t) z = true) by (apply (in_range_sub (via t) t); [destruct t; try congruence; reflexivity|exact Hz]).
  split; [exact Hv|]. assert (via t = I32 \/ via t = I64) as [E | E] by (destruct t; auto); rewrite E in *.
  - apply (range_signed I32 z eq_refl), Hv.
  - apply (range_signed I64 z eq_refl), Hv.
Qed.
Lemma R_via t z : R (via t) z (z mod 2 ^ bits (opw (via t))).
Proof.
  assert (via t = I32 \/ via t = I64) as [-> | ->] by (destruct t; auto).
  - apply (R_mod I32 z 32); [discriminate|discriminate|lia].
  - apply R_of_full; reflexivity.
Qed.

(* what the conversions out of %xmm0 deliver when C defines the conversion to t: for float and double at once *)
Lemma fp_reads_int from t v w s : is_fp from = true -> t <> IBool -> Rv from v s -> convert (TI t) v = Some w ->
  exists z, w = VI z /\ in_range t z = true /\
    (forall u, - 2 ^ (bits u - 1) <= z < 2 ^ (bits u - 1) ->
       sexec1 mem (SCvtts2si (fsz_of from) u) s = Some (with_ix s (set_rax (ix s) (z mod 2 ^ bits u)))) /\
    (0 <= z < 2 ^ 64 -> rax (ix (exec_f_to_u64 (fsz_of from) s)) = z).
Proof.
  intros Hf Nb HR Hc. destruct from as [it| |]; [discriminate| |]; destruct v as [?|x|x]; try contradiction; cbn [Rv] in HR;
    (assert (Hc' : to_int t (int_part x) = Some w) by (destruct t; try congruence; exact Hc));
    destruct (to_int_some _ _ _ Hc') as (z & I & Hin & ->); exists z; (split; [reflexivity|]); (split; [exact Hin|]);
    (split; [intros u Hu; cbn [sexec1 fsz_of]; rewrite (cvtt_int_part u _ _ z HR I Hu); reflexivity|]).
  - apply (exec_f32_to_u64 s x z HR I).
  - apply (exec_f64_to_u64 s x z HR I).
Qed.

Lemma fp_to_int_ok from t v w s : is_fp from = true -> Rv from v s -> convert (TI t) v = Some w ->
  exists s', sexec mem (mcast from (TI t)) s = Some s' /\ Rv (TI t) w s'.
Proof.
  intros Hf HR Hc.
  destruct (ity_eqb t IBool) eqn:Eb.
  - (* _Bool: cmp_zero, setne *)
    assert (t = IBool) as -> by (destruct t; try discriminate; reflexivity).
    assert (w = VI (b2z (truth v))) as ->.
    { destruct from as [it| |]; [discriminate| |]; destruct v as [z|x|x]; try contradiction; cbn in Hc; injection Hc as <-; reflexivity. }
    change (mcast from (TI IBool)) with (m_cmp_zero from ++ [SI (ISet CNE); SI IMovzxEax]).
    rewrite sexec_app. destruct (cmp_zero_fp from v s Hf HR) as (s1 & -> & Z1).
    destruct (setne_movzx s1) as (s2 & E2 & A2). exists s2. split; [exact E2|].
    apply Rbool_b2z. rewrite A2, Z1. apply f_equal, negb_involutive.
  - assert (Nb : t <> IBool) by (intros ->; discriminate).
    destruct (fp_reads_int from t v w s Hf Nb HR Hc) as (z & -> & Hin & Hcvt & Hu64).
    destruct (ity_eqb t U64) eqn:Eu.
    + (* unsigned long: the branching row *)
      assert (t = U64) as -> by (destruct t; try discriminate; reflexivity).
      rewrite (mcast_fp_u64 from Hf). eexists. split; [reflexivity|]. cbn [Rv].
      rewrite (Hu64 (u64_range z Hin)). apply (R_self U64 z Hin eq_refl).
    + assert (Nu : t <> U64) by (intros ->; discriminate).
      destruct (via_range t z Nb Nu Hin) as [Hv Hb]. rewrite (mcast_fp_int from t Hf Nb Nu), sexec_cons, (Hcvt _ Hb).
      destruct (cast_insns_ok (via t) t z (set_rax (ix s) (z mod 2 ^ bits (opw (via t)))) Hv (R_via t z)) as (a' & He & HR').
      rewrite (conv_in_range t z Hin) in HR'. apply int_code_ok. exists a'. auto.
Qed.

Theorem cast_ok from to v w s : val_ok from v = true -> Rv from v s -> convert to v = Some w ->
  exists s', sexec mem (mcast from to) s = Some s' /\ Rv to w s'.
Proof.
  intros Hv HR Hc. destruct from as [f| |], to as [t| |].
  1-3: destruct (val_ok_int f v Hv) as (z & -> & Hz); cbn [Rv] in HR.
  1: { (* integer to integer: the integer table *)
    rewrite convert_int in Hc. injection Hc as <-. rewrite mcast_int. apply int_code_ok, cast_insns_ok; assumption. }
  1: apply (int_to_fp_ok f TF32 z w s eq_refl Hz HR Hc).
  1: apply (int_to_fp_ok f TF64 z w s eq_refl Hz HR Hc).
  (* float / double to integer *)
  1, 4: apply (fp_to_int_ok _ t v w s); [reflexivity|exact HR|exact Hc].
  all: destruct v as [z|x|x]; try discriminate Hv; injection Hc as <-.
  (* float to float, double to double: no code *)
  1, 4: exists s; split; [reflexivity|exact HR].
  - change (mcast TF32 TF64) with [SCvtss2sd]. eexists. split; [reflexivity|]. cbn [Rv with_x0 x0] in *. rewrite f64_put. apply cvtss2sd_feq, HR.
  - change (mcast TF64 TF32) with [SCvtsd2ss]. eexists. split; [reflexivity|]. cbn [Rv with_x0 x0] in *. rewrite f32_put. apply cvtsd2ss_feq, HR.
Qed.
End WithMem.

Lemma mf_common_is_uac a b : mf_common a b = uac_ty a b.
Proof. destruct a as [x| |], b as [y| |]; cbn; try reflexivity. rewrite m_common_is_uac. reflexivity. Qed.
Lemma mf_promote t : mf_common (TI I32) t = promote_ty t.
Proof. destruct t as [x| |]; cbn; try reflexivity. rewrite m_promote. reflexivity. Qed.

Theorem mf_type_is_c11 e : mf_type e = ftype_of e.
Proof.
  induction e as [t z|x|x|t n|o a IH|o a IHa b IHb|t a IH|c IHc a IHa b IHb|a IHa b IHb]; cbn [mf_type ftype_of]; try reflexivity.
  - destruct o; try rewrite IH; try reflexivity; try apply mf_promote.
    destruct (ftype_of a) as [x| |]; cbn [promote_ty]; try reflexivity. rewrite plus_promote. reflexivity.
  - rewrite IHa, IHb. destruct (is_arith o); [apply mf_common_is_uac|]. destruct (is_shift o); [apply mf_promote|reflexivity].
  - rewrite IHa, IHb. apply mf_common_is_uac.
  - exact IHb.
Qed.

Lemma convert_ok to v w : convert to v = Some w -> val_ok to w = true.
Proof.
  destruct to as [t| |], v as [z|x|x]; try rewrite convert_int; cbn [convert]; intros H; try (injection H as <-; try reflexivity).
  1: apply conv_range.
  all: destruct t; try (destruct (to_int_some _ _ _ H) as (z & _ & Hin & ->); exact Hin); injection H as <-; cbn [val_ok];
       destruct (negb (is_zero x)); reflexivity.
Qed.

Lemma fcmp_range o c : in_range I32 (fcmp o c) = true.
Proof. destruct o, c as [[]|]; reflexivity. Qed.

Lemma uac_ty_int_not_bool a b it : uac_ty a b = TI it -> it <> IBool.
Proof. destruct a as [x| |], b as [y| |]; cbn; try discriminate. intros [= <-]. apply uac_not_bool. Qed.

Lemma eval_common_ok o t x y w : (forall it, t = TI it -> it <> IBool) -> val_ok t x = true -> val_ok t y = true ->
  eval_common o t x y = Some w -> val_ok (if is_arith o then t else TI I32) w = true.
Proof.
  intros Ht Hx Hy H. destruct t as [it| |], x as [a|a|a]; try discriminate Hx; destruct y as [b|b|b]; try discriminate Hy;
    cbn [eval_common val_ok] in *; destruct (is_arith o) eqn:Ar.
  - destruct (eval_bin_arith o it a b) as [z|] eqn:E; [|discriminate]. injection H as <-.
    apply (eval_bin_arith_range o it a b z (Ht it eq_refl) Hx Hy E).
  - injection H as <-. apply cmp_range.
  - destruct (arith_s o a b); [|discriminate]. injection H as <-. reflexivity.
  - injection H as <-. apply fcmp_range.
  - destruct (arith_d o a b); [|discriminate]. injection H as <-. reflexivity.
  - injection H as <-. apply fcmp_range.
Qed.

Lemma eval_unary_ok o t x w : val_ok t x = true -> eval_unary o t x = Some w ->
  val_ok (match o with LogNot => TI I32 | _ => promote_ty t end) w = true.
Proof.
  intros Hx H. destruct o.
  - destruct t as [it| |], x as [a|a|a]; try discriminate Hx; cbn [eval_unary] in H; try (injection H as <-; reflexivity).
    cbn [vi] in H. destruct (arith_result (promote it) (- a)) as [z|] eqn:E; [|discriminate]. injection H as <-.
    apply (arith_result_range _ _ _ E).
  - destruct t as [it| |], x as [a|a|a]; try discriminate Hx; cbn [eval_unary] in H; try discriminate.
    injection H as <-. apply conv_range.
  - cbn [eval_unary] in H. injection H as <-. apply b2z_range.
  - destruct t as [it| |], x as [a|a|a]; try discriminate Hx; cbn [eval_unary] in H; injection H as <-; try reflexivity.
    apply promote_range. exact Hx.
Qed.

(* A binary node other than && || evaluates both operands; its value and type from theirs: << and >> promote the left
   operand only, the others convert both to the common type. *)
Definition bin_value (o : binop) (ta tb : ty) (x y : val) : option val :=
  if is_shift o then
    match ta, tb, x, y with
    | TI ia, TI _, VI xa, VI n => vi (eval_shift o (promote ia) xa n)
    | _, _, _, _ => None
    end
  else match convert (uac_ty ta tb) x, convert (uac_ty ta tb) y with
       | Some x', Some y' => eval_common o (uac_ty ta tb) x' y'
       | _, _ => None
       end.
Definition bin_type (o : binop) (ta tb : ty) : ty :=
  if is_arith o then uac_ty ta tb else if is_shift o then promote_ty ta else TI I32.

Lemma shift_not_arith o : is_shift o = true -> is_arith o = false.
Proof. destruct o; try discriminate; reflexivity. Qed.

Lemma feval_bin rho o a b : o <> LAnd -> o <> LOr -> feval rho (FBin o a b) =
  match feval rho a, feval rho b with
  | Some x, Some y => bin_value o (ftype_of a) (ftype_of b) x y
  | _, _ => None
  end.
Proof. intros N1 N2. destruct o; try reflexivity; congruence. Qed.

Lemma bin_value_ok o ta tb x y v : val_ok ta x = true -> val_ok tb y = true -> bin_value o ta tb x y = Some v ->
  val_ok (bin_type o ta tb) v = true.
Proof.
  intros Vx Vy H. unfold bin_value in H. unfold bin_type. destruct (is_shift o) eqn:Sh.
  - rewrite (shift_not_arith o Sh).
    destruct ta as [ia| |]; try discriminate H. destruct tb as [ib| |]; try (destruct x; discriminate H).
    destruct x as [xa|?|?]; try discriminate H. destruct y as [n|?|?]; try discriminate H.
    destruct (eval_shift o (promote ia) xa n) as [z|] eqn:E; [|discriminate]. injection H as <-.
    apply (eval_shift_range o (promote ia) xa n z (promote_range _ _ Vx) E).
  - destruct (convert (uac_ty ta tb) x) as [x'|] eqn:Cx; [|discriminate]. destruct (convert (uac_ty ta tb) y) as [y'|] eqn:Cy; [|discriminate].
    pose proof (eval_common_ok o _ x' y' v (uac_ty_int_not_bool _ _) (convert_ok _ _ _ Cx) (convert_ok _ _ _ Cy) H) as K.
    destruct (is_arith o); exact K.
Qed.

Lemma feval_ok rho : forall e v, feval rho e = Some v -> val_ok (ftype_of e) v = true.
Proof.
  induction e as [t z|x|x|t n|o a IH|o a IHa b IHb|t a IH|c IHc a IHa b IHb|a IHa b IHb]; intros v H; cbn [ftype_of].
  - cbn [feval] in H. destruct (in_range t z) eqn:E; inversion H; subst; exact E.
  - inversion H; reflexivity.
  - inversion H; reflexivity.
  - cbn [feval] in H. destruct (val_ok t (rho n)) eqn:E; inversion H; subst; exact E.
  - cbn [feval] in H. destruct (feval rho a) as [x|] eqn:Ea; [|discriminate]. specialize (IH x eq_refl).
    pose proof (eval_unary_ok o _ x v IH H) as K. destruct o; exact K.
  - destruct (binop_cases o) as [-> | [-> | [N1 N2]]].
    1, 2: cbn [feval] in H; destruct (feval rho a) as [x|]; [|discriminate]; destruct (truth x); cbn [negb] in H;
          try (inversion H; reflexivity); destruct (feval rho b) as [y|]; inversion H; apply b2z_range.
    rewrite (feval_bin rho o a b N1 N2) in H.
    destruct (feval rho a) as [x|] eqn:Ea; [|discriminate]. destruct (feval rho b) as [y|] eqn:Eb; [|discriminate].
    apply (bin_value_ok o _ _ x y v (IHa x eq_refl) (IHb y eq_refl) H).
  - cbn [feval] in H. destruct (feval rho a) as [x|]; [|discriminate]. apply (convert_ok _ _ _ H).
  - cbn [feval] in H. destruct (feval rho c) as [x|]; [|discriminate].
    destruct (truth x); [destruct (feval rho a)|destruct (feval rho b)]; try discriminate; apply (convert_ok _ _ _ H).
  - cbn [feval] in H. destruct (feval rho a); [|discriminate]. auto.
Qed.

Lemma uac_ty_comm a b : uac_ty a b = uac_ty b a.
Proof. destruct a as [x| |], b as [y| |]; cbn; try reflexivity. f_equal. apply uac_comm. Qed.
Lemma uac_ty_big a b it : uac_ty a b = TI it -> big it.
Proof. destruct a as [x| |], b as [y| |]; cbn; try discriminate. intros [= <-]. apply uac_big. Qed.
Lemma promote_ty_big a it : promote_ty a = TI it -> big it.
Proof. destruct a as [x| |]; cbn; try discriminate. intros [= <-]. apply promote_big. Qed.

(* a > b is compiled as b < a : the same truth value, NaNs included *)
Lemma eval_common_swap t x y :
  eval_common OLt t y x = eval_common OGt t x y /\ eval_common OLe t y x = eval_common OGe t x y.
Proof.
  destruct t as [it| |], x as [a|a|a], y as [b|b|b]; cbn [eval_common is_arith]; try (split; reflexivity).
  - unfold b32_compare. rewrite (compopp_swap a b). destruct (Bcompare 24 128 a b) as [[]|]; split; reflexivity.
  - unfold b64_compare. rewrite (compopp_swap a b). destruct (Bcompare 53 1024 a b) as [[]|]; split; reflexivity.
Qed.

Lemma bin_value_swap ta tb x y :
  bin_value OGt ta tb x y = bin_value OLt tb ta y x /\ bin_value OGe ta tb x y = bin_value OLe tb ta y x.
Proof.
  unfold bin_value. cbn [is_shift]. rewrite (uac_ty_comm tb ta).
  destruct (convert (uac_ty ta tb) x) as [x'|], (convert (uac_ty ta tb) y) as [y'|]; try (split; reflexivity).
  destruct (eval_common_swap (uac_ty ta tb) x' y') as [S1 S2]. split; congruence.
Qed.

(* the code of such a node: > and >= were parsed as < and <= with the operands exchanged *)
Definition bin_code (o : binop) (ca : fcode) (ta : ty) (cb : fcode) (tb : ty) : fcode :=
  match o with
  | OGt => cbin OLt (uac_ty tb ta) cb tb ca ta true
  | OGe => cbin OLe (uac_ty tb ta) cb tb ca ta true
  | _ => if is_shift o then cbin o (promote_ty ta) ca ta cb tb false else cbin o (uac_ty ta tb) ca ta cb tb true
  end.

Lemma convert_promote t x : val_ok t x = true -> convert (promote_ty t) x = Some x.
Proof.
  destruct t as [it| |], x as [z|a|a]; try discriminate; cbn [promote_ty val_ok]; intros H; try reflexivity.
  rewrite convert_int, (conv_in_range _ _ (promote_range _ _ H)). reflexivity.
Qed.
Lemma mcast_same_fp t : is_fp t = true -> mcast t t = nil.
Proof. destruct t as [it| |]; try discriminate; reflexivity. Qed.

Section Compose.
Variable mem : Z -> Z.

(* "the code computes v of type t": from any registers and any stack; the stack is as found *)
Definition computes (c : fcode) (t : ty) (v : val) : Prop :=
  forall s k, exists s', frun mem c (s, k) = Some (s', k) /\ Rv t v s'.

(* the right operand after pop %rdi / popf *)
Definition Rrhs (t : ty) (v : val) (s : mstate) : Prop :=
  match t, v with
  | TI it, VI z => R it z (rdi (ix s))
  | _, _ => Rv1 t v s
  end.

Lemma run_seq a b st : frun mem (a ;; b) st = match frun mem a st with Some st' => frun mem b st' | None => None end.
Proof. reflexivity. Qed.
Lemma run_ins p s k s' : sexec mem p s = Some s' -> frun mem (CIns p) (s, k) = Some (s', k).
Proof. intros H. cbn [frun fst snd]. rewrite H. reflexivity. Qed.

Lemma computes_seq c d t x u w : computes c t x ->
  (forall s k, Rv t x s -> exists s', frun mem d (s, k) = Some (s', k) /\ Rv u w s') -> computes (c ;; d) u w.
Proof. intros Hc Hd s k. rewrite run_seq. destruct (Hc s k) as (s1 & -> & R1). apply (Hd s1 k R1). Qed.

Lemma run_cast from to v w s k : val_ok from v = true -> Rv from v s -> convert to v = Some w ->
  exists s', frun mem (ccast from to) (s, k) = Some (s', k) /\ Rv to w s'.
Proof.
  intros Hv HR Hc. destruct (cast_ok mem from to v w s Hv HR Hc) as (s' & E & R').
  exists s'. split; [apply run_ins; exact E|exact R'].
Qed.

Lemma computes_cast c from to x w : computes c from x -> val_ok from x = true -> convert to x = Some w ->
  computes (c ;; ccast from to) to w.
Proof. intros Hc Hv Hx. apply (computes_seq _ _ _ x _ _ Hc). intros s k R1. apply (run_cast _ _ x w s k Hv R1 Hx). Qed.

(* the right operand waits in a stack slot while the left one is computed, and comes back in %rdi / %xmm1; what is in
   %rax / %xmm0 by then stays *)
Lemma saved_operand u y s k : Rv u y s -> exists slot,
  frun mem (if is_fp u then CPushF else CPush) (s, k) = Some (s, slot :: k) /\
  forall t x s', Rv t x s' -> exists s'',
    frun mem (if is_fp u then CPopF1 else CPopRdi) (s', slot :: k) = Some (s'', k) /\ Rv t x s'' /\ Rrhs u y s''.
Proof.
  intros R. destruct u as [it| |], y as [z|a|a]; try contradiction; (eexists; split; [reflexivity|]); intros t x s' R';
    (eexists; split; [reflexivity|]); (split; [exact R'|]); cbn [Rrhs Rv1 Rv fst with_x1 with_ix x1 ix rdi set_rdi] in *.
  - exact R.
  - rewrite f32_lane64. exact R.
  - rewrite f64_lane64. exact R.
Qed.

Lemma run_cbin o t ca ta cb tb x y x' y' (castb : bool) tres w :
  computes ca ta x -> computes cb tb y -> val_ok ta x = true -> val_ok tb y = true ->
  convert t x = Some x' ->
  (if castb then convert t y = Some y' else y' = y /\ is_fp t = false /\ is_fp tb = false) ->
  (forall s, Rv t x' s -> Rrhs (if castb then t else tb) y' s -> exists s', sexec mem (mbinop o t) s = Some s' /\ Rv tres w s') ->
  computes (cbin o t ca ta cb tb castb) tres w.
Proof.
  intros Ha Hb Vx Vy Cx Cy Hop s k.
  unfold cbin. rewrite run_seq. destruct (Hb s k) as (s1 & -> & R1). rewrite run_seq.
  (* the slot is pushed as the common type says; an operand left unconverted is an integer under an integer operator *)
  set (u := if castb then t else tb) in *.
  assert (exists s2, frun mem (if castb then ccast tb t else CIns nil) (s1, k) = Some (s2, k) /\ Rv u y' s2 /\ is_fp t = is_fp u)
    as (s2 & -> & R2 & ->).
  { unfold u. destruct castb.
    - destruct (run_cast tb t y y' s1 k Vy R1 Cy) as (s2 & E2 & R2). exists s2. auto.
    - destruct Cy as (-> & -> & ->). exists s1. auto. }
  rewrite run_seq. destruct (saved_operand u y' s2 k R2) as (slot & -> & Hpop). rewrite run_seq.
  destruct (Ha s2 (slot :: k)) as (s3 & -> & R3). rewrite run_seq.
  destruct (run_cast ta t x x' s3 (slot :: k) Vx R3 Cx) as (s4 & -> & R4). rewrite run_seq.
  destruct (Hpop t x' s4 R4) as (s5 & -> & R5 & R5').
  destruct (Hop s5 R5 R5') as (s6 & E6 & R6). exists s6. split; [apply run_ins; exact E6|exact R6].
Qed.

Lemma binop_ok o t x' y' w s : (forall it, t = TI it -> big it) -> val_ok t x' = true -> val_ok t y' = true ->
  is_shift o = false -> o <> OGt -> o <> OGe -> o <> LAnd -> o <> LOr ->
  Rv t x' s -> Rrhs t y' s -> eval_common o t x' y' = Some w ->
  exists s', sexec mem (mbinop o t) s = Some s' /\ Rv (if is_arith o then t else TI I32) w s'.
Proof.
  intros Hbig Vx Vy Sh N1 N2 N3 N4 HR HR' He.
  destruct (is_fp t) eqn:Ft.
  - assert (H1 : Rv1 t y' s) by (destruct t; [discriminate Ft|exact HR'..]). destruct (is_arith o) eqn:Ar.
    + destruct (fop_of o) as [f|] eqn:Fo; [apply (fp_arith_ok mem o f t x' y' w s Ft Fo HR H1 He)|].
      destruct t as [it| |], x' as [?|a|a], y' as [?|b|b]; try discriminate; cbn [eval_common] in He; rewrite Ar in He;
        [rewrite arith_s_fop, Fo in He|rewrite arith_d_fop, Fo in He]; discriminate.
    + apply (fp_cmp_ok mem o t x' y' w s Ft); try assumption. destruct o; try discriminate; try congruence; auto.
  - destruct t as [it| |]; try discriminate.
    destruct x' as [a|?|?]; try discriminate Vx. destruct y' as [b|?|?]; try discriminate Vy.
    cbn [Rv Rrhs val_ok eval_common mbinop] in *. specialize (Hbig it eq_refl).
    destruct (is_arith o) eqn:Ar.
    + destruct (eval_bin_arith o it a b) as [z|] eqn:E; [|discriminate]. injection He as <-.
      apply int_code_ok, (arith_codegen_ok o it a b (ix s) z); assumption.
    + injection He as <-.
      assert (Cm : is_cmp o = true) by (destruct o; try discriminate; try reflexivity; congruence).
      apply int_code_ok, (cmp_ok it a b (ix s) Vx Vy HR HR' o Cm N1 N2).
Qed.

Lemma cbin_plain_ok o ca ta cb tb x y v :
  computes ca ta x -> computes cb tb y -> val_ok ta x = true -> val_ok tb y = true ->
  is_shift o = false -> o <> OGt -> o <> OGe -> o <> LAnd -> o <> LOr -> bin_value o ta tb x y = Some v ->
  computes (cbin o (uac_ty ta tb) ca ta cb tb true) (bin_type o ta tb) v.
Proof.
  intros Ha Hb Vx Vy Sh N1 N2 N3 N4 He. unfold bin_value in He. unfold bin_type. rewrite Sh in *.
  destruct (convert (uac_ty ta tb) x) as [x'|] eqn:Cx; [|discriminate].
  destruct (convert (uac_ty ta tb) y) as [y'|] eqn:Cy; [|discriminate].
  apply (run_cbin o _ ca ta cb tb x y x' y' true _ v Ha Hb Vx Vy Cx Cy).
  intros s R1 R2. apply (binop_ok o _ x' y' v s); try assumption.
  - intros it E. apply (uac_ty_big _ _ _ E).
  - apply (convert_ok _ _ _ Cx).
  - apply (convert_ok _ _ _ Cy).
Qed.

Lemma cbin_ok o ca ta cb tb x y v : o <> LAnd -> o <> LOr ->
  computes ca ta x -> computes cb tb y -> val_ok ta x = true -> val_ok tb y = true ->
  bin_value o ta tb x y = Some v -> computes (bin_code o ca ta cb tb) (bin_type o ta tb) v.
Proof.
  intros N1 N2 Ha Hb Vx Vy H. destruct (bin_value_swap ta tb x y) as [S1 S2].
  assert (o = OGt \/ o = OGe \/ o <> OGt /\ o <> OGe) as [-> | [-> | [N3 N4]]] by (destruct o; auto; right; right; split; discriminate).
  - rewrite S1 in H. refine (cbin_plain_ok OLt cb tb ca ta y x v Hb Ha Vy Vx _ _ _ _ _ H); reflexivity || discriminate.
  - rewrite S2 in H. refine (cbin_plain_ok OLe cb tb ca ta y x v Hb Ha Vy Vx _ _ _ _ _ H); reflexivity || discriminate.
  - replace (bin_code o ca ta cb tb) with (if is_shift o then cbin o (promote_ty ta) ca ta cb tb false else cbin o (uac_ty ta tb) ca ta cb tb true)
      by (destruct o; try reflexivity; congruence).
    destruct (is_shift o) eqn:Sh; [|apply (cbin_plain_ok o ca ta cb tb x y v); assumption].
    unfold bin_value in H. unfold bin_type. rewrite Sh in *. rewrite (shift_not_arith o Sh).
    destruct ta as [ia| |]; try discriminate H. destruct tb as [ib| |]; try (destruct x; discriminate H).
    destruct x as [xa|?|?]; try discriminate H. destruct y as [n|?|?]; try discriminate H.
    destruct (eval_shift o (promote ia) xa n) as [z|] eqn:E; [|discriminate]. injection H as <-.
    cbn [promote_ty val_ok] in *.
    apply (run_cbin o _ ca (TI ia) cb (TI ib) (VI xa) (VI n) (VI xa) (VI n) false _ (VI z) Ha Hb Vx Vy).
    + apply (convert_promote (TI ia) (VI xa) Vx).
    + repeat split.
    + intros s R1 R2. apply int_code_ok, (shift_codegen_ok o (promote ia) xa ib n (ix s) z (promote_big ia) (promote_range _ _ Vx) R1 R2 E).
Qed.

Lemma zero_test_ok t v s : val_ok t v = true -> Rv t v s -> exists s', test_zero mem t s = Some (negb (truth v), s').
Proof.
  intros Hv HR. unfold test_zero. destruct (is_fp t) eqn:Ht.
  - destruct (cmp_zero_fp mem t v s Ht HR) as (s1 & E1 & Z1). rewrite E1, Z1. exists s1. reflexivity.
  - destruct t as [it| |]; try discriminate. destruct (val_ok_int it v Hv) as (a & -> & Ra). cbn [Rv truth] in *.
    eexists. cbn [m_cmp_zero gen_cmp_zero map sexec sexec1 exec1 ix with_ix f_zf]. rewrite negb_involutive, (R_zero it a _ Ra HR). reflexivity.
Qed.

Lemma Rv_imm s (b : bool) : Rv (TI I32) (VI (b2z b)) (imm_rax s (if b then 1 else 0)).
Proof. cbn [Rv imm_rax ix with_ix rax set_rax]. apply R_b2z. destruct b; reflexivity. Qed.

Lemma computes_truth c t v s k : computes c t v -> val_ok t v = true ->
  exists s1 s2, frun mem c (s, k) = Some (s1, k) /\ test_zero mem t s1 = Some (negb (truth v), s2).
Proof. intros Hc Hv. destruct (Hc s k) as (s1 & E1 & R1). destruct (zero_test_ok t v s1 Hv R1) as (s2 & T2). eauto. Qed.

(* a && b, a || b: the right operand needs a value only where C evaluates it *)
Lemma cand_ok ca ta cb tb x v : computes ca ta x -> val_ok ta x = true ->
  (if truth x then exists y, computes cb tb y /\ val_ok tb y = true /\ v = VI (b2z (truth y)) else v = VI 0) ->
  computes (CAnd ca ta cb tb) (TI I32) v.
Proof.
  intros Ha Vx Hb s k. cbn [frun]. destruct (computes_truth _ _ _ s k Ha Vx) as (s1 & s2 & -> & ->). destruct (truth x); cbn [negb].
  - destruct Hb as (y & Hb & Vy & ->). destruct (computes_truth _ _ _ s2 k Hb Vy) as (s3 & s4 & -> & ->).
    eexists. split; [reflexivity|]. destruct (truth y); [apply (Rv_imm s4 true)|apply (Rv_imm s4 false)].
  - subst v. eexists. split; [reflexivity|apply (Rv_imm s2 false)].
Qed.
Lemma cor_ok ca ta cb tb x v : computes ca ta x -> val_ok ta x = true ->
  (if truth x then v = VI 1 else exists y, computes cb tb y /\ val_ok tb y = true /\ v = VI (b2z (truth y))) ->
  computes (COr ca ta cb tb) (TI I32) v.
Proof.
  intros Ha Vx Hb s k. cbn [frun]. destruct (computes_truth _ _ _ s k Ha Vx) as (s1 & s2 & -> & ->). destruct (truth x); cbn [negb].
  - subst v. eexists. split; [reflexivity|apply (Rv_imm s2 true)].
  - destruct Hb as (y & Hb & Vy & ->). destruct (computes_truth _ _ _ s2 k Hb Vy) as (s3 & s4 & -> & ->).
    eexists. split; [reflexivity|]. destruct (truth y); [apply (Rv_imm s4 true)|apply (Rv_imm s4 false)].
Qed.

Lemma load_kind_int it : load_kind (TI it) =
  match it with IBool | I8 => LdSB | U8 => LdZB | I16 => LdSW | U16 => LdZW | I32 | U32 => LdSL | I64 | U64 => LdQ end.
Proof. destruct it; reflexivity. Qed.

(* load(ty) on the 8 bytes at the address of an object holding z *)
Lemma var_int_ok it z s n : mem (addr_of n) = z mod 2 ^ 64 -> in_range it z = true ->
  exists s', sexec mem [SLea n; SLoad (load_kind (TI it))] s = Some s' /\ R it z (rax (ix s')).
Proof.
  intros Hm Hz. rewrite load_kind_int.
  destruct it; (eexists; split; [reflexivity|]); cbn [ix with_ix rax set_rax]; rewrite Hm.
  (* movsbl / movzbl / movswl / movzwl extend the low byte or word to the value itself, the type being signed resp.
     unsigned (and _Bool holding 0 or 1) *)
  1: rewrite (sx_low 8 64 z ltac:(lia) (proj1 (range_signed I8 z eq_refl) (in_range_sub I8 IBool z eq_refl Hz))); apply R_lo32; [exact Hz|reflexivity].
  1: apply (R_sx_low I8 64 z eq_refl eq_refl eq_refl Hz).
  1: apply (R_zx_low U8 64 z eq_refl eq_refl Hz).
  1: apply (R_sx_low I16 64 z eq_refl eq_refl eq_refl Hz).
  1: apply (R_zx_low U16 64 z eq_refl eq_refl Hz).
  3, 4: unfold reg64; rewrite Z.mod_mod by discriminate; apply (R_imm _ z (ix s) Hz).
  (* movsxd serves int and unsigned int alike: only the low 32 bits of the register count for a 4-byte type *)
  all: unfold reg64; apply R_of_low; [discriminate|discriminate|apply Z.mod_pos_bound; reflexivity|];
       rewrite mod_pow2_mod by (split; discriminate); exact (eq_trans (sx_mod 32 _) (mod_pow2_mod z 32 64 ltac:(split; discriminate))).
Qed.
End Compose.
