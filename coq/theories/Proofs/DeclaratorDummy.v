(* C08 (declarators): why the dummy pass of declarator() is sound - on EVERY token list.

   declarator() parses a parenthesised inner declarator first with `Type dummy = {}` only to find the ")" behind
   it, and later again with the real type.  That is right only if the tokens a declarator consumes, the identifier
   it finds and whether it fails do not depend on the type passed in.  One thing does depend on the type: the
   "array too large" test (/repo fbdf355) reads ty->size.  So the statement is: for all five mutually recursive
   functions of the model, every token list and every fuel, two runs that differ only in the type passed in agree
   on the tokens consumed, the identifier and the kind of failure - UNLESS one of them reports "array too large"
   (which ends the compilation anyway; DeclaratorSizes.v, chk_dummy, shows that on written declarators the dummy
   pass never reports it when the real pass would not). *)
From Coq Require Import List ZArith Bool Lia.
From Chibicc Require Import Spec.DeclSyntax Spec.DeclSpec6_7_6 Model.Declarator Proofs.DeclaratorParse.
Import ListNotations.

Definition sim_d (a b : res (option ident * mty * list tok)) : Prop :=
  match a, b with
  | TooLarge, _ => True
  | _, TooLarge => True
  | Ok r, Ok r' => fst (fst r) = fst (fst r') /\ snd r = snd r'
  | Err, Err => True
  | OutOfFuel, OutOfFuel => True
  | _, _ => False
  end.
Definition sim_s (a b : res (mty * list tok)) : Prop :=
  match a, b with
  | TooLarge, _ => True
  | _, TooLarge => True
  | Ok r, Ok r' => snd r = snd r'
  | Err, Err => True
  | OutOfFuel, OutOfFuel => True
  | _, _ => False
  end.

(* both are [sim R] for a relation R on the results; what is proved about the parser needs of them only that
   [bind] respects [sim] *)
Definition sim {A} (R : A -> A -> Prop) (a b : res A) : Prop :=
  match a, b with
  | TooLarge, _ => True
  | _, TooLarge => True
  | Ok r, Ok r' => R r r'
  | Err, Err => True
  | OutOfFuel, OutOfFuel => True
  | _, _ => False
  end.
Definition same_rest (r r' : mty * list tok) : Prop := snd r = snd r'.
Definition same_name (r r' : option ident * mty * list tok) : Prop := fst (fst r) = fst (fst r') /\ snd r = snd r'.

Lemma sim_TooLarge_r : forall A (R : A -> A -> Prop) a, sim R a TooLarge.
Proof. intros A R [r| | |]; exact I. Qed.

Lemma sim_bind {A B} {R : A -> A -> Prop} {Q : B -> B -> Prop} {a a' k k'} :
  sim R a a' -> (forall r r', R r r' -> sim Q (k r) (k' r')) -> sim Q (bind a k) (bind a' k').
Proof.
  intros H Hk.
  destruct a as [r| | |], a' as [r'| | |]; try contradiction H; try exact I; cbn [bind].
  - apply Hk, H.
  - apply sim_TooLarge_r.
Qed.

Lemma sim_bind_same {A B} {Q : B -> B -> Prop} {a : res A} {k k'} :
  (forall r, sim Q (k r) (k' r)) -> sim Q (bind a k) (bind a k').
Proof. intros Hk. destruct a as [r| | |]; try exact I. apply Hk. Qed.

Lemma sim_s_TooLarge_r : forall a, sim_s a TooLarge.
Proof. exact (sim_TooLarge_r _ same_rest). Qed.
Lemma sim_d_TooLarge_r : forall a, sim_d a TooLarge.
Proof. exact (sim_TooLarge_r _ same_name). Qed.

Lemma pointers_snd : forall toks b ty ty', snd (pointers b toks ty) = snd (pointers b toks ty').
Proof.
  induction toks as [|t toks IH]; intros b ty ty'; [reflexivity|].
  destruct t; try reflexivity; cbn [pointers].
  - apply IH.
  - destruct b; [apply IH|reflexivity].
Qed.

Definition indep (f : nat) : Prop :=
  (forall named toks ty ty', sim same_name (dcl named f toks ty) (dcl named f toks ty')) /\
  (forall toks ty ty', sim same_rest (type_suffix f toks ty) (type_suffix f toks ty')) /\
  (forall toks ty ty', sim same_rest (array_dimensions f toks ty) (array_dimensions f toks ty')) /\
  (forall toks ty ty', sim same_rest (func_params f toks ty) (func_params f toks ty')) /\
  (forall toks ty ty' acc acc', is_nil acc = is_nil acc' ->
     sim same_rest (params_loop f toks ty acc) (params_loop f toks ty' acc')).

Theorem independent_of_type : forall f, indep f.
Proof.
  induction f as [|f IH].
  - repeat split; intros; try destruct named; exact I.
  - destruct IH as [IHd [IHs [IHa [IHf IHl]]]].
    split; [|split; [|split; [|split]]].
    + intros named toks ty ty'. rewrite !dcl_S. unfold dclb.
      rewrite (pointers_snd toks false ty ty').
      generalize (snd (pointers false toks ty')) (fst (pointers false toks ty)) (fst (pointers false toks ty')).
      intros t1 a a'. unfold direct_part.
      destruct (nested_start t1) as [inner|].
      * apply sim_bind_same. intros r1.
        destruct (snd r1) as [|t t3]; [exact I|]. destruct t; try exact I.
        apply (sim_bind (IHs t3 a a')). intros r2 r2' E2.
        apply (sim_bind (IHd named inner (fst r2) (fst r2'))). intros r3 r3' E3.
        exact (conj (proj1 E3) E2).
      * apply (sim_bind (IHs _ a a')). intros r2 r2' E2. exact (conj eq_refl E2).
    + intros toks ty ty'. rewrite !type_suffix_S. unfold type_suffix_body.
      destruct toks as [|t toks]; [reflexivity|]. destruct t; try reflexivity; [apply IHf|apply IHa].
    + intros toks ty ty'. rewrite !array_dimensions_S. unfold array_dimensions_body.
      destruct (skip_static_quals toks) as [|t r]; [exact I|].
      destruct t; try exact I.
      * apply (sim_bind (IHs r ty ty')). intros r2 r2' E2. exact E2.
      * destruct r as [|t r]; [exact I|]. destruct t; try exact I.
        apply (sim_bind (IHs r ty ty')). intros r2 r2' E2.
        destruct (too_large n (fst r2)); [exact I|]. destruct (too_large n (fst r2')); [exact I|exact E2].
    + intros toks ty ty'. rewrite !func_params_S. unfold func_params_body.
      assert (Hl : sim same_rest (params_loop f toks ty []) (params_loop f toks ty' [])) by (apply IHl; reflexivity).
      destruct toks as [|t toks]; [exact Hl|]. destruct t; try exact Hl.
      destruct l; try exact Hl. destruct toks as [|t toks]; [exact Hl|]. destruct t; try exact Hl. reflexivity.
    + intros toks ty ty' acc acc' Hn. rewrite !params_loop_S. unfold params_loop_body. rewrite <- Hn.
      assert (Hstep : forall t1, sim same_rest (param_step f t1 ty acc) (param_step f t1 ty' acc')).
      { intros t1. unfold param_step.
        assert (Hd : sim same_rest (param_decl f t1 ty acc) (param_decl f t1 ty' acc')).
        { apply sim_bind_same. intros r1. apply IHl. reflexivity. }
        destruct t1 as [|t t1]; [exact Hd|]. destruct t; try exact Hd.
        apply sim_bind_same. intros r'. reflexivity. }
      (* every first token but ")" goes on to param_step; ")" ends the loop alike on both sides *)
      destruct toks as [|t toks]; [|destruct t]; try (apply sim_bind_same; intros t1; apply Hstep). reflexivity.
Qed.

(* abstract_declarator() without the padding of [dcl false] *)
Theorem abstract_independent_of_type : forall f toks ty ty',
  sim_s (abstract_declarator f toks ty) (abstract_declarator f toks ty').
Proof.
  intros f toks ty ty'. pose proof (proj1 (independent_of_type f) false toks ty ty') as H. unfold dcl in H.
  destruct (abstract_declarator f toks ty) as [r| | |], (abstract_declarator f toks ty') as [r'| | |];
    try exact H. exact (proj2 H).
Qed.
