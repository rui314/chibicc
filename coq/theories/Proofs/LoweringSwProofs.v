(* C03 (switch, labels, goto): the jump code of Model/LoweringSw.v simulates the structured semantics of
   Spec/SwSem.v - switch with fall-through, default anywhere, case labels in nested blocks / ifs /
   loops, break / continue through switches and loops, labelled statements and goto.

   The proof does not take sexec apart.  SwContProofs shows that what sexec computes is a run of the
   continuation machine of Spec/SwCont.v; here the code is shown to do every step of that machine:
   gen_stmt lays the code out so that one step of the machine in state (s, k, o) is one instruction (or
   none) of the code at a position `srel`ated to (s, k) - the code of s stands there, and the positions
   it leads to when it completes, breaks or continues do what the continuation k does (`skat`).  A loop
   that goes round is the machine's state "the same loop, without its init expression" at the position
   the code jumps back to, so no induction on a loop is needed.
   The statement of the theorem speaks of a statement embedded anywhere (P, p) with any break / continue
   targets (b, c): these are the three positions that the empty continuation Kstop stands for (Section
   Sim).  A goto ends what sexec computes for a statement, so there the agreement theorem is used with a
   function body without labels, in which no goto step can be taken; for a whole function body the gotos
   of the machine are steps like the others, lt giving each label its position. *)
From Coq Require Import List Arith Bool Lia.
Import ListNotations.
From Chibicc Require Import Base.ListFacts Spec.SwSem Spec.SwCont Model.LoweringSw Proofs.FlatSim Proofs.SwContProofs.

(* FlatSim's code_at at sinstr: its lemmas (code_at_app, code_at_cons, code_at_one) apply to an `sembedded` hypothesis by conversion *)
Definition sembedded (P : list sinstr) (p : nat) (code : list sinstr) : Prop :=
  forall i ins, nth_error code i = Some ins -> nth_error P (p + i) = Some ins.

Lemma sstar_trans P s1 t1 s2 t2 s3 : sstar P s1 t1 s2 -> sstar P s2 t2 s3 -> sstar P s1 (t1 ++ t2) s3.
Proof. induction 1 as [|st ev st' tr st'' Hs _ IH]; intros H2; [exact H2|]. rewrite <- app_assoc. eapply sstar_step; [exact Hs|apply IH; exact H2]. Qed.
Lemma sstar_one P s ev s' : sstep P s = Some (ev, s') -> sstar P s ev s'.
Proof. intros H. rewrite <- (app_nil_r ev). eapply sstar_step; [exact H|apply sstar_refl]. Qed.

(* a run whatever the register holds at its start (the register is only read by the compare
   chain of a switch, right after JSel wrote it) *)
Definition sreach (P : list sinstr) (q : nat) (o : soracle) (tr : strace) (q' : nat) (o' : soracle) : Prop :=
  forall r, exists r', sstar P (q, o, r) tr (q', o', r').

Lemma sreach_refl P q o : sreach P q o [] q o.
Proof. intros r. exists r. apply sstar_refl. Qed.
Lemma sreach_trans P q1 o1 t1 q2 o2 t2 q3 o3 : sreach P q1 o1 t1 q2 o2 -> sreach P q2 o2 t2 q3 o3 -> sreach P q1 o1 (t1 ++ t2) q3 o3.
Proof. intros H1 H2 r. destruct (H1 r) as [r1 S1]. destruct (H2 r1) as [r2 S2]. exists r2. eapply sstar_trans; [exact S1|exact S2]. Qed.
Lemma sreach_step P q o ev q' o' : (forall r, sstep P (q, o, r) = Some (ev, (q', o', r))) -> sreach P q o ev q' o'.
Proof. intros H r. exists r. apply sstar_one. apply H. Qed.

Lemma sreach_mark P q o n : nth_error P q = Some (JMark n) -> sreach P q o [n] (q + 1) o.
Proof. intros H. apply sreach_step. intros r. unfold sstep. rewrite H, Nat.add_1_r. reflexivity. Qed.
Lemma sreach_jmp P q o t : nth_error P q = Some (JJmp t) -> sreach P q o [] t o.
Proof. intros H. apply sreach_step. intros r. unfold sstep. rewrite H. reflexivity. Qed.
Lemma sreach_jf P q o k t v : nth_error P q = Some (JCondJf k t) -> sreach P q (v :: o) [k] (if v =? 0 then t else q + 1) o.
Proof. intros H. apply sreach_step. intros r. unfold sstep. rewrite H, Nat.add_1_r. reflexivity. Qed.
Lemma sreach_jt P q o k t v : nth_error P q = Some (JCondJt k t) -> sreach P q (v :: o) [k] (if v =? 0 then q + 1 else t) o.
Proof. intros H. apply sreach_step. intros r. unfold sstep. rewrite H, Nat.add_1_r. reflexivity. Qed.
Lemma sreach_marks P l : forall q o, sembedded P q (map JMark l) -> sreach P q o l (q + length l) o.
Proof.
  induction l as [|n l IH]; intros q o H; cbn [length map] in *.
  - rewrite Nat.add_0_r. apply sreach_refl.
  - apply code_at_cons in H. destruct H as [H1 H2]. replace (q + S (length l)) with (q + 1 + length l) by lia.
    exact (sreach_trans P _ _ [n] _ _ l _ _ (sreach_mark P q o n H1) (IH _ o H2)).
Qed.

Lemma scases_vals : forall s p, map fst (scases s p) = scvals s.
Proof.
  induction s as [n| |a IHa b IHb|k a IHa b IHb|init k inc body IHb|body IHb k| | |k body IHb|c s IHs|s IHs|l s IHs|l|ki tab]; intros p; cbn [scases scvals map]; try reflexivity;
    rewrite ?map_app, ?IHa, ?IHb, ?IHs; reflexivity.
Qed.
Lemma scases_length s p : length (scases s p) = length (scvals s).
Proof. rewrite <- (scases_vals s p). rewrite map_length. reflexivity. Qed.
Lemma sdefaults_length : forall s p, length (sdefaults s p) = sndef s.
Proof.
  induction s as [n| |a IHa b IHb|k a IHa b IHb|init k inc body IHb|body IHb k| | |k body IHb|c s IHs|s IHs|l s IHs|l|ki tab]; intros p; cbn [sdefaults sndef length]; try reflexivity;
    rewrite ?app_length, ?IHa, ?IHb, ?IHs; cbn [length]; try reflexivity; lia.
Qed.
Lemma slabels_names : forall s p, map fst (slabels s p) = slabnames s.
Proof.
  induction s as [n| |a IHa b IHb|k a IHa b IHb|init k inc body IHb|body IHb k| | |k body IHb|c s IHs|s IHs|l s IHs|l|ki tab]; intros p; cbn [slabels slabnames map]; try reflexivity;
    rewrite ?map_app, ?IHa, ?IHb, ?IHs; reflexivity.
Qed.

Lemma slast_length l : length (match slast l with Some d => [JJmp d] | None => [] end) = if length l =? 0 then 0 else 1.
Proof.
  unfold slast. rewrite <- (rev_length l). destruct (rev l); reflexivity.
Qed.

Lemma sgen_length lt : forall s p b c, length (sgen lt s p b c) = ssize s.
Proof.
  induction s as [n| |a IHa b0 IHb|k a IHa b0 IHb|init k inc body IHb|body IHb k| | |k body IHb|c0 s IHs|s IHs|l s IHs|l|ki tab]; intros p b c; cbn [sgen ssize length]; try reflexivity.
  - rewrite app_length, IHa, IHb. reflexivity.
  - rewrite !app_length, IHa, IHb. cbn [length]. lia.
  - rewrite !app_length, IHb, !map_length. destruct k; cbn [length sklen]; lia.
  - rewrite app_length, IHb. cbn [length]. lia.
  - rewrite !app_length, IHb, map_length, rev_length, scases_length, slast_length, sdefaults_length. cbn [length]. unfold sswitch_head. lia.
  - apply IHs.
  - apply IHs.
  - apply IHs.
Qed.

(* where a label is: the position gen_stmt prints it at, found in the order the structured
   semantics looks for it *)
Fixpoint spos (t : starget) (s : sstmt) (p : nat) : option nat :=
  match s with
  | SSeq a b => match spos t a p with Some q => Some q | None => spos t b (p + ssize a) end
  | SIf _ a b => match spos t a (p + 1) with Some q => Some q | None => spos t b (p + 1 + ssize a + 1) end
  | SFor init k _ body => spos t body (p + length init + sklen k)
  | SDo body _ => spos t body p
  | SSwitch _ body => match t with TLabel _ => spos t body (p + sswitch_head body) | _ => None end
  | SCase c s1 => if starget_eqb t (TCase c) then Some p else spos t s1 p
  | SDefault s1 => if starget_eqb t TDefault then Some p else spos t s1 p
  | SLabel l s1 => if starget_eqb t (TLabel l) then Some p else spos t s1 p
  | _ => None
  end.

(* where execution in mode m enters the code of s generated at p *)
Definition sentry (m : smode) (s : sstmt) (p : nat) : option nat :=
  match m with None => Some p | Some t => spos t s p end.

(* where control is after s (generated at p, with brk / cont) completed with outcome out *)
Definition sout_target (lt : list (nat * nat)) (out : soutcome) (p : nat) (s : sstmt) (b c : nat) : nat :=
  match out with
  | RNormal => p + ssize s
  | RBreak => b
  | RCont => c
  | RGoto l => slabel_target lt l
  | RSeek => p
  end.

Lemma starget_eqb_refl t : starget_eqb t t = true.
Proof. destruct t; cbn; try reflexivity; apply Nat.eqb_refl. Qed.
Lemma starget_eqb_eq a b : starget_eqb a b = true <-> a = b.
Proof.
  split; [|intros ->; apply starget_eqb_refl].
  destruct a, b; cbn [starget_eqb]; try discriminate; try reflexivity; intros H; apply Nat.eqb_eq in H; congruence.
Qed.
Lemma sentry_seq m a b p : sentry m (SSeq a b) p = match sentry m a p with Some q => Some q | None => sentry m b (p + ssize a) end.
Proof. destruct m; reflexivity. Qed.
Lemma sentry_arrive m here s p :
  (match m with Some t => if starget_eqb t here then Some p else spos t s p | None => Some p end) = sentry (sarrive m here) s p.
Proof. destruct m as [t|]; cbn [sarrive sentry]; [|reflexivity]. destruct (starget_eqb t here); reflexivity. Qed.

(* spos against the tables gen_stmt works with: q stands in the table of s (generated at p) that
   belongs to the kind of label t is *)
Definition sregistered (t : starget) (q : nat) (s : sstmt) (p : nat) : Prop :=
  match t with
  | TCase v => In (v, q) (scases s p)
  | TDefault => In q (sdefaults s p)
  | TLabel l => In (l, q) (slabels s p)
  end.
Definition spos_ok (t : starget) (s : sstmt) (p : nat) : Prop :=
  match spos t s p with Some q => sregistered t q s p | None => forall q, ~ sregistered t q s p end.

(* SSeq, SIf: s looks in a, then in b, and its tables are those of a followed by those of b *)
Lemma spos_ok_either s p a pa b pb :
  (forall t, spos t s p = match spos t a pa with Some q => Some q | None => spos t b pb end) ->
  (forall t q, sregistered t q s p <-> sregistered t q a pa \/ sregistered t q b pb) ->
  (forall t, spos_ok t a pa) -> (forall t, spos_ok t b pb) -> forall t, spos_ok t s p.
Proof.
  intros Hs Hr Ha Hb t. specialize (Ha t). specialize (Hb t). unfold spos_ok in *. rewrite Hs.
  destruct (spos t a pa) as [q|]; [apply Hr; left; exact Ha|].
  destruct (spos t b pb) as [q|]; [apply Hr; right; exact Hb|].
  intros q Hq. apply Hr in Hq. destruct Hq as [Hq|Hq]; [exact (Ha q Hq)|exact (Hb q Hq)].
Qed.
(* SCase, SDefault, SLabel: s is s1 with the label `here` in front, registered after what s1 registers *)
Lemma spos_ok_labelled here s s1 p :
  (forall t, spos t s p = if starget_eqb t here then Some p else spos t s1 p) ->
  (forall t q, sregistered t q s p <-> sregistered t q s1 p \/ t = here /\ q = p) ->
  (forall t, spos_ok t s1 p) -> forall t, spos_ok t s p.
Proof.
  intros Hs Hr H1 t. specialize (H1 t). unfold spos_ok in *. rewrite Hs. destruct (starget_eqb t here) eqn:E.
  - apply starget_eqb_eq in E. apply Hr. right. split; [exact E|reflexivity].
  - destruct (spos t s1 p) as [q|]; [apply Hr; left; exact H1|].
    intros q Hq. apply Hr in Hq. destruct Hq as [Hq|[-> _]]; [exact (H1 q Hq)|]. rewrite starget_eqb_refl in E. discriminate.
Qed.

Lemma spos_spec : forall s p t, spos_ok t s p.
Proof.
  induction s as [n| |a IHa b IHb|k a IHa b IHb|init k inc body IHb|body IHb k| | |k body IHb|c s IHs|s IHs|l s IHs|l|ki tab]; intros p;
    try (intros t q; destruct t; intros []). (* the statements without sub-statement: no label, empty tables *)
  - apply (spos_ok_either _ p a p b (p + ssize a)); [reflexivity|intros t q; destruct t; apply in_app_iff|apply IHa|apply IHb].
  - apply (spos_ok_either _ p a (p + 1) b (p + 1 + ssize a + 1)); [reflexivity|intros t q; destruct t; apply in_app_iff|apply IHa|apply IHb].
  - exact (IHb _).
  - exact (IHb _).
  - intros t. destruct t; [intros q []|intros q []|exact (IHb _ _)].
  - apply (spos_ok_labelled (TCase c) _ s p); [reflexivity| |apply IHs].
    intros t q. destruct t; cbn [sregistered scases sdefaults slabels]; rewrite ?in_app_iff; cbn [In]; intuition congruence.
  - apply (spos_ok_labelled TDefault _ s p); [reflexivity| |apply IHs].
    intros t q. destruct t; cbn [sregistered scases sdefaults slabels]; rewrite ?in_app_iff; cbn [In]; intuition congruence.
  - apply (spos_ok_labelled (TLabel l) _ s p); [reflexivity| |apply IHs].
    intros t q. destruct t; cbn [sregistered scases sdefaults slabels]; rewrite ?in_app_iff; cbn [In]; intuition congruence.
Qed.
Lemma spos_some t s p q : spos t s p = Some q -> sregistered t q s p.
Proof. intros H. pose proof (spos_spec s p t) as Hs. unfold spos_ok in Hs. rewrite H in Hs. exact Hs. Qed.
Lemma spos_none t s p : spos t s p = None -> forall q, ~ sregistered t q s p.
Proof. intros H. pose proof (spos_spec s p t) as Hs. unfold spos_ok in Hs. rewrite H in Hs. exact Hs. Qed.

Lemma find_fst_none (l : list (nat * nat)) v : (forall t, ~ In (v, t) l) -> find (fun e => fst e =? v) l = None.
Proof.
  induction l as [|[c t] l IH]; intros H; cbn [find fst]; [reflexivity|].
  destruct (c =? v) eqn:E; [apply Nat.eqb_eq in E; subst; exfalso; apply (H t); left; reflexivity|]. apply IH. intros t0 Hin. apply (H t0). right. exact Hin.
Qed.
Lemma find_fst_nodup (l : list (nat * nat)) v t : NoDup (map fst l) -> In (v, t) l -> find (fun e => fst e =? v) l = Some (v, t).
Proof.
  induction l as [|[c t0] l IH]; intros Hnd Hin; cbn [find map fst] in *; [contradiction|].
  inversion Hnd as [|x xs Hx Hnd']; subst. destruct Hin as [Heq|Hin].
  - injection Heq as -> ->. rewrite Nat.eqb_refl. reflexivity.
  - destruct (c =? v) eqn:E; [|apply IH; assumption]. apply Nat.eqb_eq in E. subst. exfalso. apply Hx. change v with (fst (v, t)). apply in_map. exact Hin.
Qed.
Lemma snodup_NoDup l : snodup l = true -> NoDup l.
Proof.
  induction l as [|x l IH]; intros H; [constructor|]. cbn [snodup] in H. apply andb_prop in H. destruct H as [H1 H2]. constructor; [|apply IH; exact H2].
  intros Hin. apply negb_true_iff in H1. apply existsb_nat_In in Hin. congruence.
Qed.
(* chibicc's tables are searched newest first: the first entry of the reversed table with the
   name is THE entry, when names are distinct *)
Lemma find_rev_nodup (l : list (nat * nat)) v t : NoDup (map fst l) -> In (v, t) l -> find (fun e => fst e =? v) (rev l) = Some (v, t).
Proof.
  intros Hnd Hin. apply find_fst_nodup; [rewrite map_rev; apply NoDup_rev; exact Hnd|rewrite <- in_rev; exact Hin].
Qed.
Lemma find_rev_none (l : list (nat * nat)) v : (forall t, ~ In (v, t) l) -> find (fun e => fst e =? v) (rev l) = None.
Proof. intros H. apply find_fst_none. intros t Hin. apply in_rev in Hin. exact (H t Hin). Qed.

(* the compare chain: with the controlling value in the register, control goes to the target of
   the first case with that constant, else past the chain *)
Lemma schain_run P : forall (l : list (nat * nat)) q o v, sembedded P q (map (fun ct => JCase (fst ct) (snd ct)) l) ->
  sstar P (q, o, v) [] (match find (fun ct => fst ct =? v) l with Some ct => snd ct | None => q + length l end, o, v).
Proof.
  induction l as [|[c t] l IH]; intros q o v H; cbn [map find fst snd length] in *.
  - rewrite Nat.add_0_r. apply sstar_refl.
  - apply code_at_cons in H. destruct H as [H1 H2]. rewrite (Nat.eqb_sym c v).
    change (@nil nat) with (@nil nat ++ []). eapply sstar_step; [unfold sstep; rewrite H1; reflexivity|].
    destruct (v =? c); [apply sstar_refl|]. replace (S q) with (q + 1) by lia. replace (q + S (length l)) with (q + 1 + length l) by lia. apply IH. exact H2.
Qed.

Section Sim.
Variables (lt : list (nat * nat)) (P : list sinstr).
(* what Kstop stands for: where control is to be when the statement (or function body) the theorem is about has
   completed, after a break out of it, after a continue out of it *)
Variables n0 b0 c0 : nat.

Definition sgoes (x y : nat) : Prop := forall o, sreach P x o [] y o.
Lemma sgoes_refl x : sgoes x x.
Proof. intros o. apply sreach_refl. Qed.
Lemma sgoes_trans {x y z} : sgoes x y -> sgoes y z -> sgoes x z.
Proof. intros H1 H2 o. exact (sreach_trans P _ _ [] _ _ [] _ _ (H1 o) (H2 o)). Qed.
Lemma sgoes_jmp {q t} : nth_error P q = Some (JJmp t) -> sgoes q t.
Proof. intros H o. exact (sreach_jmp P q o t H). Qed.
Lemma sreach_goes {q o tr q1 o1 q2} : sreach P q o tr q1 o1 -> sgoes q1 q2 -> sreach P q o tr q2 o1.
Proof. intros H1 H2. rewrite <- (app_nil_r tr). exact (sreach_trans P _ _ _ _ _ _ _ _ H1 (H2 o1)). Qed.

(* the code of s stands at q, generated with break / continue targets b c, and leads on to n - which need not be its end:
   behind the then-branch of an if stands the jump over the else-branch *)
Definition sfits (s : sstmt) (q n b c : nat) : Prop :=
  sembedded P q (sgen lt s q b c) /\ swf s = true /\ sgoes (q + ssize s) n.

(* The continuation k is what the code does from n, b, c - the positions where control is after the statement in
   front of k has completed, after a break, after a continue.  A frame of a loop says that the whole loop stands
   at q and gives n, b, c their places in its code; what follows the loop is the rest of the continuation. *)
Fixpoint skat (k : scont) (n b c : nat) : Prop :=
  match k with
  | Kstop => n = n0 /\ b = b0 /\ c = c0
  | Kseq s2 k1 => exists n1, sfits s2 n n1 b c /\ skat k1 n1 b c
  | Kfor kc inc body k1 => exists q n1 b1 c1, sfits (SFor [] kc inc body) q n1 b1 c1 /\ skat k1 n1 b1 c1 /\
                           n = q + sklen kc + ssize body /\ c = n /\ b = n + length inc + 1
  | Kdo body kc k1 => exists q n1 b1 c1, sfits (SDo body kc) q n1 b1 c1 /\ skat k1 n1 b1 c1 /\
                      n = q + ssize body /\ c = n /\ b = n + 1
  | Kswitch k1 => exists n1 b1, sgoes n n1 /\ skat k1 n1 b1 c /\ b = n
  end.

(* The machine in state (s, k, _) corresponds to the code at q: the code of s stands at q and leads on to positions
   that do what k does.  SSkip, SBreak, SContinue and SGoto l are also the states in which the machine carries an
   outcome through the frames of k, one frame per step, while the code has jumped already: for them q only has to
   lead to the position in question. *)
Definition srel (s : sstmt) (k : scont) (q : nat) : Prop :=
  exists n b c, skat k n b c /\
  match s with
  | SSkip => sgoes q n
  | SBreak => sgoes q b
  | SContinue => sgoes q c
  | SGoto l => sgoes q (slabel_target lt l)
  | _ => sfits s q n b c
  end.

Lemma srel_of_fits {s k q n b c} : sfits s q n b c -> skat k n b c -> srel s k q.
Proof.
  intros Hf Hk. exists n, b, c. split; [exact Hk|]. destruct s; try exact Hf; destruct Hf as (He & _ & Hg); cbn [sgen ssize] in *.
  - rewrite Nat.add_0_r in Hg. exact Hg.
  - exact (sgoes_jmp (code_at_one _ _ _ He)).
  - exact (sgoes_jmp (code_at_one _ _ _ He)).
  - exact (sgoes_jmp (code_at_one _ _ _ He)).
Qed.

Lemma sfits_seq {a b0' q n b c} : sfits (SSeq a b0') q n b c -> sfits a q (q + ssize a) b c /\ sfits b0' (q + ssize a) n b c.
Proof.
  intros (He & Hw & Hg). cbn [sgen swf ssize] in *. apply andb_prop in Hw. destruct Hw as [Hwa Hwb].
  apply code_at_app in He. destruct He as [Ha Hb]. rewrite sgen_length in Hb. rewrite Nat.add_assoc in Hg.
  split; (split; [assumption|split; [assumption|]]); [apply sgoes_refl|exact Hg].
Qed.
Lemma sfits_if {kc a b0' q n b c} : sfits (SIf kc a b0') q n b c ->
  nth_error P q = Some (JCondJf kc (q + 1 + ssize a + 1)) /\ sfits a (q + 1) n b c /\ sfits b0' (q + 1 + ssize a + 1) n b c.
Proof.
  intros (He & Hw & Hg). cbn [sgen swf ssize] in *. apply andb_prop in Hw. destruct Hw as [Hwa Hwb].
  apply code_at_cons in He. destruct He as [Hc He]. apply code_at_app in He. destruct He as [Ha He]. rewrite sgen_length in He.
  apply code_at_cons in He. destruct He as [Hj Hb].
  replace (q + (2 + ssize a + ssize b0')) with (q + 1 + ssize a + 1 + ssize b0') in Hg by lia.
  split; [exact Hc|]. split; (split; [assumption|split; [assumption|]]); [exact (sgoes_trans (sgoes_jmp Hj) Hg)|exact Hg].
Qed.
(* a for statement is its init expression followed by the same loop without one: the loop is entered again there *)
Lemma sfits_for {init kc inc body q n b c} : sfits (SFor init kc inc body) q n b c ->
  sembedded P q (map JMark init) /\ sfits (SFor [] kc inc body) (q + length init) n b c.
Proof.
  intros (He & Hw & Hg). unfold sfits. cbn [sgen swf ssize length map app] in *. rewrite !Nat.add_0_r. apply code_at_app in He. destruct He as [Hi He]. rewrite map_length in He.
  split; [exact Hi|]. split; [exact He|]. split; [exact Hw|]. cbn [Nat.add]. rewrite !Nat.add_assoc in *. exact Hg.
Qed.
Lemma sfits_for_parts {kc inc body q n b c} (pbody := q + sklen kc + ssize body) : sfits (SFor [] kc inc body) q n b c ->
  (forall c0', kc = Some c0' -> nth_error P q = Some (JCondJf c0' (pbody + length inc + 1))) /\
  sfits body (q + sklen kc) pbody (pbody + length inc + 1) pbody /\
  (forall o, sreach P pbody o inc q o) /\ sgoes (pbody + length inc + 1) n.
Proof.
  intros (He & Hw & Hg). subst pbody. cbn [sgen swf ssize length map app] in *. rewrite !Nat.add_0_r in *. apply code_at_app in He. destruct He as [Hc He].
  assert (Hlen : length (match kc with Some kk => [JCondJf kk (q + sklen kc + ssize body + length inc + 1)] | None => [] end) = sklen kc) by (destruct kc; reflexivity).
  rewrite Hlen in He. apply code_at_app in He. destruct He as [Hb He]. rewrite sgen_length in He.
  apply code_at_app in He. destruct He as [Hinc Hj]. rewrite map_length in Hj. apply code_at_one in Hj.
  split; [intros c0' ->; exact (code_at_one _ _ _ Hc)|]. split; [split; [exact Hb|split; [exact Hw|apply sgoes_refl]]|].
  split; [|rewrite !Nat.add_assoc, Nat.add_0_r in Hg; exact Hg].
  intros o. exact (sreach_goes (sreach_marks P inc _ o Hinc) (sgoes_jmp Hj)).
Qed.
Lemma sfits_do {body kc q n b c} (pc := q + ssize body) : sfits (SDo body kc) q n b c ->
  sfits body q pc (pc + 1) pc /\ nth_error P pc = Some (JCondJt kc q) /\ sgoes (pc + 1) n.
Proof.
  intros (He & Hw & Hg). subst pc. cbn [sgen swf ssize] in *. apply code_at_app in He. destruct He as [Hb Hc]. rewrite sgen_length in Hc.
  split; [split; [exact Hb|split; [exact Hw|apply sgoes_refl]]|]. split; [exact (code_at_one _ _ _ Hc)|]. rewrite Nat.add_assoc in Hg. exact Hg.
Qed.

Lemma skat_for {kc inc body q n b c k} (pbody := q + sklen kc + ssize body) :
  sfits (SFor [] kc inc body) q n b c -> skat k n b c -> skat (Kfor kc inc body k) pbody (pbody + length inc + 1) pbody.
Proof. intros Hf Hk. exists q, n, b, c. split; [exact Hf|]. split; [exact Hk|]. repeat split. Qed.
Lemma skat_do {body kc q n b c k} (pc := q + ssize body) :
  sfits (SDo body kc) q n b c -> skat k n b c -> skat (Kdo body kc k) pc (pc + 1) pc.
Proof. intros Hf Hk. exists q, n, b, c. split; [exact Hf|]. split; [exact Hk|]. repeat split. Qed.

(* The code before the body of a switch: cond, compare chain, jump to the default label, jump to the end.  With
   distinct case constants and at most one default it takes control to where the structured semantics enters the
   body: the case label with the value, else the default label, else past the switch. *)
Lemma sfits_switch {kc body q n b c k} (pbody := q + sswitch_head body) (pend := pbody + ssize body) :
  sfits (SSwitch kc body) q n b c -> skat k n b c ->
  sfits body pbody pend pend c /\ skat (Kswitch k) pend pend c /\
  forall v o, sreach P q (v :: o) [kc]
    (match spos (TCase v) body pbody with
     | Some q1 => q1
     | None => match spos TDefault body pbody with Some d => d | None => pend end
     end) o.
Proof.
  intros (Hemb & Hw & Hg) Hk. subst pbody pend. cbn [sgen swf ssize] in Hemb, Hw, Hg. rewrite Nat.add_assoc in Hg.
  apply andb_prop in Hw. destruct Hw as [Hw Hwb]. apply andb_prop in Hw. destruct Hw as [Hnd Hdef]. apply Nat.leb_le in Hdef. apply snodup_NoDup in Hnd.
  apply code_at_cons in Hemb. destruct Hemb as [Hsel Hemb]. apply code_at_app in Hemb. destruct Hemb as [Hchain Hemb].
  rewrite map_length, rev_length, scases_length in Hemb.
  apply code_at_app in Hemb. destruct Hemb as [Hd Hemb]. rewrite slast_length, sdefaults_length in Hemb.
  apply code_at_cons in Hemb. destruct Hemb as [Hjb Hbody].
  replace (q + 1 + length (scvals body) + (if sndef body =? 0 then 0 else 1) + 1) with (q + sswitch_head body) in Hbody by (unfold sswitch_head; lia).
  split; [exact (conj Hbody (conj Hwb (sgoes_refl _)))|]. split; [exists n, b; repeat split; assumption|].
  set (pbody := q + sswitch_head body) in *. intros v o r. exists v.
  (* cond, then the chain with the value in the register *)
  rewrite <- (app_nil_r [kc]). eapply sstar_step; [unfold sstep; rewrite Hsel; reflexivity|].
  rewrite <- (Nat.add_1_r q). pose proof (schain_run P (rev (scases body pbody)) (q + 1) o v Hchain) as Sc. rewrite rev_length, scases_length in Sc.
  destruct (spos (TCase v) body pbody) as [q1|] eqn:Eq.
  - rewrite (find_rev_nodup (scases body pbody) v q1) in Sc; [exact Sc|rewrite scases_vals; exact Hnd|exact (spos_some _ _ _ _ Eq)].
  - rewrite (find_rev_none (scases body pbody) v) in Sc by exact (spos_none _ _ _ Eq).
    eapply (sstar_trans P _ [] _ []); [exact Sc|]. clear Sc.
    pose proof (sdefaults_length body pbody) as Hl. pose proof (spos_spec body pbody TDefault) as Hs. unfold spos_ok in Hs. cbn [sregistered] in Hs.
    destruct (spos TDefault body pbody) as [d|].
    + (* the default label, the only one *)
      destruct (sdefaults body pbody) as [|d1 [|d2 ds]]; [contradiction| |cbn [length] in Hl; lia].
      destruct Hs as [->|[]]. apply code_at_one in Hd. apply sstar_one. unfold sstep. rewrite Hd. reflexivity.
    + destruct (sdefaults body pbody) as [|d ds]; [|exfalso; exact (Hs d (or_introl eq_refl))].
      rewrite <- Hl, Nat.add_0_r in Hjb. apply sstar_one. unfold sstep. rewrite Hjb. reflexivity.
Qed.

(* the labelled statement that sfind finds, with its continuation, stands where spos says *)
Lemma sfind_rel t : forall s k q n b c, sfits s q n b c -> skat k n b c ->
  match sfind t s k, spos t s q with
  | Some (s1, k1), Some q1 => srel s1 k1 q1
  | None, None => True
  | _, _ => False
  end.
Proof.
  induction s as [m| |a IHa b0' IHb|kc a IHa b0' IHb|init kc inc body IHb|body IHb kc| | |kc body IHb|cv s1 IHs|s1 IHs|l s1 IHs|l|kc tab];
    intros k q n b c Hf Hk; cbn [sfind spos]; try exact I.
  - destruct (sfits_seq Hf) as [Ha Hb]. specialize (IHa (Kseq b0' k) q _ b c Ha (ex_intro _ n (conj Hb Hk))).
    destruct (sfind t a (Kseq b0' k)) as [[s1 k1]|], (spos t a q) as [q1|]; try contradiction; [exact IHa|exact (IHb k _ n b c Hb Hk)].
  - destruct (sfits_if Hf) as (_ & Ha & Hb). specialize (IHa k _ n b c Ha Hk).
    destruct (sfind t a k) as [[s1 k1]|], (spos t a (q + 1)) as [q1|]; try contradiction; [exact IHa|exact (IHb k _ n b c Hb Hk)].
  - destruct (sfits_for Hf) as [_ Hl]. destruct (sfits_for_parts Hl) as (_ & Hb & _). exact (IHb _ _ _ _ _ Hb (skat_for Hl Hk)).
  - destruct (sfits_do Hf) as (Hb & _). exact (IHb _ _ _ _ _ Hb (skat_do Hf Hk)).
  - destruct t as [cv| |l]; try exact I. destruct (sfits_switch Hf Hk) as (Hb & Hks & _). exact (IHb _ _ _ _ _ Hb Hks).
  - destruct (starget_eqb t (TCase cv)); [exact (srel_of_fits (s := s1) Hf Hk)|exact (IHs k q n b c Hf Hk)].
  - destruct (starget_eqb t TDefault); [exact (srel_of_fits (s := s1) Hf Hk)|exact (IHs k q n b c Hf Hk)].
  - destruct (starget_eqb t (TLabel l)); [exact (srel_of_fits (s := s1) Hf Hk)|exact (IHs k q n b c Hf Hk)].
Qed.

Lemma sentry_rel m s k q n b c : sfits s q n b c -> skat k n b c ->
  match centry m s k, sentry m s q with
  | Some (s1, k1), Some q1 => srel s1 k1 q1
  | None, None => True
  | _, _ => False
  end.
Proof. intros Hf Hk. destruct m as [t|]; [exact (sfind_rel t s k q n b c Hf Hk)|exact (srel_of_fits Hf Hk)]. Qed.

(* the function body whose labels a goto of the machine looks up: lt gives every label it has the position of the
   labelled statement *)
Variable fn : sstmt.
Hypothesis Hgoto : forall l s1 k1, sfind (TLabel l) fn Kstop = Some (s1, k1) -> srel s1 k1 (slabel_target lt l).

Lemma sstep_sim s k o q : srel s k q ->
  match cstep fn (s, k, o) with
  | Some (ev, (s', k', o')) => exists q', sreach P q o ev q' o' /\ srel s' k' q'
  | None => True
  end.
Proof.
  intros (n & b & c & Hk & Hat).
  destruct s as [m| |a b0'|kc a b0'|init kc inc body|body kc| | |kc body|cv s1|s1|l s1|l|kc tab]; cbn [cstep].
  - destruct Hat as (He & _ & Hg). exists (q + 1). split; [exact (sreach_mark P q o m (code_at_one _ _ _ He))|]. exists n, b, c. split; assumption.
  - destruct k as [|s2 k1|kc inc body k1|body kc k1|k1]; cbn [skat] in Hk; [exact I|..].
    + destruct Hk as (n1 & Hf2 & Hk1). exists n. split; [apply Hat|exact (srel_of_fits Hf2 Hk1)].
    + destruct Hk as (q0 & n1 & b1 & c1 & Hl & Hk1 & -> & _ & _). destruct (sfits_for_parts Hl) as (_ & _ & Hinc & _).
      exists q0. split; [|exact (srel_of_fits Hl Hk1)]. exact (sreach_trans P _ _ [] _ _ inc _ _ (Hat o) (Hinc o)).
    + destruct o as [|v o1]; [exact I|]. destruct Hk as (q0 & n1 & b1 & c1 & Hl & Hk1 & -> & _ & _). destruct (sfits_do Hl) as (_ & Hc & Hg).
      eexists. split; [exact (sreach_trans P _ _ [] _ _ [kc] _ _ (Hat (v :: o1)) (sreach_jt P _ o1 kc q0 v Hc))|].
      destruct (v =? 0); [exists n1, b1, c1; split; assumption|exact (srel_of_fits Hl Hk1)].
    + destruct Hk as (n1 & b1 & Hg & Hk1 & _). exists q. split; [apply sreach_refl|]. exists n1, b1, c. split; [exact Hk1|exact (sgoes_trans Hat Hg)].
  - destruct (sfits_seq Hat) as [Ha Hb]. exists q. split; [apply sreach_refl|]. exact (srel_of_fits (k := Kseq b0' k) Ha (ex_intro _ n (conj Hb Hk))).
  - destruct o as [|v o1]; [exact I|]. destruct (sfits_if Hat) as (Hc & Ha & Hb).
    eexists. split; [exact (sreach_jf P q o1 kc _ v Hc)|]. destruct (v =? 0); [exact (srel_of_fits Hb Hk)|exact (srel_of_fits Ha Hk)].
  - destruct (sfits_for Hat) as [Hi Hl]. destruct (sfits_for_parts Hl) as (Hc & Hb & _ & Hg).
    pose proof (srel_of_fits Hb (skat_for Hl Hk)) as Rb. destruct kc as [c0'|]; cbn [sklen] in *.
    + destruct o as [|v o1]; [exact I|].
      pose proof (sreach_trans P _ _ _ _ _ _ _ _ (sreach_marks P init q (v :: o1) Hi) (sreach_jf P _ o1 c0' _ v (Hc _ eq_refl))) as Sc.
      destruct (v =? 0); (eexists; split; [exact Sc|]); [exists n, b, c; split; [exact Hk|exact Hg]|exact Rb].
    + rewrite Nat.add_0_r in Rb. exists (q + length init). split; [exact (sreach_marks P init q o Hi)|exact Rb].
  - destruct (sfits_do Hat) as (Hb & _). exists q. split; [apply sreach_refl|exact (srel_of_fits Hb (skat_do Hat Hk))].
  - (* break: through the frames of blocks to the end of the loop or switch *)
    destruct k as [|s2 k1|kc inc body k1|body kc k1|k1]; cbn [skat] in Hk; [exact I|..]; (exists q; split; [apply sreach_refl|]).
    + destruct Hk as (n1 & _ & Hk1). exists n1, b, c. split; assumption.
    + destruct Hk as (q0 & n1 & b1 & c1 & Hl & Hk1 & -> & _ & ->). destruct (sfits_for_parts Hl) as (_ & _ & _ & Hg).
      exists n1, b1, c1. split; [exact Hk1|exact (sgoes_trans Hat Hg)].
    + destruct Hk as (q0 & n1 & b1 & c1 & Hl & Hk1 & -> & _ & ->). destruct (sfits_do Hl) as (_ & _ & Hg).
      exists n1, b1, c1. split; [exact Hk1|exact (sgoes_trans Hat Hg)].
    + destruct Hk as (n1 & b1 & Hg & Hk1 & ->). exists n1, b1, c. split; [exact Hk1|exact (sgoes_trans Hat Hg)].
  - (* continue: through the frames of blocks and switches to the end of the loop body *)
    destruct k as [|s2 k1|kc inc body k1|body kc k1|k1]; cbn [skat] in Hk; [exact I|..]; (exists q; split; [apply sreach_refl|]).
    + destruct Hk as (n1 & _ & Hk1). exists n1, b, c. split; assumption.
    + exists n, b, c. split; [exact Hk|]. destruct Hk as (_ & _ & _ & _ & _ & _ & _ & -> & _). exact Hat.
    + exists n, b, c. split; [exact Hk|]. destruct Hk as (_ & _ & _ & _ & _ & _ & _ & -> & _). exact Hat.
    + destruct Hk as (n1 & b1 & _ & Hk1 & _). exists n1, b1, c. split; assumption.
  - (* switch: the head of its code takes control to where spos finds the label, sfind the labelled statement *)
    destruct o as [|v o1]; [exact I|]. destruct (sfits_switch Hat Hk) as (Hb & Hks & Hhead). specialize (Hhead v o1).
    pose proof (sfind_rel (TCase v) body _ _ _ _ _ Hb Hks) as F1. pose proof (sfind_rel TDefault body _ _ _ _ _ Hb Hks) as F2.
    destruct (sfind (TCase v) body (Kswitch k)) as [[s1 k1]|], (spos (TCase v) body (q + sswitch_head body)) as [q1|]; try contradiction.
    { exists q1. split; assumption. }
    destruct (sfind TDefault body (Kswitch k)) as [[s1 k1]|], (spos TDefault body (q + sswitch_head body)) as [q1|]; try contradiction.
    { exists q1. split; assumption. }
    eexists. split; [exact Hhead|]. destruct Hks as (n1 & b1 & Hg & Hk1 & _). exists n1, b1, c. split; assumption.
  - exists q. split; [apply sreach_refl|exact (srel_of_fits (s := s1) Hat Hk)].
  - exists q. split; [apply sreach_refl|exact (srel_of_fits (s := s1) Hat Hk)].
  - exists q. split; [apply sreach_refl|exact (srel_of_fits (s := s1) Hat Hk)].
  - destruct (sfind (TLabel l) fn Kstop) as [[s1 k1]|] eqn:Ef; [|exact I].
    exists (slabel_target lt l). split; [apply Hat|exact (Hgoto _ _ _ Ef)].
  - destruct o as [|v o1]; [exact I|]. destruct (nth_error tab v) as [l|] eqn:En; [|exact I].
    destruct Hat as (He & _). apply code_at_one in He. exists (slabel_target lt l). split.
    + apply sreach_step. intros r. unfold sstep. rewrite He, (map_nth_error (slabel_target lt) v tab En). reflexivity.
    + exists n, b, c. split; [exact Hk|apply sgoes_refl].
Qed.

Lemma sstar_sim st tr st' : cstar fn st tr st' -> forall q, srel (fst (fst st)) (snd (fst st)) q ->
  exists q', sreach P q (snd st) tr q' (snd st') /\ srel (fst (fst st')) (snd (fst st')) q'.
Proof.
  induction 1 as [st|[[s k] o] ev [[s1 k1] o1] tr st2 Hs _ IH]; intros q Hr.
  - exists q. split; [apply sreach_refl|exact Hr].
  - pose proof (sstep_sim s k o q Hr) as S1. rewrite Hs in S1. destruct S1 as (q1 & S1 & R1). destruct (IH q1 R1) as (q2 & S2 & R2).
    exists q2. split; [exact (sreach_trans P _ _ _ _ _ _ _ _ S1 S2)|exact R2].
Qed.
End Sim.

Theorem sw_lowering_simulates lt : forall f m s o tr o' out, sexec f m s o = Some (tr, o', out) -> swf s = true ->
  forall P p b c, sembedded P p (sgen lt s p b c) ->
  match sentry m s p with
  | None => out = RSeek /\ tr = [] /\ o' = o
  | Some q => out <> RSeek /\ sreach P q o tr (sout_target lt out p s b c) o'
  end.
Proof.
  intros f m s o tr o' out H Hwf P p b c Hemb.
  (* the machine for the function body SSkip: it has no label, so that a goto is stuck and the run below takes none *)
  pose proof (sw_seek_agrees_with_continuations SSkip f m s o tr o' out H Kstop) as S.
  assert (Hf : sfits lt P s p (p + ssize s) b c) by (split; [exact Hemb|split; [exact Hwf|apply sgoes_refl]]).
  assert (Hk : skat lt P (p + ssize s) b c Kstop (p + ssize s) b c) by (repeat split).
  pose proof (sentry_rel lt P _ _ _ m s Kstop p _ b c Hf Hk) as He.
  destruct (centry m s Kstop) as [[s1 k1]|], (sentry m s p) as [q1|]; try contradiction; [|exact S].
  destruct S as (st' & Hr & Ho). split; [exact (coutcome_noseek Ho)|].
  assert (Hg : forall l s2 k2, sfind (TLabel l) SSkip Kstop = Some (s2, k2) -> srel lt P (p + ssize s) b c s2 k2 (slabel_target lt l)) by (intros l s2 k2 E; discriminate E).
  destruct (sstar_sim lt P _ _ _ SSkip Hg _ _ _ Hr q1 He) as (q' & Sr & n & b1 & c1 & Hk' & Hat). cbn [fst snd] in *.
  destruct out; cbn [coutcome] in Ho; [subst st'|subst st'|subst st'| |destruct Ho]; cbn [fst snd skat sout_target] in *.
  - destruct Hk' as (-> & _). exact (sreach_goes P Sr Hat).
  - destruct Hk' as (_ & -> & _). exact (sreach_goes P Sr Hat).
  - destruct Hk' as (_ & _ & ->). exact (sreach_goes P Sr Hat).
  - destruct Ho as [k3 ->]. exact (sreach_goes P Sr Hat).
Qed.

Lemma sprogram_length body : length (sprogram body) = ssize body.
Proof. apply sgen_length. Qed.

(* The code of a function body whose label names are distinct (and whose switches are well formed) does every
   complete run of the machine on that body - from its beginning or from one of its labels, through any number of
   gotos: lt = slabtab body gives every label the position of the labelled statement. *)
Theorem sw_code_simulates_machine : forall m body s1 k1 o tr o',
  swf_fn body = true -> centry m body Kstop = Some (s1, k1) -> cstar body (s1, k1, o) tr (SSkip, Kstop, o') ->
  exists q, sentry m body 0 = Some q /\ sreach (sprogram body) q o tr (ssize body) o'.
Proof.
  intros m body s1 k1 o tr o' Hwf He Hr. unfold swf_fn in Hwf. apply andb_prop in Hwf. destruct Hwf as [Hwf Hnd]. apply snodup_NoDup in Hnd.
  set (lt := slabtab body). set (P := sprogram body).
  assert (Hf : sfits lt P body 0 (ssize body) 0 0) by (split; [exact (fun i ins Hi => Hi)|split; [exact Hwf|apply sgoes_refl]]).
  assert (Hk : skat lt P (ssize body) 0 0 Kstop (ssize body) 0 0) by (repeat split).
  assert (Hg : forall l s2 k2, sfind (TLabel l) body Kstop = Some (s2, k2) -> srel lt P (ssize body) 0 0 s2 k2 (slabel_target lt l)).
  { intros l s2 k2 Ef. pose proof (sfind_rel lt P _ _ _ (TLabel l) body Kstop 0 _ 0 0 Hf Hk) as Hl. rewrite Ef in Hl.
    destruct (spos (TLabel l) body 0) as [q2|] eqn:Eq; [|destruct Hl]. unfold slabel_target, lt, slabtab.
    rewrite (find_rev_nodup (slabels body 0) l q2); [exact Hl|rewrite slabels_names; exact Hnd|exact (spos_some _ _ _ _ Eq)]. }
  pose proof (sentry_rel lt P _ _ _ m body Kstop 0 _ 0 0 Hf Hk) as Hent. rewrite He in Hent.
  destruct (sentry m body 0) as [q|]; [|destruct Hent]. exists q. split; [reflexivity|].
  destruct (sstar_sim lt P _ _ _ body Hg _ _ _ Hr q Hent) as (q' & Sr & n & b & c & (-> & _) & Hat).
  exact (sreach_goes P Sr Hat).
Qed.

(* ... hence every complete run of the structured semantics.  The positions given to break / continue outside any
   loop or switch are never used: srun has no result then. *)
Theorem sw_function_simulates : forall fuel m body o tr o',
  swf_fn body = true -> srun fuel m body o = Some (tr, o') ->
  exists q, sentry m body 0 = Some q /\ sreach (sprogram body) q o tr (ssize body) o'.
Proof.
  intros fuel m body o tr o' Hwf H. destruct (sw_function_agrees_with_continuations _ _ _ _ _ _ H) as (s1 & k1 & He & Hr).
  exact (sw_code_simulates_machine m body s1 k1 o tr o' Hwf He Hr).
Qed.

Corollary sw_program_simulates : forall fuel body o tr o',
  swf_fn body = true -> srun fuel None body o = Some (tr, o') ->
  forall r, exists r', sstar (sprogram body) (0, o, r) tr (ssize body, o', r').
Proof.
  intros fuel body o tr o' Hwf H. destruct (sw_function_simulates fuel None body o tr o' Hwf H) as (q & Hq & S). cbn [sentry] in Hq. injection Hq as <-. exact S.
Qed.

(* the machine is deterministic: two runs from one state that both halt are one run *)
Lemma sstar_halt_unique P s t1 s1 : sstar P s t1 s1 -> sstep P s1 = None ->
  forall t2 s2, sstar P s t2 s2 -> sstep P s2 = None -> t2 = t1 /\ s2 = s1.
Proof.
  induction 1 as [st|st ev st' tr st'' Hs _ IH]; intros H1 t2 s2 H2 Hn2.
  - destruct H2 as [|st0 ev2 st2 tr2 st3 Hs2 _]; [split; reflexivity|]. rewrite H1 in Hs2. discriminate.
  - destruct H2 as [|st0 ev2 st2 tr2 st3 Hs2 Hr2]; [rewrite Hn2 in Hs; discriminate|].
    rewrite Hs in Hs2. injection Hs2 as <- <-. destruct (IH H1 _ _ Hr2 Hn2) as [-> ->]. split; reflexivity.
Qed.
Lemma sprogram_end_halts body o r : sstep (sprogram body) (ssize body, o, r) = None.
Proof. unfold sstep. rewrite (proj2 (nth_error_None _ _)); [reflexivity|]. rewrite sprogram_length. apply le_n. Qed.

Theorem sw_program_run_unique : forall fuel body o tr o',
  swf_fn body = true -> srun fuel None body o = Some (tr, o') ->
  forall r t2 st2, sstar (sprogram body) (0, o, r) t2 st2 -> sstep (sprogram body) st2 = None ->
  t2 = tr /\ fst (fst st2) = ssize body /\ snd (fst st2) = o'.
Proof.
  intros fuel body o tr o' Hwf H r t2 st2 S2 Hstuck.
  destruct (sw_program_simulates fuel body o tr o' Hwf H r) as [r' S1].
  destruct (sstar_halt_unique _ _ _ _ S1 (sprogram_end_halts body o' r') _ _ S2 Hstuck) as [-> ->]. repeat split.
Qed.

Lemma smrun_sound P : forall fuel st tr st', smrun fuel P st = Some (tr, st') -> sstar P st tr st' /\ fst (fst st') = length P.
Proof.
  induction fuel as [|f IH]; intros st tr st' H; [discriminate|]. cbn [smrun] in H.
  destruct (fst (fst st) =? length P) eqn:E.
  - injection H as <- <-. split; [apply sstar_refl|apply Nat.eqb_eq; exact E].
  - destruct (sstep P st) as [[ev st1]|] eqn:Es; [|discriminate]. destruct (smrun f P st1) as [[tr1 st2]|] eqn:Er; [|discriminate].
    injection H as <- <-. destruct (IH _ _ _ Er) as [S Hl]. split; [eapply sstar_step; [exact Es|exact S]|exact Hl].
Qed.

(* The constraints are needed, and chibicc does not diagnose their violation.  Two equal case
   constants, two defaults, two definitions of a label: the structured semantics (like every C
   implementation that accepts such a program would have to choose) takes the first in program
   order, chibicc's tables give the last; chibicc accepts all three programs (C11 6.8.4.2p3 and
   6.8.1p3 require a diagnostic). *)
Definition fmap_trace (r : option (strace * smstate)) : option strace := match r with Some (t, _) => Some t | None => None end.
Definition sdup_case : sstmt := SSwitch 1 (SSeq (SCase 1 (SSeq (SMark 2) SBreak)) (SCase 1 (SMark 3))).
Definition sdup_default : sstmt := SSwitch 1 (SSeq (SDefault (SSeq (SMark 2) SBreak)) (SDefault (SMark 3))).
Definition sdup_label : sstmt := SSeq (SGoto 1) (SSeq (SLabel 1 (SSeq (SMark 2) (SGoto 2))) (SSeq (SLabel 1 (SMark 3)) (SLabel 2 SSkip))).
Lemma sw_duplicates_refuted :
  (swf_fn sdup_case = false /\ srun 20 None sdup_case [1] = Some ([1; 2], []) /\ fmap_trace (smrun 50 (sprogram sdup_case) (0, [1], 0)) = Some [1; 3]) /\
  (swf_fn sdup_default = false /\ srun 20 None sdup_default [7] = Some ([1; 2], []) /\ fmap_trace (smrun 50 (sprogram sdup_default) (0, [7], 0)) = Some [1; 3]) /\
  (swf_fn sdup_label = false /\ srun 20 None sdup_label [] = Some ([2], []) /\ fmap_trace (smrun 50 (sprogram sdup_label) (0, [], 0)) = Some [3]).
Proof. vm_compute. repeat split. Qed.
