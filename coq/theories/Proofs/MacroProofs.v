From Chibicc Require Import Base.Mach Base.ListFacts Model.Lexer Model.Macro.
Local Open Scope N_scope.

Lemma txt_eqb_eq a b : txt_eqb a b = true <-> a = b.
Proof. exact (eqb_list_eq N.eqb N.eqb_eq a b). Qed.

Lemma hs_contains_In hs n : hs_contains hs n = true <-> In n hs.
Proof. exact (existsb_eqb_In txt_eqb txt_eqb_eq n hs). Qed.
Lemma hs_contains_inter a b n : hs_contains a n = true -> hs_contains b n = true -> hs_contains (hs_inter a b) n = true.
Proof. intros Ha Hb. apply hs_contains_In, filter_In. split; [apply hs_contains_In, Ha|exact Hb]. Qed.
Lemma hs_contains_app a b n : hs_contains (a ++ b) n = hs_contains a n || hs_contains b n.
Proof. unfold hs_contains. apply existsb_app. Qed.
Lemma hs_contains_single n : hs_contains [n] n = true.
Proof. apply hs_contains_In. left. reflexivity. Qed.
Lemma hs_contains_union_r h hs n : hs_contains hs n = true -> hs_contains (hs_union h hs) n = true.
Proof. intros H. unfold hs_union. rewrite hs_contains_app, H. apply orb_true_r. Qed.
Lemma hs_contains_last hs nm : hs_contains (hs_union hs [nm]) nm = true.
Proof. apply hs_contains_union_r, hs_contains_single. Qed.

Definition infix {A} (x l : list A) : Prop := exists p q, l = p ++ x ++ q.
Lemma infix_self {A} (x : list A) : infix x x.
Proof. exists [], []. rewrite app_nil_r. reflexivity. Qed.
Lemma infix_nil {A} (l : list A) : infix [] l.
Proof. exists [], l. reflexivity. Qed.
Lemma infix_app_l {A} (x l m : list A) : infix x l -> infix x (l ++ m).
Proof. intros (p & q & ->). exists p, (q ++ m). rewrite <- !app_assoc. reflexivity. Qed.
Lemma infix_app_r {A} (x l m : list A) : infix x m -> infix x (l ++ m).
Proof. intros (p & q & ->). exists (l ++ p), q. rewrite <- !app_assoc. reflexivity. Qed.
Lemma infix_Forall {A} (P : A -> Prop) x l : infix x l -> Forall P l -> Forall P x.
Proof. intros (p & q & ->) H. apply Forall_app in H. destruct H as [_ H]. apply Forall_app in H. tauto. Qed.

Definition args_in (args : list marg) (pre : list mtok) : Prop := Forall (fun a => infix (a_toks a) pre) args.
Lemma args_in_app_l args l m : args_in args l -> args_in args (l ++ m).
Proof. apply Forall_impl. intros a. apply infix_app_l. Qed.
Lemma args_in_app_r args l m : args_in args m -> args_in args (l ++ m).
Proof. apply Forall_impl. intros a. apply infix_app_r. Qed.

Lemma read_arg_one_app rr : forall ts lvl a rest, read_arg_one rr lvl ts = Some (a, rest) -> ts = a ++ rest.
Proof.
  induction ts as [|t r IH]; intros lvl a rest H; cbn [read_arg_one] in H; [discriminate|].
  destruct (Nat.eqb lvl 0 && is t RP); [injection H as <- <-; reflexivity|].
  destruct (Nat.eqb lvl 0 && negb rr && is t COMMA); [injection H as <- <-; reflexivity|].
  destruct (read_arg_one rr _ r) as [[a' rest']|] eqn:E; [|discriminate]. injection H as <- <-.
  apply IH in E. subst r. reflexivity.
Qed.

Lemma skip_cons s ts r : skip s ts = Some r -> exists t, ts = t :: r.
Proof. destruct ts as [|t q]; cbn; [discriminate|]. destruct (is t s); [|discriminate]. intros H; injection H as <-. exists t. reflexivity. Qed.

(* a separating comma is skipped except in front of the first argument *)
Lemma skip_unless (first : bool) s ts r : (if first then Some ts else skip s ts) = Some r -> exists c, ts = c ++ r.
Proof.
  destruct first; [intros H; injection H as <-; exists []; reflexivity|].
  intros H. apply skip_cons in H. destruct H as [t ->]. exists [t]. reflexivity.
Qed.

Lemma read_fixed_args_shape : forall ps first ts l rest, read_fixed_args first ps ts = Some (l, rest) ->
  exists pre, ts = pre ++ rest /\ args_in l pre.
Proof.
  induction ps as [|p ps IH]; intros first ts l rest H; cbn [read_fixed_args] in H.
  - injection H as <- <-. exists []. split; [reflexivity|constructor].
  - destruct (if first then Some ts else skip COMMA ts) as [ts1|] eqn:E1; [|discriminate].
    apply skip_unless in E1. destruct E1 as [c ->].
    destruct (read_arg_one false 0 ts1) as [[a r1]|] eqn:E2; [|discriminate].
    destruct (read_fixed_args false ps r1) as [[l' r2]|] eqn:E3; [|discriminate]. injection H as <- <-.
    apply read_arg_one_app in E2. apply IH in E3. destruct E3 as (pre' & -> & Hin). subst ts1.
    exists (c ++ a ++ pre'). split; [rewrite <- !app_assoc; reflexivity|].
    constructor.
    + cbn [a_toks]. apply infix_app_r, infix_app_l, infix_self.
    + apply args_in_app_r, args_in_app_r. exact Hin.
Qed.

Lemma read_macro_args_shape ps va ts args rp after : read_macro_args ps va ts = Some (args, rp, after) ->
  exists pre, ts = pre ++ rp :: after /\ args_in args pre.
Proof.
  unfold read_macro_args. destruct (read_fixed_args true ps ts) as [[a0 rest]|] eqn:E; [|discriminate].
  apply read_fixed_args_shape in E. destruct E as (pre0 & -> & Hin0). intros H.
  (* the fixed arguments, with the variadic one if there is one, and what is left: ")" and the text after it *)
  match type of H with match ?w with _ => _ end = _ => assert (Hw : w = Some (args, rp :: after)) end.
  { destruct (match va with None => _ | Some _ => _ end) as [[a' [|t r]]|]; try discriminate.
    destruct (is t RP); [|discriminate]. injection H as <- <- <-. reflexivity. }
  clear H. destruct va as [vn|]; [|injection Hw as <- <-; exists pre0; split; [reflexivity|exact Hin0]].
  destruct rest as [|t rr]; [discriminate|]. destruct (is t RP).
  { injection Hw as <- <- <-. exists pre0. split; [reflexivity|]. apply Forall_app. split; [exact Hin0|].
    constructor; [apply infix_nil|constructor]. }
  destruct (match ps with [] => Some (t :: rr) | _ => skip COMMA (t :: rr) end) as [r1|] eqn:E1; [|discriminate].
  assert (S1 : exists c, t :: rr = c ++ r1) by (destruct ps; [apply (skip_unless true COMMA)|apply (skip_unless false COMMA)]; exact E1).
  destruct S1 as [c Hc]. rewrite Hc.
  destruct (read_arg_one true 0 r1) as [[av r2]|] eqn:E2; [|discriminate]. injection Hw as <- <-.
  apply read_arg_one_app in E2. subst r1. exists (pre0 ++ c ++ av). split; [rewrite <- !app_assoc; reflexivity|].
  apply Forall_app. split; [apply args_in_app_l; exact Hin0|].
  constructor; [cbn [a_toks]; apply infix_app_r, infix_app_r, infix_self|constructor].
Qed.

(* every token of a replacement gets the new hide set added to its own, whatever else is done to it *)
Lemma replacement_hs (P : list name -> Prop) bol sp hs body : (forall h, P (hs_union h hs)) ->
  Forall (fun tk => P (m_hs tk)) (set_flags bol sp (add_hideset hs body)).
Proof.
  intros H. unfold add_hideset. destruct body as [|b body]; cbn [map set_flags]; [constructor|].
  constructor; [apply H|]. apply Forall_map, Forall_forall. intros t0 _. apply H.
Qed.

Definition suffix (a b : list mtok) : Prop := exists pre, b = pre ++ a.
Lemma suffix_refl a : suffix a a. Proof. exists []. reflexivity. Qed.

Definition painted (nm : name) (t : mtok) : Prop := hs_contains (m_hs t) nm = true.

Lemma find_arg_nil t : find_arg [] t = None. Proof. reflexivity. Qed.
Lemma find_arg_in : forall args t a, find_arg args t = Some a -> In a args.
Proof.
  induction args as [|b args IH]; intros t a H; cbn [find_arg] in H; [discriminate|].
  destruct (txt_eqb (a_name b) (m_txt t)); [injection H as ->; left; reflexivity|right; eapply IH; exact H].
Qed.

Section Subst.
Variable pt : list (list N).

Lemma tl_length (r : list mtok) : (length (tl r) <= length r)%nat.
Proof. destruct r; cbn; lia. Qed.

(* subst uses the expander of arguments (and, for the content of __VA_OPT__( ... ), itself) only in the
   form "if the result is a token list go on with it, else pass the result on" *)
Definition bind {A B} (r : mres A) (K : A -> mres B) : mres B :=
  match r with MOk c => K c | MErr => MErr | MFuel => MFuel | MUnsup => MUnsup end.

(* hence two runs of subst with the counter expand_macro passes (one more than the length of the
   replacement list) are related by every relation that holds of the expansions of the arguments, of
   equal answers, and is kept by [bind].  By cases on the text of subst: every recursive call is on a
   shorter body (the content of __VA_OPT__( ... ) and what follows it are pieces of the body). *)
Theorem subst_rel p1 p2 obj args (R : mres (list mtok) -> mres (list mtok) -> Prop) :
  (forall l, R (MOk l) (MOk l)) -> R MErr MErr ->
  (forall r1 r2 K1 K2, R r1 r2 -> (forall c, R (K1 c) (K2 c)) -> R (bind r1 K1) (bind r2 K2)) ->
  (forall a, In a args -> R (p1 (a_toks a)) (p2 (a_toks a))) ->
  forall n body acc, (length body < n)%nat ->
  R (subst pt p1 obj n body args acc) (subst pt p2 obj n body args acc).
Proof.
  intros Rok Rerr Rbind Rargs. induction n as [|n IH]; intros body acc Hn; [lia|].
  cbn [subst]. destruct body as [|t r0]; [apply Rok|]. cbn [length] in Hn.
  (* every test in the text of subst, the calls of the expanders excepted *)
  repeat match goal with
  | |- context [match ?x with _ => _ end] =>
      lazymatch x with
      | context [p1] => fail
      | context [p2] => fail
      | _ => destruct x eqn:?
      end
  | |- context [if ?x then _ else _] => destruct x
  end; try apply Rerr;
  (* what the tests that succeeded say about the lengths of the pieces *)
  repeat match goal with
  | E : read_arg_one _ _ _ = Some _ |- _ => apply read_arg_one_app, (f_equal (@length _)) in E; rewrite app_length in E; cbn [length] in E
  | E : (if ?c then _ else _) = Some _ |- _ => destruct c; try discriminate E
  | E : match ?x with _ => _ end = Some _ |- _ => destruct x eqn:?; try discriminate E
  | E : Some _ = Some _ |- _ => injection E as <- <- <-
  end;
  try (pose proof (tl_length r0));
  (* where an expander is called, the two runs have the form of [bind]: on an argument [Rargs] relates the two calls,
     on the content of __VA_OPT__( ... ) the call is subst itself and is left to the induction hypothesis below *)
  try lazymatch goal with
  | |- R (match ?r1 with MOk x => @?K1 x | MErr => _ | MFuel => _ | MUnsup => _ end)
         (match ?r2 with MOk y => @?K2 y | MErr => _ | MFuel => _ | MUnsup => _ end) =>
      apply (Rbind r1 r2 K1 K2); [first [apply Rargs; eapply find_arg_in; eassumption|idtac]|intros c]
  end;
  apply IH; cbn [length] in *; subst; cbn [length tl] in *; lia.
Qed.

(* subst's own loop counter never runs out, and subst itself never answers Unsup: such a result is
   the result of the complete expansion of one of the ARGUMENTS of the invocation *)
Theorem subst_stuck_arg pp obj : forall n body args acc r,
  subst pt pp obj n body args acc = r -> r = MFuel \/ r = MUnsup -> (length body < n)%nat ->
  exists a, In a args /\ pp (a_toks a) = r.
Proof.
  intros n body args acc r <- Hb Hn. revert Hb.
  apply (subst_rel pp pp obj args (fun r _ => r = MFuel \/ r = MUnsup -> exists a, In a args /\ pp (a_toks a) = r)); [..|exact Hn].
  - intros l [H|H]; discriminate.
  - intros [H|H]; discriminate.
  - intros r1 r2 K1 K2 H HK. destruct r1; [apply HK|exact H..].
  - intros a Ha _. exists a. split; [exact Ha|reflexivity].
Qed.

Theorem subst_own_fuel pp obj : forall n body args acc,
  subst pt pp obj n body args acc = MFuel -> (length body < n)%nat -> exists x, pp x = MFuel.
Proof.
  intros n body args acc H Hn. destruct (subst_stuck_arg pp obj _ _ _ _ _ H (or_introl eq_refl) Hn) as (a & _ & Ha).
  exists (a_toks a). exact Ha.
Qed.
End Subst.

(* Termination for sets of object-like macros, whatever refers to whatever.  A token weighs (B+1)^k, where k is
   the number of macro names outside its hide set and B bounds the length of the replacement lists; a text
   weighs the sum.  A name that is replaced gives way to at most B tokens that each have that name hidden in
   addition, hence weigh at most (B+1)^(k-1): the text gets lighter, and the fuel can be the weight. *)
Section Term.
Variable pt : list (list N).
Variable e : env.
Variable B : nat.

Definition plain_tok (t : mtok) : Prop := is t HASHHASH = false /\ is t VA_OPT = false /\ is t HASH = false.
Definition obj_env : Prop :=
  Forall (fun nm => mc_obj (snd nm) = true /\ Forall plain_tok (mc_body (snd nm)) /\ (length (mc_body (snd nm)) <= B)%nat) e.

Lemma subst_plain pp : forall n body acc, Forall plain_tok body -> (length body < n)%nat ->
  subst pt pp true n body [] acc = MOk (rev acc ++ body).
Proof.
  induction n as [|n IH]; intros body acc Hp Hn; [lia|]. cbn [subst]. destruct body as [|t r]; [rewrite app_nil_r; reflexivity|].
  inversion Hp as [|? ? [H1 [H2 H3]] Hr]; subst. cbn [length] in Hn.
  rewrite H3. cbn [andb].
  (* the test for ", ## __VA_ARGS__" fails: there are no arguments *)
  lazymatch goal with |- match ?o with _ => _ end = _ => assert (Hg : o = None) end.
  { destruct (is t COMMA); [|reflexivity]. destruct r as [|h [|p r']]; try reflexivity. destruct (is h HASHHASH); reflexivity. }
  rewrite Hg, H1. cbn [find_arg]. rewrite H2. cbn [andb].
  rewrite IH by (auto; lia). cbn [rev]. rewrite <- app_assoc. reflexivity.
Qed.

Definition names : list name := map fst e.
Definition free (t : mtok) : nat := length (filter (fun n => negb (hs_contains (m_hs t) n)) names).
Definition W (k : nat) : nat := Nat.pow (S B) k.
Fixpoint mu (ts : list mtok) : nat := match ts with [] => 0%nat | t :: r => (W (free t) + mu r)%nat end.

Lemma W_pos k : (1 <= W k)%nat.
Proof. unfold W. induction k; cbn [Nat.pow]; [lia|]. nia. Qed.
Lemma W_mono a b : (a <= b)%nat -> (W a <= W b)%nat.
Proof. intros H. unfold W. apply Nat.pow_le_mono_r; lia. Qed.
Lemma W_step k : (B * W k < W (S k))%nat.
Proof. pose proof (W_pos k). unfold W in *. cbn [Nat.pow]. nia. Qed.

Lemma mu_app a b : mu (a ++ b) = (mu a + mu b)%nat.
Proof. induction a; cbn; lia. Qed.

Lemma mu_bound k l : Forall (fun t => (free t <= k)%nat) l -> (mu l <= length l * W k)%nat.
Proof. induction 1 as [|t r Ht _ IH]; cbn [mu length]; [lia|]. pose proof (W_mono _ _ Ht). lia. Qed.

Lemma lookup_in s m : lookup e s = Some m -> In s names /\ In (s, m) e.
Proof.
  unfold names. induction e as [|[n m'] r IH]; cbn; [discriminate|]. destruct (txt_eqb n s) eqn:E.
  - intros H. injection H as ->. apply txt_eqb_eq in E. subst n. split; left; reflexivity.
  - intros H. destruct (IH H) as [A C]. split; right; assumption.
Qed.

Lemma free_drop t b : In (m_txt t) names -> hs_contains (m_hs t) (m_txt t) = false ->
  (free (MT (m_txt b) (m_kind b) (m_sp b) (m_bol b) (hs_union (m_hs b) (hs_union (m_hs t) [m_txt t]))) < free t)%nat.
Proof.
  intros Hin Hnot. unfold free. cbn [m_hs]. eapply filter_length_lt with (x := m_txt t).
  - intros y Hy. unfold hs_union in Hy. rewrite !hs_contains_app in Hy. destruct (hs_contains (m_hs t) y); [|reflexivity].
    rewrite orb_true_r in Hy. cbn in Hy. discriminate.
  - exact Hin.
  - rewrite Hnot. reflexivity.
  - rewrite hs_contains_union_r by apply hs_contains_last. reflexivity.
Qed.

Lemma set_flags_mu bol sp l : mu (set_flags bol sp l) = mu l.
Proof. destruct l; reflexivity. Qed.
Lemma set_flags_nohash bol sp l : Forall (fun t => is t HASH = false) l -> Forall (fun t => is t HASH = false) (set_flags bol sp l).
Proof. destruct l as [|t r]; cbn; [auto|]. intros H. inversion H; subst. constructor; assumption. Qed.

Lemma mu_replacement t body : In (m_txt t) names -> hs_contains (m_hs t) (m_txt t) = false -> (length body <= B)%nat ->
  (mu (add_hideset (hs_union (m_hs t) [m_txt t]) body) < W (free t))%nat.
Proof.
  intros Hin Hnot Hb. destruct (free t) as [|k] eqn:Ek; [pose proof (free_drop t t Hin Hnot); lia|].
  assert (Hmu : (mu (add_hideset (hs_union (m_hs t) [m_txt t]) body) <= length body * W k)%nat).
  { replace (length body) with (length (add_hideset (hs_union (m_hs t) [m_txt t]) body)) by apply map_length.
    apply mu_bound, Forall_map, Forall_forall. intros b _. pose proof (free_drop t b Hin Hnot). lia. }
  pose proof (W_step k). pose proof (Nat.mul_le_mono_r _ _ (W k) Hb). lia.
Qed.

Theorem objlike_terminates : obj_env -> forall f ts, Forall (fun t => is t HASH = false) ts -> (mu ts < f)%nat ->
  exists out, pp2 pt f e ts = MOk out.
Proof.
  intros He. induction f as [|f IH]; intros ts Hh Hf; [lia|]. cbn [pp2]. destruct ts as [|t r]; [eexists; reflexivity|].
  inversion Hh as [|? ? Ht Hr]; subst. cbn [mu] in Hf. pose proof (W_pos (free t)) as Hw.
  assert (Hrec : exists o, pp2 pt f e r = MOk o) by (apply IH; [exact Hr|lia]).
  assert (Hb0 : m_bol t && is t HASH = false) by (rewrite Ht; apply andb_false_r).
  unfold expand_macro. destruct (hs_contains (m_hs t) (m_txt t)) eqn:Ehs; [rewrite Hb0; destruct Hrec as [o ->]; eexists; reflexivity|].
  destruct (find_macro e t) as [m|] eqn:Em; [|rewrite Hb0; destruct Hrec as [o ->]; eexists; reflexivity].
  unfold find_macro in Em. destruct (m_kind t); try discriminate. apply lookup_in in Em. destruct Em as [Hin Hm].
  unfold obj_env in He. rewrite Forall_forall in He. destruct (He _ Hm) as (Ho & Hp & Hb). cbn [snd] in *.
  rewrite Ho. rewrite subst_plain by (auto; lia). cbn [rev app].
  apply IH.
  - apply Forall_app. split; [|exact Hr]. apply set_flags_nohash, Forall_map.
    eapply Forall_impl; [|exact Hp]. intros b (_ & _ & H3). exact H3.
  - rewrite mu_app, set_flags_mu. pose proof (mu_replacement t (mc_body m) Hin Ehs Hb). lia.
Qed.
End Term.
