(* The two places where chibicc's conversion code relies on properties of IEEE rounding itself, proved from
   Flocq's real-number specifications (binary_normalize_correct, Bplus_correct, Bminus_correct, Btrunc_correct):
   (1) unsigned 64-bit -> float / double for x >= 2^63: converting y = (x >> 1) | (x & 1) and doubling gives the
       correctly rounded x.  Flocq's round-to-nearest-even of an integer with prec + s bits is the integer
       function [rne _ s] of Model/FloatConv.v (round_int_rne), whose halving property is
       Proofs/FloatConvProofs.v (halving_is_rne); doubling is exact.
   (2) float / double -> unsigned 64-bit for x >= 2^63: x - 2^63 is exact (Sterbenz) and its integral part is
       that of x minus 2^63; below 2^63 the integral part fits a signed 64-bit register. *)
From Coq Require Import ZArith Reals Lia Lra Bool.
From Flocq Require Import Core Binary Bits Sterbenz.
From Chibicc Require Import Spec.C11Int Spec.C11Float Spec.C11LDouble Model.FloatConv.
Local Open Scope Z_scope.

Lemma IZR_pow2 s : 0 <= s -> IZR (2 ^ s) = bpow radix2 s.
Proof. intros H. rewrite <- (IZR_Zpower radix2 s H). reflexivity. Qed.

Lemma rne_ZnearestE n s : 1 <= s -> 0 <= n -> rne n s = 2 ^ s * ZnearestE (IZR n * bpow radix2 (- s)).
Proof.
  intros Hs Hn. unfold rne. cbv zeta. f_equal. symmetry.
  assert (P : 0 < 2 ^ s) by (apply Z.pow_pos_nonneg; lia).
  assert (Ph : 2 ^ s = 2 * 2 ^ (s - 1)) by (rewrite <- Z.pow_succ_r by lia; f_equal; lia).
  pose proof (Z.div_mod n (2 ^ s) ltac:(lia)) as Dn. pose proof (Z.mod_pos_bound n (2 ^ s) P) as Rr.
  assert (F : Zfloor (IZR n / IZR (2 ^ s)) = n / 2 ^ s) by (apply Zfloor_div; lia).
  set (q := n / 2 ^ s) in *. set (r := n mod 2 ^ s) in *. set (h := 2 ^ (s - 1)) in *.
  assert (RP : (0 < IZR (2 ^ s))%R) by (apply IZR_lt; lia).
  rewrite bpow_opp, <- IZR_pow2 by lia. fold (IZR n / IZR (2 ^ s))%R.
  assert (X : (IZR n / IZR (2 ^ s) - IZR q = IZR r / IZR (2 ^ s))%R) by (rewrite Dn, plus_IZR, mult_IZR; field; lra).
  assert (Cl : 0 < r -> Zceil (IZR n / IZR (2 ^ s)) = q + 1).
  { intros Hr. rewrite <- F. apply Zceil_floor_neq. rewrite F. intros E.
    pose proof (Rdiv_lt_0_compat _ _ (IZR_lt 0 r Hr) RP). lra. }
  unfold ZnearestE, Znearest. rewrite F, X.
  (* comparing r / 2^s with 1/2 is comparing r with h *)
  rewrite <- (Rcompare_mult_r (IZR (2 ^ s))) by exact RP.
  replace (IZR r / IZR (2 ^ s) * IZR (2 ^ s))%R with (IZR r) by (field; lra).
  replace (/ 2 * IZR (2 ^ s))%R with (IZR h) by (rewrite Ph, mult_IZR; field).
  rewrite Rcompare_IZR.
  destruct (Z.compare_spec r h) as [E|L|G].
  - rewrite E, Z.ltb_irrefl, Cl by lia. destruct (Z.even q); reflexivity.
  - apply Z.ltb_lt in L. rewrite L. reflexivity.
  - rewrite (proj2 (Z.ltb_ge r h)) by lia. rewrite Cl by lia. apply Z.ltb_lt in G. rewrite G. reflexivity.
Qed.

Lemma rne_bounds p n s : 1 <= s -> 1 <= p -> 2 ^ (p + s - 1) <= n < 2 ^ (p + s) -> 2 ^ (p + s - 1) <= rne n s <= 2 ^ (p + s).
Proof.
  intros Hs Hp Hn. unfold rne.
  assert (P : 0 < 2 ^ s) by (apply Z.pow_pos_nonneg; lia).
  assert (E1 : 2 ^ (p + s) = 2 ^ s * 2 ^ p) by (rewrite <- Z.pow_add_r by lia; f_equal; lia).
  assert (E2 : 2 ^ (p + s - 1) = 2 ^ s * 2 ^ (p - 1)) by (rewrite <- Z.pow_add_r by lia; f_equal; lia).
  set (q := n / 2 ^ s).
  assert (Q1 : 2 ^ (p - 1) <= q) by (apply Z.div_le_lower_bound; lia).
  assert (Q2 : q < 2 ^ p) by (apply Z.div_lt_upper_bound; lia).
  rewrite E1, E2. cbv zeta. fold q.
  (* the rounded quotient is q or q + 1 *)
  set (c := if n mod 2 ^ s <? 2 ^ (s - 1) then q else _).
  assert (Hc : 2 ^ (p - 1) <= c <= 2 ^ p).
  { subst c. destruct (_ <? _); [lia|]. destruct (_ <? _); [lia|]. destruct (Z.even q); lia. }
  split; apply Z.mul_le_mono_nonneg_l; lia.
Qed.

(* "u is the value r (of sign s when zero or overflowing) rounded to nearest-even in the format (p, e)" *)
Definition rounds_to (p e : Z) (r : R) (s : bool) (u : binary_float p e) : Prop :=
  if Rlt_bool (Rabs (round radix2 (SpecFloat.fexp p e) ZnearestE r)) (bpow radix2 e) then
    B2R p e u = round radix2 (SpecFloat.fexp p e) ZnearestE r /\ is_finite p e u = true /\ Bsign p e u = s
  else B2FF p e u = binary_overflow p e mode_NE s.

Lemma rounds_to_inj p e r s u v : rounds_to p e r s u -> rounds_to p e r s v -> u = v.
Proof.
  unfold rounds_to. destruct (Rlt_bool _ _).
  - intros (U1 & U2 & U3) (V1 & V2 & V3). apply B2R_Bsign_inj; congruence.
  - intros U V. apply B2FF_inj. congruence.
Qed.

Lemma rounds_exact p e r s u : generic_format radix2 (SpecFloat.fexp p e) r -> (Rabs r < bpow radix2 e)%R ->
  rounds_to p e r s u -> B2R p e u = r /\ is_finite p e u = true /\ Bsign p e u = s.
Proof.
  intros G B H. unfold rounds_to in H. rewrite (round_generic radix2 _ ZnearestE r G) in H.
  rewrite Rlt_bool_true in H by exact B. exact H.
Qed.

Lemma ofint_rounds p e (Hp : Prec_gt_0 p) (He : BinarySingleNaN.Prec_lt_emax p e) z :
  rounds_to p e (IZR z) (z <? 0) (binary_normalize p e Hp He mode_NE z 0 false).
Proof.
  unfold rounds_to. pose proof (binary_normalize_correct p e Hp He mode_NE z 0 false) as C.
  replace (F2R (Float radix2 z 0)) with (IZR z) in C by (unfold F2R; cbn; ring).
  unfold Rlt_bool at 2 in C. rewrite (Rcompare_IZR z 0) in C. exact C.
Qed.

Lemma Bplus_exact_pos p e Hp He nan (a b c : binary_float p e) :
  is_finite p e a = true -> is_finite p e b = true -> is_finite p e c = true -> Bsign p e c = false ->
  (B2R p e a + B2R p e b = B2R p e c)%R -> (0 < B2R p e c)%R -> Bplus p e Hp He nan mode_NE a b = c.
Proof.
  intros Fa Fb Fc Sc E Pos. pose proof (Bplus_correct p e Hp He nan mode_NE a b Fa Fb) as C.
  rewrite E in C. cbn [BinarySingleNaN.round_mode] in C.
  rewrite (round_generic radix2 _ ZnearestE _ (generic_format_B2R p e c)), Rlt_bool_true in C by apply abs_B2R_lt_emax.
  destruct C as (C1 & C2 & C3). apply B2R_Bsign_inj; [exact C2|exact Fc|exact C1|].
  rewrite C3, Sc, Rcompare_Gt by exact Pos. reflexivity.
Qed.

Section Conv.
Variable prec emax : Z.
Context (Hp : Prec_gt_0 prec) (He : BinarySingleNaN.Prec_lt_emax prec emax).

Lemma round_int_rne n s : 1 <= s -> 2 ^ (prec + s - 1) <= n < 2 ^ (prec + s) -> prec + s < emax ->
  round radix2 (SpecFloat.fexp prec emax) ZnearestE (IZR n) = IZR (rne n s).
Proof.
  intros Hs Hn Hov. assert (P0 : 0 < prec) by exact Hp.
  assert (Pn : 0 < n). { assert (0 < 2 ^ (prec + s - 1)) by (apply Z.pow_pos_nonneg; lia). lia. }
  assert (M : mag radix2 (IZR n) = prec + s :> Z).
  { apply mag_unique. rewrite <- abs_IZR, Z.abs_eq by lia. rewrite <- !IZR_pow2 by lia.
    split; [apply IZR_le|apply IZR_lt]; lia. }
  unfold round, scaled_mantissa, cexp. rewrite M.
  assert (Fx : SpecFloat.fexp prec emax (prec + s) = s). { unfold SpecFloat.fexp, SpecFloat.emin. lia. }
  rewrite Fx. unfold F2R. cbn [Fnum Fexp]. rewrite (rne_ZnearestE n s Hs ltac:(lia)), mult_IZR, IZR_pow2 by lia. ring.
Qed.

Lemma BofZ_rne n s : 1 <= s -> 2 ^ (prec + s - 1) <= n < 2 ^ (prec + s) -> prec + s < emax ->
  let z := binary_normalize prec emax Hp He mode_NE n 0 false in
  B2R prec emax z = IZR (rne n s) /\ is_finite prec emax z = true /\ Bsign prec emax z = false.
Proof.
  intros Hs Hn Hov z. assert (P0 : 0 < prec) by exact Hp.
  pose proof (ofint_rounds prec emax Hp He n) as C. fold z in C. unfold rounds_to in C.
  rewrite (round_int_rne n s Hs Hn Hov) in C.
  pose proof (rne_bounds prec n s Hs ltac:(lia) Hn) as B.
  assert (L : 0 < 2 ^ (prec + s - 1)) by (apply Z.pow_pos_nonneg; lia).
  rewrite Rlt_bool_true in C.
  - replace (n <? 0) with false in C by (symmetry; apply Z.ltb_ge; lia). exact C.
  - rewrite <- abs_IZR, Z.abs_eq by lia. rewrite <- IZR_pow2 by lia. apply IZR_lt.
    assert (2 ^ (prec + s) < 2 ^ emax) by (apply Z.pow_lt_mono_r; lia). lia.
Qed.

Lemma double_half nan n h s : 1 <= s -> 2 ^ (prec + s) <= n < 2 ^ (prec + s + 1) -> 2 ^ (prec + s - 1) <= h < 2 ^ (prec + s) ->
  prec + s + 1 < emax -> 2 * rne h s = rne n (s + 1) ->
  Bplus prec emax Hp He nan mode_NE (binary_normalize prec emax Hp He mode_NE h 0 false) (binary_normalize prec emax Hp He mode_NE h 0 false)
  = binary_normalize prec emax Hp He mode_NE n 0 false.
Proof.
  intros Hs Hn Hh Hov E. assert (P0 : 0 < prec) by exact Hp.
  replace (prec + s) with (prec + (s + 1) - 1) in Hn at 1 by lia. replace (prec + s + 1) with (prec + (s + 1)) in Hn by lia.
  destruct (BofZ_rne h s Hs Hh ltac:(lia)) as (H1 & H2 & H3).
  destruct (BofZ_rne n (s + 1) ltac:(lia) Hn ltac:(lia)) as (N1 & N2 & N3).
  apply Bplus_exact_pos; try assumption.
  - rewrite H1, N1, <- E, mult_IZR. simpl (IZR 2). ring.
  - rewrite N1. apply IZR_lt. pose proof (rne_bounds prec n (s + 1) ltac:(lia) ltac:(lia) Hn).
    assert (0 < 2 ^ (prec + (s + 1) - 1)) by (apply Z.pow_pos_nonneg; lia). lia.
Qed.
End Conv.

Section Trunc.
Variable prec emax : Z.
Context (Hp : Prec_gt_0 prec) (He : BinarySingleNaN.Prec_lt_emax prec emax).

Lemma Btrunc_Ztrunc (x : binary_float prec emax) : Btrunc prec emax x = Ztrunc (B2R prec emax x).
Proof. apply eq_IZR. rewrite (Btrunc_correct prec emax He). apply round_FIX_IZR. Qed.

Lemma int_part_finite (x : binary_float prec emax) z : int_part x = Some z ->
  is_finite prec emax x = true /\ z = Ztrunc (B2R prec emax x).
Proof.
  destruct x as [s|s|s pl H|s m e H]; cbn [int_part]; intros E; try discriminate; injection E as <-.
  - split; [reflexivity|]. cbn [B2R]. symmetry. apply (Ztrunc_IZR 0).
  - split; [reflexivity|]. apply Btrunc_Ztrunc.
Qed.
Lemma finite_int_part (x : binary_float prec emax) : is_finite prec emax x = true -> int_part x = Some (Ztrunc (B2R prec emax x)).
Proof.
  destruct x as [s|s|s pl H|s m e H]; cbn [int_part is_finite]; intros E; try discriminate.
  - cbn [B2R]. rewrite (Ztrunc_IZR 0). reflexivity.
  - rewrite Btrunc_Ztrunc. reflexivity.
Qed.

Lemma trunc_below (x K : binary_float prec emax) k z : is_finite prec emax K = true -> B2R prec emax K = IZR k -> 0 < k ->
  int_part x = Some z -> Bcompare prec emax x K = Some Lt -> z < k.
Proof.
  intros FK VK Hk I C. destruct (int_part_finite x z I) as [Fx ->].
  rewrite (Bcompare_correct prec emax x K Fx FK) in C. injection C as C. apply Rcompare_Lt_inv in C. rewrite VK in C.
  apply lt_IZR. destruct (Rle_or_lt 0 (B2R prec emax x)) as [P|N].
  - rewrite Ztrunc_floor by exact P. eapply Rle_lt_trans; [apply Zfloor_lb|exact C].
  - rewrite Ztrunc_ceil by lra. apply Rle_lt_trans with 0%R.
    + apply IZR_le. apply Zceil_glb. simpl. lra.
    + apply IZR_lt. lia.
Qed.

Lemma trunc_minus nan (x K : binary_float prec emax) k z : is_finite prec emax K = true -> B2R prec emax K = IZR k -> 0 < k ->
  (IZR k < bpow radix2 emax)%R ->
  int_part x = Some z -> z < 2 * k -> (Bcompare prec emax x K = Some Gt \/ Bcompare prec emax x K = Some Eq) ->
  int_part (Bminus prec emax Hp He nan BinarySingleNaN.mode_NE x K) = Some (z - k) /\ k <= z.
Proof.
  intros FK VK Hk Hov I Hz C. destruct (int_part_finite x z I) as [Fx Ez].
  rewrite (Bcompare_correct prec emax x K Fx FK) in C. rewrite VK in C.
  set (a := B2R prec emax x) in *.
  assert (Ha : (IZR k <= a)%R).
  { destruct C as [C|C]; injection C as C; [apply Rcompare_Gt_inv in C; lra|apply Rcompare_Eq_inv in C; lra]. }
  assert (Pk : (0 < IZR k)%R) by (apply IZR_lt; lia).
  assert (Zf : z = Zfloor a) by (rewrite Ez; apply Ztrunc_floor; lra).
  assert (Ha2 : (a < 2 * IZR k)%R).
  { pose proof (Zfloor_ub a) as U. rewrite <- Zf in U. apply Rlt_le_trans with (1 := U).
    rewrite <- (plus_IZR z 1). change 2%R with (IZR 2). rewrite <- mult_IZR. apply IZR_le. lia. }
  assert (Fm : generic_format radix2 (SpecFloat.fexp prec emax) (a - IZR k)).
  { (* k <= a < 2 k: the difference is exact (Sterbenz) *)
    rewrite <- VK. apply sterbenz; try apply generic_format_B2R; try typeclasses eauto. rewrite VK. fold a. lra. }
  pose proof (Bminus_correct prec emax Hp He nan BinarySingleNaN.mode_NE x K Fx FK) as M.
  rewrite VK in M. fold a in M. cbn [BinarySingleNaN.round_mode] in M. rewrite (round_generic _ _ _ _ Fm) in M.
  rewrite Rlt_bool_true in M by (rewrite Rabs_pos_eq by lra; lra).
  destruct M as (M1 & M2 & _).
  rewrite (finite_int_part _ M2), M1.
  assert (Kz : k <= z). { rewrite Zf. apply Zfloor_lub. exact Ha. }
  split; [|exact Kz]. f_equal. rewrite Ztrunc_floor by lra. rewrite Zf. apply Zfloor_imp.
  rewrite plus_IZR, !minus_IZR. pose proof (Zfloor_lb a). pose proof (Zfloor_ub a). simpl (IZR 1). lra.
Qed.
End Trunc.

(* integers that fit the significand convert exactly (long double: every 64-bit integer) *)
Section Exact.
Variable prec emax : Z.
Context (Hp : Prec_gt_0 prec) (He : BinarySingleNaN.Prec_lt_emax prec emax).

Lemma int_format n : Z.abs n < 2 ^ prec -> generic_format radix2 (SpecFloat.fexp prec emax) (IZR n).
Proof.
  intros Hn. assert (P0 : 0 < prec) by exact Hp. assert (Pe : prec < emax) by exact He.
  replace (IZR n) with (F2R (Float radix2 n 0)) by (unfold F2R; cbn; ring).
  apply generic_format_F2R. intros Nz. unfold cexp.
  replace (F2R (Float radix2 n 0)) with (IZR n) by (unfold F2R; cbn; ring).
  assert (M : (mag radix2 (IZR n) <= prec)%Z).
  { apply mag_le_bpow; [apply not_0_IZR; exact Nz|]. rewrite <- abs_IZR, <- IZR_pow2 by lia. apply IZR_lt. exact Hn. }
  unfold SpecFloat.fexp, SpecFloat.emin. lia.
Qed.

Lemma BofZ_exact n : Z.abs n < 2 ^ prec ->
  let z := binary_normalize prec emax Hp He BinarySingleNaN.mode_NE n 0 false in
  B2R prec emax z = IZR n /\ is_finite prec emax z = true /\ Bsign prec emax z = (n <? 0).
Proof.
  intros Hn z. assert (P0 : 0 < prec) by exact Hp. assert (Pe : prec < emax) by exact He.
  apply rounds_exact; [apply int_format; exact Hn| |apply ofint_rounds].
  rewrite <- abs_IZR, <- IZR_pow2 by lia. apply IZR_lt. assert (2 ^ prec < 2 ^ emax) by (apply Z.pow_lt_mono_r; lia). lia.
Qed.
End Exact.

Lemma l_of_int_exact n : Z.abs n < 2 ^ 64 ->
  B2R 64 16384 (l_of_int n) = IZR n /\ is_finite 64 16384 (l_of_int n) = true /\ Bsign 64 16384 (l_of_int n) = (n <? 0).
Proof. intros H. apply (BofZ_exact 64 16384 prec80 emax80 n H). Qed.
