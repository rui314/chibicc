From Chibicc Require Import Base.Mach Model.StackDisc.
Local Open Scope Z_scope.

(* x87 registers that a value of class c occupies; x87 registers that testing such a value against zero needs, the value
   included ([cmp_zero]: fldz goes on top of it) *)
Definition xv (c : cls) : Z := match c with CX => 1 | _ => 0 end.
Definition cz (c : cls) : Z := match c with CX => 2 | _ => 0 end.

Fixpoint cls_of (e : expr) : cls :=
  match e with
  | XNum c | XVar c | XBin c _ _ | XNeg c _ | XAssign c _ _ => c
  | XCmp _ _ _ | XLNot _ _ | XLogAnd _ _ _ _ | XLogOr _ _ _ _ | XToVoid _ _ => CI
  | XCast _ t _ => t
  | XCond _ c _ _ _ => c
  | XComma _ _ b => cls_of b
  | XCall ret _ _ => ret
  end.

Definition cls_eqb (a b : cls) : bool := match a, b with CI, CI | CF, CF | CX, CX => true | _, _ => false end.
Lemma cls_eqb_eq a b : cls_eqb a b = true -> a = b. Proof. destruct a, b; cbn; congruence. Qed.

(* well-typedness: the class annotations agree with the sub-expressions (what add_type guarantees),
   and a long double argument is always passed on the stack *)
Fixpoint wt (e : expr) : bool :=
  match e with
  | XNum _ | XVar _ => true
  | XBin c a b | XCmp c a b => cls_eqb (cls_of a) c && cls_eqb (cls_of b) c && wt a && wt b
  | XNeg c a | XLNot c a | XToVoid c a => cls_eqb (cls_of a) c && wt a
  | XCast f _ a => cls_eqb (cls_of a) f && wt a
  | XAssign c addr v => cls_eqb (cls_of addr) CI && cls_eqb (cls_of v) c && wt addr && wt v
  | XCond c0 c cond a b => cls_eqb (cls_of cond) c0 && cls_eqb (cls_of a) c && cls_eqb (cls_of b) c && wt cond && wt a && wt b
  | XLogAnd c1 c2 a b | XLogOr c1 c2 a b => cls_eqb (cls_of a) c1 && cls_eqb (cls_of b) c2 && wt a && wt b
  | XComma c1 a b => cls_eqb (cls_of a) c1 && wt a && wt b
  | XCall _ _ args =>
    (fix go (l : list (cls * bool * expr)) : bool :=
       match l with
       | [] => true
       | x :: r => cls_eqb (cls_of (snd x)) (fst (fst x)) && wt (snd x) && (match fst (fst x) with CX => snd (fst x) | _ => true end) && go r
       end) args
  end.

(* the number of x87 registers an evaluation needs above those already in use *)
Fixpoint need (e : expr) : Z :=
  match e with
  | XNum c | XVar c => xv c
  | XBin c a b | XCmp c a b => match c with CX => Z.max (need a) (1 + need b) | _ => Z.max (need a) (need b) end
  | XNeg _ a | XToVoid _ a => need a
  | XLNot c a => Z.max (need a) (cz c)
  | XCast _ t a => Z.max (need a) (xv t)
  | XAssign _ addr v => Z.max (need addr) (need v)
  | XCond c0 _ cond a b => Z.max (Z.max (need cond) (cz c0)) (Z.max (need a) (need b))
  | XLogAnd c1 c2 a b | XLogOr c1 c2 a b => Z.max (Z.max (need a) (cz c1)) (Z.max (need b) (cz c2))
  | XComma _ a b => Z.max (need a) (need b)
  | XCall ret _ args =>
    Z.max (xv ret) ((fix go (l : list (cls * bool * expr)) : Z := match l with [] => 0 | x :: r => Z.max (need (snd x)) (go r) end) args)
  end.

Lemma xv_nonneg c : 0 <= xv c.
Proof. destruct c; discriminate. Qed.
Lemma cz_nonneg c : 0 <= cz c.
Proof. destruct c; discriminate. Qed.

Lemma le_max_l' n a b : n <= a -> n <= Z.max a b.
Proof. lia. Qed.
Lemma le_max_r' n a b : n <= b -> n <= Z.max a b.
Proof. lia. Qed.

Lemma need_nonneg : forall e, 0 <= need e.
Proof. induction e; cbn [need]; try destruct c; auto using le_max_l', xv_nonneg. Qed.

(* [eff k n i o]: over any d slots of machine stack and any x x87 registers in use, n of the 8 registers
   being still free above x, the code k turns i registers above x into o and brings the machine stack
   back to d.  As d may be 0, where [srun] refuses to pop, k never pops more than it has pushed. *)
Definition eff (k : code) (n i o : Z) : Prop :=
  forall d x, 0 <= d -> 0 <= x -> x + n <= 8 -> srun k (d, x + i) = Some (d, x + o).

Lemma eff_run {k n o} : eff k n 0 o -> forall d x, 0 <= d -> 0 <= x -> x + n <= 8 -> srun k (d, x) = Some (d, x + o).
Proof. intros A d x Hd Hx Hn. specialize (A d x Hd Hx Hn). rewrite Z.add_0_r in A. exact A. Qed.

Lemma eff_le {k n n' i o} : eff k n i o -> n <= n' -> eff k n' i o.
Proof. intros A L d x Hd Hx Hn. apply A; lia. Qed.

Lemma fits_max x n n' : x + Z.max n n' <= 8 -> x + n <= 8 /\ x + n' <= 8.
Proof. lia. Qed.

(* n <= N where n is the headroom collected along a piece of code and N is built by Z.max from the same terms,
   none of which is negative *)
Ltac le_max := repeat apply Z.max_lub; auto 6 using Z.le_refl, le_max_l', le_max_r', xv_nonneg, cz_nonneg, need_nonneg.

Lemma eff_seq {a b n n' i m o} : eff a n i m -> eff b n' m o -> eff (a ;; b) (Z.max n n') i o.
Proof. intros A B d x Hd Hx Hn. apply fits_max in Hn as [Hn Hn']. cbn [srun]. rewrite (A d x Hd Hx Hn). exact (B d x Hd Hx Hn'). Qed.

Lemma state_eqb_refl s : state_eqb s s = true.
Proof. unfold state_eqb. rewrite !Z.eqb_refl. reflexivity. Qed.

Lemma eff_br {a b n n' i o} : eff a n i o -> eff b n' i o -> eff (KBr a b) (Z.max n n') i o.
Proof. intros A B d x Hd Hx Hn. apply fits_max in Hn as [Hn Hn']. cbn [srun]. rewrite (A d x Hd Hx Hn), (B d x Hd Hx Hn'), state_eqb_refl. reflexivity. Qed.

Lemma eff_loop {k n i} : eff k n i i -> eff (KLoop k) n i i.
Proof. intros A d x Hd Hx Hn. cbn [srun]. rewrite (A d x Hd Hx Hn), state_eqb_refl. reflexivity. Qed.

Lemma eff_ret {k n i o} : eff k n i o -> eff (KRet k) n i i.
Proof. intros A d x Hd Hx Hn. cbn [srun]. rewrite (A d x Hd Hx Hn). reflexivity. Qed.

(* k run over one more register in use *)
Lemma eff_above {k n i o} : eff k n i o -> eff k (1 + n) (1 + i) (1 + o).
Proof. intros A d x Hd Hx Hn. rewrite !Z.add_assoc. apply A; lia. Qed.

(* a value parked on the machine stack while a runs (push and pushf move the depth alike) *)
Lemma eff_save {push pop a k n n' i m o} : step push = step OPush -> step pop = step OPop ->
  eff a n i m -> eff k n' m o -> eff (KI push ;; a ;; KI pop ;; k) (Z.max n n') i o.
Proof.
  intros E1 E2 A B d x Hd Hx Hn. apply fits_max in Hn as [Hn Hn']. cbn [srun]. rewrite E1, E2. cbn [step]. rewrite (A (d + 1) x (Z.le_le_succ_r _ _ Hd) Hx Hn). cbn [step].
  destruct (Z.ltb_spec 0 (d + 1)); [|lia]. rewrite Z.add_simpl_r. apply B; assumption.
Qed.

Lemma eff_skip {i} : eff KSkip 0 i i.
Proof. intros d x _ _ _. reflexivity. Qed.

Lemma eff_other {i} : eff (KI OOther) 0 i i.
Proof. intros d x _ _ _. reflexivity. Qed.

Lemma eff_fpush : eff (KI OFPush) 1 0 1.
Proof. intros d x Hd Hx Hn. cbn [srun step]. rewrite Z.add_0_r. destruct (Z.ltb_spec x 8); [reflexivity|lia]. Qed.

(* i registers stay in use below the one popped *)
Lemma eff_fpop (i : nat) : eff (KI OFPop) 0 (Z.of_nat i + 1) (Z.of_nat i).
Proof.
  intros d x Hd Hx Hn. cbn [srun step]. destruct (Z.ltb_spec 0 (x + (Z.of_nat i + 1))); [|lia].
  rewrite Z.add_assoc, Z.add_simpl_r. reflexivity.
Qed.
Arguments eff_fpop i%nat.

Lemma eff_load c : eff (load c) (xv c) 0 (xv c).
Proof. destruct c; [apply eff_other..|exact eff_fpush]. Qed.

Lemma eff_discard c : eff (discard c) 0 (xv c) 0.
Proof. destruct c; [apply eff_skip..|exact (eff_fpop 0)]. Qed.

(* fldz; fucomip; fstp: one register above the value tested *)
Lemma eff_cmp_zero c : eff (cmp_zero c) (cz c) (xv c) 0.
Proof. destruct c; [apply eff_other..|exact (eff_seq (eff_above eff_fpush) (eff_seq (eff_fpop 1) (eff_fpop 0)))]. Qed.

Lemma eff_cast f t : eff (cast_code f t) (xv t) (xv f) (xv t).
Proof. destruct f, t; first [apply eff_other | exact eff_fpush | exact (eff_fpop 0) | exact (eff_le eff_skip Z.le_0_1)]. Qed.

(* the value a long double assignment leaves is the one it stored: fstpt pops it, fldt reloads it *)
Lemma eff_store c : eff (match c with CX => KI OFPop ;; KI OFPush | _ => KI OOther end) (xv c) (xv c) (xv c).
Proof. destruct c; [apply eff_other..|exact (eff_seq (eff_fpop 0) eff_fpush)]. Qed.

Lemma eff_test {a c k n n' o} : eff a n 0 (xv c) -> eff k n' 0 o -> eff (a ;; cmp_zero c ;; k) (Z.max (Z.max n (cz c)) n') 0 o.
Proof. intros A K. apply (eff_le (eff_seq A (eff_seq (eff_cmp_zero c) K))). le_max. Qed.

Lemma eff_logical {a c1 b c2 n n'} : eff a n 0 (xv c1) -> eff b n' 0 (xv c2) ->
  eff (a ;; cmp_zero c1 ;; KBr (KI OOther) (b ;; cmp_zero c2 ;; KBr (KI OOther) (KI OOther))) (Z.max (Z.max n (cz c1)) (Z.max n' (cz c2))) 0 0.
Proof.
  intros A B. apply (eff_le (eff_test A (eff_br eff_other (eff_test B (eff_br eff_other eff_other))))). le_max.
Qed.

(* splits a well-typedness hypothesis into its conjuncts, feeds them to the induction hypotheses and
   replaces the class of each sub-expression by its annotation *)
Ltac prep Hw :=
  repeat (apply andb_prop in Hw; destruct Hw as [Hw ?]);
  repeat match goal with IH : wt ?a = true -> _, H : wt ?a = true |- _ => specialize (IH H) end;
  repeat match goal with H : cls_eqb _ _ = true |- _ => apply cls_eqb_eq in H; rewrite ?H in * end.

Lemma xv_le_need : forall e, wt e = true -> xv (cls_of e) <= need e.
Proof.
  induction e; cbn [cls_of]; intros Hw.
  (* comparisons, !, &&, || and (void) are of class CI whatever their operands, and xv CI = 0 *)
  all: try exact (need_nonneg _).
  all: cbn [wt need] in *; prep Hw; try solve [le_max].
  (* left: XBin, whose [need] looks at the class first *)
  destruct c; le_max.
Qed.

Definition balanced (e : expr) : Prop := wt e = true -> eff (gen e) (need e) 0 (xv (cls_of e)).

(* calls: one pass of push_args over the argument list, pushing the stack-passed arguments or the others;
   the nested tests make [pass true] and [pass false] convertible with the two local fixpoints of [gen] *)
Definition pass (want : bool) (l : list (cls * bool * expr)) : code :=
  (fix go (l : list (cls * bool * expr)) : code :=
     match l with
     | [] => KSkip
     | x :: r => go r ;; (if snd (fst x) then if want then gen (snd x) ;; push_val (fst (fst x)) else KSkip
                          else if want then KSkip else gen (snd x) ;; push_val (fst (fst x)))
     end) l.

Lemma run_push_val c d x : 0 <= x -> srun (push_val c) (d, x + xv c) = Some (d + slots c, x).
Proof.
  intros Hx. destruct c; cbn [push_val srun step xv slots]; rewrite ?Z.add_0_r; try reflexivity.
  destruct (Z.ltb_spec 0 (x + 1)); [|lia]. rewrite Z.add_simpl_r. reflexivity.
Qed.

(* the three passes over the arguments of a call, seen from the machine stack: the stack-passed arguments take
   [stack_slots l] slots, the register-passed ones one slot each (a long double is never register-passed), R in all,
   which [reg_pops] gives back.  Stated over the call node with the arguments still to be pushed, so that [wt] and
   [need] speak of the list. *)
Lemma run_args ret pad n : forall l, Forall (fun x => balanced (snd x)) l -> wt (XCall ret pad l) = true -> need (XCall ret pad l) <= n ->
  0 <= stack_slots l /\ exists R, 0 <= R /\ forall d x, 0 <= d -> 0 <= x -> x + n <= 8 ->
    srun (pass true l) (d, x) = Some (d + stack_slots l, x) /\
    srun (pass false l) (d, x) = Some (d + R, x) /\
    srun (reg_pops l) (d + R, x) = Some (d, x).
Proof.
  induction l as [|[[c st] a] r IH]; intros Hb Hw Hn.
  - split; [reflexivity|]. exists 0. split; [reflexivity|]. intros d x _ _ _. cbn. rewrite Z.add_0_r. auto.
  - cbn [wt need fst snd] in Hw, Hn. apply andb_prop in Hw as [[[Hc Hwa]%andb_prop Hst]%andb_prop Hwr]. apply cls_eqb_eq in Hc as <-.
    destruct (IH (Forall_inv_tail Hb) Hwr) as [HS [R [HR Run]]]; [cbn [need]; lia|].
    assert (Ea : eff (gen a) n 0 (xv (cls_of a))) by (apply (eff_le (Forall_inv Hb Hwa)); cbn [snd]; lia).
    assert (0 <= slots (cls_of a)) by (destruct (cls_of a); discriminate).
    clear IH Hb Hwa Hwr Hn. unfold pass. cbn [stack_slots reg_pops fst snd]. fold (pass true r) (pass false r). destruct st.
    + (* on the stack: pushed by the first pass, released by the add rsp after the call *)
      split; [lia|]. exists R. split; [exact HR|]. intros d x Hd Hx Hx8. destruct (Run d x Hd Hx Hx8) as [A [B C]].
      cbn [srun]. rewrite A, B, (eff_run Ea _ x (Z.add_nonneg_nonneg _ _ Hd HS) Hx Hx8), (run_push_val _ _ _ Hx). repeat split; [do 2 f_equal; lia|exact C].
    + (* in a register: pushed by the second pass, popped first by reg_pops *)
      split; [lia|]. exists (R + 1). split; [lia|]. intros d x Hd Hx Hx8. destruct (Run d x Hd Hx Hx8) as [A [B C]].
      cbn [srun]. rewrite A, B, (eff_run Ea _ x (Z.add_nonneg_nonneg _ _ Hd HR) Hx Hx8), (run_push_val _ _ _ Hx).
      assert (Hpop : (0 <? d + R + 1) = true) by (clear - Hd HR; apply Z.ltb_lt; lia).
      destruct (cls_of a); try discriminate; cbn [slots srun step]; rewrite !Z.add_assoc, Z.add_0_r, Hpop, Z.add_simpl_r; auto.
Qed.

Lemma call_balanced ret pad args : Forall (fun x => balanced (snd x)) args -> balanced (XCall ret pad args).
Proof.
  intros Hb Hw d x Hd Hx Hn. destruct (run_args ret pad _ args Hb Hw (Z.le_refl _)) as [HS [R [HR Run]]]. pose proof (xv_le_need _ Hw) as Hr.
  cbn [gen srun cls_of] in *. rewrite Z.add_0_r.
  set (p := if pad then 1 else 0). assert (Hp : 0 <= p) by (destruct pad; discriminate).
  replace (srun (if pad then KI (OSubRsp 1) else KSkip) (d, x)) with (Some (d + p, x)) by (destruct pad; cbn; rewrite ?Z.add_0_r; reflexivity).
  pose proof (Z.add_nonneg_nonneg _ _ Hd Hp) as Hdp.
  destruct (Run (d + p) x Hdp Hx Hn) as [A _]. destruct (Run (d + p + stack_slots args) x (Z.add_nonneg_nonneg _ _ Hdp HS) Hx Hn) as [_ [B C]].
  fold (pass true args) (pass false args). rewrite A, B, C. cbn [step].
  destruct (Z.leb_spec (stack_slots args + p) (d + p + stack_slots args)); [|lia].
  replace (d + p + stack_slots args - (stack_slots args + p)) with d by lia. apply (eff_run (eff_load ret)); [exact Hd|exact Hx|clear - Hr Hn; lia].
Qed.

Theorem gen_eff : forall e, balanced e.
Proof.
  (* Coq's induction principle for [expr] has no hypothesis for the arguments of a call, which sit in a list: the outer
     [fix] provides it, and is cleared in every other case.  That it is applied to arguments of [e] only is what the
     guard check at Qed verifies. *)
  fix IH 1. induction e; [clear IH..|apply call_balanced; induction args as [|x r IHr]; constructor; [apply IH|exact IHr]];
    unfold balanced in *; intros Hw; cbn [wt] in Hw; prep Hw; cbn [gen need cls_of].
  - (* XNum *) apply eff_load.
  - (* XVar *) apply (eff_le (eff_seq eff_other (eff_load c))). le_max.
  - (* XBin: integer and SSE operands go through the machine stack, long double ones stay on the x87 stack *)
    destruct c.
    1, 2: apply (eff_le (eff_seq IHe2 (eff_save eq_refl eq_refl IHe1 eff_other))); le_max.
    apply (eff_le (eff_seq IHe1 (eff_seq (eff_above IHe2) (eff_fpop 1)))). le_max.
  - (* XCmp: as XBin; fucomip and fstp pop both long double operands *)
    destruct c.
    1, 2: apply (eff_le (eff_seq IHe2 (eff_save eq_refl eq_refl IHe1 eff_other))); le_max.
    apply (eff_le (eff_seq IHe1 (eff_seq (eff_above IHe2) (eff_seq (eff_fpop 1) (eff_seq (eff_fpop 0) eff_other))))). le_max.
  - (* XNeg *) apply (eff_le (eff_seq IHe eff_other)). le_max.
  - (* XLNot *) apply (eff_le (eff_test IHe eff_other)). le_max.
  - (* XCast *) exact (eff_seq IHe (eff_cast from to)).
  - (* XToVoid *) apply (eff_le (eff_seq IHe (eff_discard c))). le_max.
  - (* XAssign: fldt after the store needs the register the value just left: the value's own *)
    assert (xv c <= need e2) by (replace c with (cls_of e2) by assumption; apply xv_le_need; assumption).
    apply (eff_le (eff_seq IHe1 (eff_save eq_refl eq_refl IHe2 (eff_store c)))). le_max.
  - (* XCond *) exact (eff_test IHe1 (eff_br IHe2 IHe3)).
  - (* XLogAnd *) exact (eff_logical IHe1 IHe2).
  - (* XLogOr *) exact (eff_logical IHe1 IHe2).
  - (* XComma *) apply (eff_le (eff_seq IHe1 (eff_seq (eff_discard c1) IHe2))). le_max.
Qed.

Lemma gen_eff_as {e c} : wt e = true -> cls_eqb (cls_of e) c = true -> eff (gen e) (need e) 0 (xv c).
Proof. intros Hw Hc. apply cls_eqb_eq in Hc as <-. exact (gen_eff e Hw). Qed.

Fixpoint wts (s : stmt) : bool :=
  match s with
  | SExpr c e | SReturn c e => cls_eqb (cls_of e) c && wt e
  | SIf c0 cond s1 s2 => cls_eqb (cls_of cond) c0 && wt cond && wts s1 && wts s2
  | SFor init c0 cond ci inc body => wts init && cls_eqb (cls_of cond) c0 && wt cond && cls_eqb (cls_of inc) ci && wt inc && wts body
  | SDo body c0 cond => wts body && cls_eqb (cls_of cond) c0 && wt cond
  | SBlock l => (fix go (l : list stmt) : bool := match l with [] => true | s :: r => wts s && go r end) l
  | SNop => true
  end.
Fixpoint sneed (s : stmt) : Z :=
  match s with
  | SExpr _ e | SReturn _ e => need e
  | SIf c0 cond s1 s2 => Z.max (Z.max (need cond) (cz c0)) (Z.max (sneed s1) (sneed s2))
  | SFor init c0 cond ci inc body => Z.max (Z.max (sneed init) (Z.max (need cond) (cz c0))) (Z.max (need inc) (sneed body))
  | SDo body c0 cond => Z.max (sneed body) (Z.max (need cond) (cz c0))
  | SBlock l => (fix go (l : list stmt) : Z := match l with [] => 0 | s :: r => Z.max (sneed s) (go r) end) l
  | SNop => 0
  end.

Theorem gs_eff : forall s, wts s = true -> eff (gs s) (sneed s) 0 0.
Proof.
  (* as in [gen_eff]: the statements of a block sit in a list, the [fix] is the hypothesis for them *)
  fix IH 1. intros [c e|c0 cond s1 s2|init c0 cond ci inc body|body c0 cond|l|c e|]; cbn [wts sneed gs]; intros Hw.
  - (* an expression statement is a cast to void *) exact (gen_eff (XToVoid c e) Hw).
  - apply andb_prop in Hw as [[[Hc Hcond]%andb_prop H1]%andb_prop H2]. exact (eff_test (gen_eff_as Hcond Hc) (eff_br (IH s1 H1) (IH s2 H2))).
  - apply andb_prop in Hw as [[[[[Hinit Hc]%andb_prop Hcond]%andb_prop Hci]%andb_prop Hinc]%andb_prop Hbody].
    apply (eff_le (eff_seq (IH init Hinit) (eff_loop (eff_test (gen_eff_as Hcond Hc) (eff_seq (IH body Hbody) (eff_seq (gen_eff_as Hinc Hci) (eff_discard ci))))))). le_max.
  - apply andb_prop in Hw as [[Hbody Hc]%andb_prop Hcond]. exact (eff_loop (eff_seq (IH body Hbody) (eff_seq (gen_eff_as Hcond Hc) (eff_cmp_zero c0)))).
  - induction l as [|s r IHr]; [exact eff_skip|]. apply andb_prop in Hw as [Hs Hr]. exact (eff_seq (IH s Hs) (IHr Hr)).
  - apply andb_prop in Hw as [Hc He]. exact (eff_ret (gen_eff_as He Hc)).
  - exact eff_skip.
Qed.

(* the capacity hypothesis is not gratuitous: a right-nested long double expression needs one x87
   register per nesting level, and the ninth does not exist (known finding C20-x87-depth) *)
Fixpoint right_nested (n : nat) : expr := match n with O => XVar CX | S k => XBin CX (XVar CX) (right_nested k) end.
