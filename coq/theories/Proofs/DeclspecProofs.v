From Coq Require Import List NArith Bool Permutation.
From Chibicc Require Import Model.Declspec Gen.DeclspecTable Spec.DeclspecSpec.
Import ListNotations.

Section Perms.
Variable A : Type.
Fixpoint inserts (x : A) (l : list A) : list (list A) :=
  match l with
  | [] => [[x]]
  | y :: r => (x :: y :: r) :: map (cons y) (inserts x r)
  end.
Fixpoint perms (l : list A) : list (list A) :=
  match l with
  | [] => [[]]
  | x :: r => flat_map (inserts x) (perms r)
  end.

Lemma in_inserts x l1 l2 : In (l1 ++ x :: l2) (inserts x (l1 ++ l2)).
Proof.
  induction l1 as [|y l1 IH]; simpl.
  - destruct l2; simpl; auto.
  - right. apply in_map. exact IH.
Qed.

Lemma perms_complete : forall l l', Permutation l' l -> In l' (perms l).
Proof.
  induction l as [|x r IH]; intros l' H.
  - apply Permutation_sym, Permutation_nil in H. subst. simpl. auto.
  - destruct (Permutation_vs_cons_inv H) as [l1 [l2 E]]. subst l'.
    apply Permutation_sym, Permutation_cons_app_inv, Permutation_sym in H.
    simpl. apply in_flat_map. exists (l1 ++ l2). split; [apply IH; exact H|apply in_inserts].
Qed.
End Perms.

Definition kws (ts : list dtok) : list kw :=
  flat_map (fun t => match t with TKw k => [k] | TOther => [] end) ts.

Lemma ds_run_kws kop tab : forall ts c ty,
  ds_run kop tab c ty ts = ds_run kop tab c ty (map TKw (kws ts)).
Proof.
  induction ts as [|t r IH]; intros c ty; simpl; auto.
  destruct t; simpl; auto. destruct (lookup _ _); auto.
Qed.

(* finite sweep over the regenerated table: every permutation of every 6.7.2p2 multiset *)
Lemma sweep_ok :
  map (fun mt => map (fun p => declspec kw_op ds_table (map TKw p)) (perms kw (fst mt))) c11_type_specifiers =
  map (fun mt => map (fun _ => Some (snd mt)) (perms kw (fst mt))) c11_type_specifiers.
Proof. vm_compute. reflexivity. Qed.

Theorem declspec_any_order : forall ts m t,
  In (m, t) c11_type_specifiers -> Permutation (kws ts) m ->
  declspec kw_op ds_table ts = Some t.
Proof.
  intros ts m t Hin Hp. unfold declspec. rewrite ds_run_kws.
  pose proof (proj1 map_ext_in_iff sweep_ok (m, t) Hin) as S. cbn [fst snd] in S.
  exact (proj1 map_ext_in_iff S (kws ts) (perms_complete kw m (kws ts) Hp)).
Qed.
