(* C05 (initializers): reading a replayed tree (leaves_of, the order of create_lvar_init / write_gvar_data)
   is reading the log (readout), when the log is `clean`.
   A replayed tree holds at a leaf the value of the last Set_ for it and at a union the member the last event inside
   it went to (replay_scalar, replay_union); parse.c never resets anything.  A clean log read in that naive way is the
   log read as 6.7.9 asks: a Clear finds nothing logged below it, and no two events lie in different members of a
   union (value_at_simple, active_member_simple).  read_ok puts the two together along the type. *)
From Coq Require Import List Arith Bool Lia.
From Chibicc Require Import Base.ListFacts Spec.InitSyntax Spec.InitSpec Spec.InitValid Model.InitCursor
  Proofs.InitTree Proofs.InitLocal.
Import ListNotations.

Lemma strip_spec : forall u q r, strip u q = Some r <-> q = u ++ r.
Proof.
  induction u as [|i u IH]; intros q r; cbn [strip app].
  - split; intro H; [injection H as ->; reflexivity|subst; reflexivity].
  - destruct q as [|j q]; [split; intro H; discriminate|].
    destruct (i =? j) eqn:Hij.
    + apply Nat.eqb_eq in Hij. subst j. rewrite IH. split; intro H; [subst; reflexivity|injection H as ->; reflexivity].
    + apply Nat.eqb_neq in Hij. split; intro H; [discriminate|]. injection H as -> _. contradiction.
Qed.

Lemma path_eqb_strip : forall q p, path_eqb q p = match strip p q with Some [] => true | _ => false end.
Proof.
  induction q as [|i q IH]; intros [|j p]; cbn [path_eqb strip]; try reflexivity.
  rewrite (Nat.eqb_sym i j). destruct (j =? i); [apply IH|reflexivity].
Qed.

Lemma path_eqb_eq : forall p q, path_eqb p q = true <-> p = q.
Proof. exact (eqb_list_eq Nat.eqb Nat.eqb_eq). Qed.

Lemma path_eqb_refl : forall p, path_eqb p p = true.
Proof. intro p. apply path_eqb_eq. reflexivity. Qed.

Lemma is_prefix_spec : forall q p, is_prefix q p = true <-> exists r, p = q ++ r.
Proof.
  induction q as [|i q IH]; intros p; cbn [is_prefix app].
  - split; [intros _; exists p; reflexivity|reflexivity].
  - destruct p as [|j p]; [split; [discriminate|intros [r H]; discriminate]|].
    split.
    + intro H. apply andb_prop in H. destruct H as [H1 H2]. apply Nat.eqb_eq in H1. apply IH in H2.
      destruct H2 as [r ->]. subst. exists r. reflexivity.
    + intros [r H]. injection H as -> ->. rewrite Nat.eqb_refl. apply IH. exists r. reflexivity.
Qed.

Fixpoint tget (t : itree) (p : path) : option itree :=
  match p with
  | [] => Some t
  | i :: q => match nth_error (children t) i with Some c => tget c q | None => None end
  end.

Lemma tget_app : forall p t q, tget t (p ++ q) = match tget t p with Some s => tget s q | None => None end.
Proof.
  induction p as [|i p IH]; intros t q; [reflexivity|].
  cbn [app tget]. destruct (nth_error (children t) i) as [c|]; [apply IH|reflexivity].
Qed.

Lemma nth_upd : forall cs i j f,
  nth_error (upd cs i f) j = if i =? j then option_map f (nth_error cs j) else nth_error cs j.
Proof.
  intros cs i j f. unfold upd. destruct (i =? j) eqn:Hij.
  - apply Nat.eqb_eq in Hij. subst j. destruct (nth_error cs i) as [c|] eqn:Hc.
    + cbn [option_map]. exact (set_nth_same _ _ _ (nth_error_lt _ _ _ Hc)).
    + cbn [option_map]. exact Hc.
  - apply Nat.eqb_neq in Hij. destruct (nth_error cs i) as [c|]; [|reflexivity]. apply set_nth_other. exact Hij.
Qed.

(* tset and ttouch walk down their path and rebuild the child they go through: the subtree at pre is then updated
   with the rest of the path if the path leads through pre, and is the old one if not *)
Section PathUpdate.
  Variable g : itree -> path -> itree.
  Hypothesis g_nil : forall t, children (g t []) = children t.
  Hypothesis g_cons : forall t i q, children (g t (i :: q)) = upd (children t) i (fun c => g c q).

  Lemma tget_update : forall pre t p,
    tget (g t p) pre = option_map (fun s => match strip pre p with Some r => g s r | None => s end) (tget t pre).
  Proof.
    induction pre as [|j pre IH]; intros t p; [reflexivity|].
    cbn [tget]. destruct p as [|i q].
    - rewrite g_nil. destruct (nth_error (children t) j) as [c|]; [|reflexivity]. destruct (tget c pre); reflexivity.
    - rewrite g_cons, nth_upd. cbn [strip]. rewrite (Nat.eqb_sym j i).
      destruct (i =? j), (nth_error (children t) j) as [c|]; try reflexivity; [apply IH|].
      destruct (tget c pre); reflexivity.
  Qed.
End PathUpdate.

Lemma children_tset : forall t i q x, children (tset t (i :: q) x) = upd (children t) i (fun c => tset c q x).
Proof. intros [y|f e cs|cs|mem cs] i q x; cbn [tset children]; try reflexivity. unfold upd. destruct i; reflexivity. Qed.

Lemma children_ttouch : forall t i q, children (ttouch t (i :: q)) = upd (children t) i (fun c => ttouch c q).
Proof. intros [y|f e cs|cs|mem cs] i q; cbn [ttouch children]; try reflexivity. unfold upd. destruct i; reflexivity. Qed.

Lemma tget_tset : forall pre t p x,
  tget (tset t p x) pre = option_map (fun s => match strip pre p with Some r => tset s r x | None => s end) (tget t pre).
Proof.
  intros pre t p x. apply (tget_update (fun t p => tset t p x)).
  - intros [y|f e cs|cs|mem cs]; reflexivity.
  - intros t0 i q. apply children_tset.
Qed.

Lemma tget_ttouch : forall pre t p,
  tget (ttouch t p) pre = option_map (fun s => match strip pre p with Some r => ttouch s r | None => s end) (tget t pre).
Proof. intros pre t p. apply (tget_update ttouch); [reflexivity|exact children_ttouch]. Qed.

(* the log, read naively: last Set_ at the leaf; member of the last event inside the union *)
Definition step_vs (p : path) (cur : option val) (e : event) : option val :=
  match e with Set_ q x => if path_eqb q p then x else cur | Clear _ => cur end.
Definition value_simple (E : list event) (p : path) : option val := fold_left (step_vs p) E None.

Definition step_as (u : path) (cur : option nat) (e : event) : option nat :=
  match strip u (event_path e) with Some (m :: _) => Some m | _ => cur end.
Definition active_simple (E : list event) (u : path) : option nat := fold_left (step_as u) E None.
Definition default0 (o : option nat) : nat := match o with Some m => m | None => 0 end.

Lemma replay_scalar : forall E t pre y, tget t pre = Some (NScalar y) ->
  tget (replay t E) pre = Some (NScalar (fold_left (step_vs pre) E y)).
Proof.
  induction E as [|ev E IH]; intros t pre y H; [exact H|].
  unfold replay. cbn [fold_left]. apply IH. destruct ev as [p x|p]; cbn [apply_ev step_vs].
  - rewrite tget_tset, H, path_eqb_strip. cbn [option_map]. destruct (strip pre p) as [[|i r]|]; reflexivity.
  - rewrite tget_ttouch, H. cbn [option_map]. destruct (strip pre p) as [[|i r]|]; reflexivity.
Qed.

Lemma replay_union : forall E t u mem cs, tget t u = Some (NUnion mem cs) ->
  exists cs', tget (replay t E) u = Some (NUnion (fold_left (step_as u) E mem) cs').
Proof.
  induction E as [|ev E IH]; intros t u mem cs H; [exists cs; exact H|].
  assert (H1 : exists cs1, tget (apply_ev t ev) u = Some (NUnion (step_as u mem ev) cs1)).
  { unfold step_as. destruct ev as [p x|p]; cbn [apply_ev event_path].
    - rewrite tget_tset, H. cbn [option_map]. destruct (strip u p) as [[|m r]|]; eexists; reflexivity.
    - rewrite tget_ttouch, H. cbn [option_map]. destruct (strip u p) as [[|m r]|]; eexists; reflexivity. }
  destruct H1 as [cs1 H1]. exact (IH _ u _ cs1 H1).
Qed.

Lemma nth_child_new : forall U i, wf U = true ->
  nth_error (children (new_initializer U false)) i = option_map (fun V => new_initializer V false) (child U i).
Proof.
  intros U i Hwf. destruct U as [k|[n|] e|ms|ms].
  - cbn [new_initializer children child]. destruct i; reflexivity.
  - cbn [new_initializer children child in_bound]. destruct (i <? n) eqn:Hi.
    + apply nth_error_repeat, Nat.ltb_lt. exact Hi.
    + apply nth_error_None. rewrite repeat_length. apply Nat.ltb_ge. exact Hi.
  - cbn [wf] in Hwf. discriminate.
  - rewrite (new_initializer_struct false ms (wf_members ms Hwf)). cbn [children child]. apply nth_error_map.
  - cbn [new_initializer children child]. apply nth_error_map.
Qed.

Lemma tget_new : forall pre U, wf U = true ->
  tget (new_initializer U false) pre = option_map (fun V => new_initializer V false) (sub U pre).
Proof.
  induction pre as [|i pre IH]; intros U Hwf; [reflexivity|].
  cbn [tget sub]. rewrite (nth_child_new U i Hwf).
  destruct (child U i) as [V|] eqn:HV; cbn [option_map]; [|reflexivity].
  apply IH. eapply wf_child; eassumption.
Qed.

(* the paths seen so far are kept latest first *)
Lemma clean_clear_app : forall E1 E2 seen,
  clean_clear seen (E1 ++ E2) = clean_clear seen E1 && clean_clear (rev (map event_path E1) ++ seen) E2.
Proof.
  induction E1 as [|e E1 IH]; intros E2 seen; [reflexivity|].
  cbn [app map rev]. rewrite <- app_assoc. cbn [app].
  destruct e as [p x|q]; cbn [clean_clear event_path]; rewrite IH; [reflexivity|apply andb_assoc].
Qed.

Lemma clean_clear_prefix : forall E1 E2 seen, clean_clear seen (E1 ++ E2) = true -> clean_clear seen E1 = true.
Proof. intros E1 E2 seen H. rewrite clean_clear_app in H. apply andb_prop in H. apply H. Qed.

Lemma clean_clear_before : forall E1 q E2 seen, clean_clear seen (E1 ++ Clear q :: E2) = true ->
  forall e, In e E1 -> is_prefix q (event_path e) = false.
Proof.
  intros E1 q E2 seen H e He. rewrite clean_clear_app in H. apply andb_prop in H. destruct H as [_ H].
  cbn [clean_clear] in H. apply andb_prop in H. destruct H as [H _]. rewrite forallb_forall in H.
  apply negb_true_iff, H, in_or_app. left. apply -> in_rev. apply in_map. exact He.
Qed.

Lemma clean_union_pair : forall T E e1 e2, clean_union T E = true -> In e1 E -> In e2 E ->
  diverge_at_union T (event_path e1) (event_path e2) = false.
Proof.
  intros T E e1 e2 H H1 H2. unfold clean_union in H. rewrite forallb_forall in H. specialize (H e1 H1).
  rewrite forallb_forall in H. apply negb_true_iff. exact (H e2 H2).
Qed.

Lemma clean_union_prefix : forall T E1 E2, clean_union T (E1 ++ E2) = true -> clean_union T E1 = true.
Proof.
  intros T E1 E2 H. unfold clean_union. apply forallb_forall. intros e1 H1. apply forallb_forall. intros e2 H2.
  apply negb_true_iff, (clean_union_pair T (E1 ++ E2)); [exact H|apply in_or_app; left; assumption..].
Qed.

Lemma step_vs_off : forall p c e, strip p (event_path e) = None -> step_vs p c e = c.
Proof. intros p c [q x|q] H; [|reflexivity]. cbn [step_vs event_path] in *. rewrite path_eqb_strip, H. reflexivity. Qed.

Lemma step_as_off : forall u c e, strip u (event_path e) = None -> step_as u c e = c.
Proof. intros u c e H. unfold step_as. rewrite H. reflexivity. Qed.

(* when a clean log comes to `Clear q`, nothing has been logged inside q: a reading of u inside q that only follows the
   events inside u is still where it started *)
Lemma fold_before_clear : forall (A : Type) (f : A -> event -> A) u,
  (forall a e, strip u (event_path e) = None -> f a e = a) ->
  forall E q a, clean_clear [] (E ++ [Clear q]) = true -> is_prefix q u = true -> fold_left f E a = a.
Proof.
  intros A f u Hf E q a Hc Hp. pose proof (clean_clear_before E q [] [] Hc) as Hno. clear Hc.
  apply is_prefix_spec in Hp. destruct Hp as [r' ->].
  induction E as [|e E IH]; [reflexivity|]. cbn [fold_left]. rewrite Hf.
  - apply IH. intros e' He'. apply Hno. right. exact He'.
  - destruct (strip (q ++ r') (event_path e)) as [r|] eqn:Hs; [exfalso|reflexivity].
    apply strip_spec in Hs. rewrite <- app_assoc in Hs.
    assert (Hyes : is_prefix q (event_path e) = true) by (apply is_prefix_spec; exists (r' ++ r); exact Hs).
    rewrite (Hno e (or_introl eq_refl)) in Hyes. discriminate.
Qed.

Lemma active_member_simple : forall E u, clean_clear [] E = true ->
  active_member E u = default0 (active_simple E u).
Proof.
  intros E u. induction E as [|ev E IH] using rev_ind; intro Hc; [reflexivity|].
  specialize (IH (clean_clear_prefix _ _ _ Hc)).
  unfold active_member, active_simple in *. rewrite !fold_left_app. cbn [fold_left]. rewrite IH.
  set (a := fold_left (step_as u) E None).
  assert (Ha : forall q, ev = Clear q -> is_prefix q u = true -> a = None).
  { intros q -> Hp. exact (fold_before_clear _ _ u (step_as_off u) E q None Hc Hp). }
  unfold step_as. destruct ev as [q x|q]; cbn [step_active event_path].
  - destruct (strip u q) as [[|m r]|]; reflexivity.
  - destruct (strip u q) as [[|m r]|]; try reflexivity;
      (destruct (is_prefix q u) eqn:Hp; [rewrite (Ha q eq_refl Hp)|]; reflexivity).
Qed.

Lemma value_simple_in : forall E p v, value_simple E p = Some v -> In (Set_ p (Some v)) E.
Proof.
  intros E p v. induction E as [|ev E IH] using rev_ind; intro H; [discriminate|].
  unfold value_simple in *. rewrite fold_left_app in H. cbn [fold_left] in H. apply in_or_app.
  destruct ev as [q x|q]; cbn [step_vs] in H; [|left; exact (IH H)].
  destruct (path_eqb q p) eqn:Hq; [|left; exact (IH H)].
  apply path_eqb_eq in Hq. subst. right. left. reflexivity.
Qed.

Lemma value_at_simple : forall T E p, clean T E = true -> value_at T E p = value_simple E p.
Proof.
  intros T E p. induction E as [|ev E IH] using rev_ind; intro Hc; [reflexivity|].
  unfold clean in Hc. apply andb_prop in Hc. destruct Hc as [Hcc Hcu].
  assert (IH' : value_at T E p = value_simple E p).
  { apply IH. unfold clean. rewrite (clean_clear_prefix _ _ _ Hcc), (clean_union_prefix _ _ _ Hcu). reflexivity. }
  unfold value_at, value_simple in *. rewrite !fold_left_app. cbn [fold_left]. rewrite IH'.
  destruct ev as [q x|q]; cbn [step_value step_vs].
  - destruct (path_eqb q p); [reflexivity|]. destruct (diverge_at_union T q p) eqn:Hd; [|reflexivity].
    (* q parts from p at a union: p holds no value, or the event that gave it one and this one lie in different members *)
    destruct (fold_left (step_vs p) E None) as [v|] eqn:Hv; [exfalso|reflexivity].
    apply value_simple_in in Hv.
    pose proof (clean_union_pair T _ (Set_ q x) (Set_ p (Some v)) Hcu) as Hnd. cbn [event_path] in Hnd.
    rewrite Hnd in Hd; [discriminate|apply in_or_app..]; [right; left; reflexivity|left; exact Hv].
  - destruct (is_prefix q p) eqn:Hp; [|reflexivity].
    symmetry. exact (fold_before_clear _ _ p (step_vs_off p) E q None Hcc Hp).
Qed.

Section Read.
  Variable T : ty.
  Variable E : list event.
  Hypothesis HwfT : wf T = true.
  Hypothesis Hclean : clean T E = true.

  Definition replayed : itree := replay (new_initializer T false) E.

  Lemma go_seq : forall (pre : path) (F : nat -> leaves) cs k,
    (forall i c, nth_error cs i = Some c -> leaves_of c (pre ++ [k + i]) = F (k + i)) ->
    (fix go (cs : list itree) (i : nat) : leaves :=
       match cs with [] => [] | c :: cs' => leaves_of c (pre ++ [i]) ++ go cs' (S i) end) cs k
    = flat_map F (seq k (length cs)).
  Proof.
    intros pre F cs. induction cs as [|c cs IH]; intros k H; [reflexivity|].
    cbn [length seq flat_map]. f_equal.
    - specialize (H 0 c eq_refl). rewrite Nat.add_0_r in H. exact H.
    - apply IH. intros i c' Hc'. specialize (H (S i) c' Hc'). rewrite Nat.add_succ_r in H. exact H.
  Qed.

  (* the members of a struct in order, and the member `sel` of a union: one walk over the two lists *)
  Lemma members_two : forall (pre : path) sel ms cs k, length ms = length cs ->
    (forall i m c, nth_error ms i = Some m -> nth_error cs i = Some c ->
                   leaves_of c (pre ++ [k + i]) = readout T E m (pre ++ [k + i])) ->
    (fix go (cs : list itree) (i : nat) : leaves :=
       match cs with [] => [] | c :: cs' => leaves_of c (pre ++ [i]) ++ go cs' (S i) end) cs k
    = (fix go (ms : list ty) (i : nat) : leaves :=
         match ms with [] => [] | m :: ms' => readout T E m (pre ++ [i]) ++ go ms' (S i) end) ms k /\
    (fix pick (cs : list itree) (i : nat) : leaves :=
       match cs with [] => [] | c :: cs' => if i =? sel then leaves_of c (pre ++ [i]) else pick cs' (S i) end) cs k
    = (fix pick (ms : list ty) (i : nat) : leaves :=
         match ms with [] => [] | W :: ms' => if i =? sel then readout T E W (pre ++ [i]) else pick ms' (S i) end) ms k.
  Proof.
    intros pre sel ms. induction ms as [|m ms IH]; intros [|c cs] k Hlen H; cbn [length] in Hlen; try discriminate; [split; reflexivity|].
    pose proof (H 0 m c eq_refl eq_refl) as H0. rewrite Nat.add_0_r in H0.
    destruct (IH cs (S k)) as [IHg IHp]; [lia| |].
    - intros i m' c' Hm' Hc'. specialize (H (S i) m' c' Hm' Hc'). rewrite Nat.add_succ_r in H. exact H.
    - split; [f_equal; assumption|]. destruct (k =? sel); assumption.
  Qed.

  Lemma read_ok : forall n U pre r, tdepth U < n -> sub T pre = Some U -> tget replayed pre = Some r -> shaped U r ->
    leaves_of r pre = readout T E U pre.
  Proof.
    induction n as [|n IH]; intros U pre r Hn HU Hr Hsh; [lia|].
    pose proof Hclean as Hc. unfold clean in Hc. apply andb_prop in Hc. destruct Hc as [Hcc _].
    assert (Hkid : forall i V c, child U i = Some V -> nth_error (children r) i = Some c ->
                     leaves_of c (pre ++ [i]) = readout T E V (pre ++ [i])).
    { intros i V c HV Hc. destruct (shaped_child U r i V Hsh HV) as [c' [Hc' Hshc]]. rewrite Hc in Hc'. injection Hc' as <-.
      apply (IH V (pre ++ [i]) c).
      - apply tdepth_child in HV. lia.
      - eapply sub_snoc; eassumption.
      - rewrite tget_app, Hr. cbn [tget]. rewrite Hc. reflexivity.
      - exact Hshc. }
    assert (H0 : tget (new_initializer T false) pre = Some (new_initializer U false)).
    { rewrite (tget_new pre T HwfT), HU. reflexivity. }
    destruct r as [y|f e cs|cs|mem cs].
    - apply shaped_scalar in Hsh. destruct Hsh as [k ->]. cbn [leaves_of readout].
      pose proof (replay_scalar E _ pre None H0) as H1. fold replayed in H1. rewrite Hr in H1. injection H1 as ->.
      rewrite (value_at_simple T E pre Hclean). reflexivity.
    - apply shaped_array in Hsh. destruct Hsh as [-> [-> Hall]].
      cbn [leaves_of readout]. apply go_seq. intros i c Hc. cbn [Nat.add]. apply (Hkid i e c); [|exact Hc].
      cbn [child in_bound]. rewrite (proj2 (Nat.ltb_lt i (length cs))); [reflexivity|].
      apply nth_error_Some. rewrite Hc. discriminate.
    - apply shaped_struct in Hsh. destruct Hsh as [ms [-> Hall]].
      cbn [leaves_of readout]. exact (proj1 (members_two pre 0 ms cs 0 (Forall2_length_sh ms cs Hall) Hkid)).
    - apply shaped_union in Hsh. destruct Hsh as [ms [-> Hall]].
      destruct (replay_union E _ pre None _ H0) as [cs' H1]. fold replayed in H1. rewrite Hr in H1. injection H1 as -> _.
      cbn [leaves_of readout]. fold (default0 (fold_left (step_as pre) E None)).
      fold (active_simple E pre). rewrite <- (active_member_simple E pre Hcc).
      exact (proj2 (members_two pre _ ms cs 0 (Forall2_length_sh ms cs Hall) Hkid)).
  Qed.

  Theorem leaves_of_replay : leaves_of replayed [] = readout T E T [].
  Proof.
    apply (read_ok (S (tdepth T)) T [] replayed); [lia|reflexivity|reflexivity|].
    unfold replayed. apply shaped_replay, shaped_empty. exact HwfT.
  Qed.
End Read.
