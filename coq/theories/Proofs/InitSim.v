(* C05 (initializers): the simulation.  Every parser function of Model/InitCursor.v, called on the node t of an
   object of type W with the items still to come, returns `replay t E` and the remaining items tok', where E and tok'
   are what the spec's loop does seen from inside W (InitLocal.inside): the events it logs before its cursor leaves W,
   relative to W, and the stream that is left then.  Between the braces of W (mode `true` of `inside`: designated items
   are taken, the run ends at INil; InitLocal.ok_items_inside gives it with the spec's log) a loop hands each item to
   the function of one child k (item_child), and the run is the child's, then W's own from behind k (inside_child).
   By induction on the level d of InitCursor.level. *)
From Coq Require Import List Arith Bool Lia.
From Chibicc Require Import Base.ListFacts Spec.InitSyntax Spec.InitSpec Spec.InitValid Model.InitCursor Proofs.InitTree Proofs.InitLocal.
Import ListNotations.

(* initializer2 on the node of an object of type W, an item for W at the head of the stream *)
Definition I2_in (I2 : I2T) (d : nat) : Prop :=
  forall W t v rest E tok', shaped W t -> wf W = true -> tdepth W + idepth_items (ICons [] v rest) < d ->
    inside W false (Some []) (ICons [] v rest) E tok' -> I2 t v rest = Some (replay t E, tok').

(* designation, called with the designators ds that are left below the node: the run they make, then the loop from
   behind the subobject the run has initialized *)
Definition D_in (D : DT) (d : nat) : Prop :=
  forall W t ds v rest Ev p E tok', shaped W t -> wf W = true -> tdepth W + idepth_items (ICons [] v rest) < d ->
    desig_run W ds v Ev p -> inside W false (next W p) rest E tok' -> D t ds v rest = Some (replay t (Ev ++ E), tok').

(* initializer2 is designation without designators *)
Lemma I2_of_D : forall I2 D d, (forall t v rest, D t [] v rest = I2 t v rest) -> D_in D d -> I2_in I2 d.
Proof.
  intros I2 D d HDI HD W t v rest E tok' Hsh Hwf Hdep H. inversion H as [| | | |br0 p0 v0 tl0 E0 tok0 Hoki Hin]; subst.
  rewrite <- HDI. exact (HD W t [] v rest _ _ E0 tok' Hsh Hwf Hdep (dr_here W v Hoki) Hin).
Qed.

(* an initializer that is consumed by the node alone (`single`: a braced list; an expression for a scalar; a string literal
   for a character array) leaves the stream behind it untouched, whatever that stream is.  Of designation without
   designators that is an instance of D_in: the cursor has left W at once *)
Lemma D_single_of_D : forall D d, D_in D d ->
  forall W t v rest, shaped W t -> wf W = true -> tdepth W + idepth_items (ICons [] v rest) < d ->
    ok_init W [] v = true -> single W v = true ->
    D t [] v rest = Some (replay t (fst (spec_init W [] v)), rest).
Proof.
  intros D d HD W t v rest Hsh Hwf Hdep Hok Hsingle.
  rewrite (HD W t [] v rest _ _ [] rest Hsh Hwf Hdep (dr_here W v Hok)); [rewrite app_nil_r; reflexivity|].
  rewrite (single_done W v Hsingle Hok). apply in_left.
Qed.

Lemma string_events_step : forall q k n s, k < n ->
  string_events q k (Some n) s
  = Set_ (q ++ [k]) (match s with c :: _ => Some (VChar c) | [] => None end) :: string_events q (S k) (Some n) (tl s).
Proof.
  intros q k n s Hk. destruct s as [|c s].
  - cbn [string_events tl zero_fill]. replace (n - k) with (S (n - S k)) by lia. reflexivity.
  - cbn [string_events in_bound tl]. assert (Hb : k <? n = true) by (apply Nat.ltb_lt; exact Hk). rewrite Hb. reflexivity.
Qed.

Lemma string_events_full : forall q k n s, n <= k -> string_events q k (Some n) s = [].
Proof.
  intros q k n s Hk. destruct s as [|c s].
  - cbn [string_events zero_fill]. replace (n - k) with 0 by lia. reflexivity.
  - cbn [string_events in_bound]. assert (Hb : k <? n = false) by (apply Nat.ltb_ge; exact Hk). rewrite Hb. reflexivity.
Qed.

Lemma string_fill_gen : forall e cs s done n, Forall (shaped (TScalar 1)) cs -> n = length done + length cs ->
  exists cs', string_fill cs s = Some cs' /\
    replay (NArray false e (done ++ cs)) (string_events [] (length done) (Some n) s) = NArray false e (done ++ cs').
Proof.
  intros e cs. induction cs as [|c0 cs IH]; intros s done n Hall Hn.
  - exists []. split; [reflexivity|]. rewrite string_events_full by (cbn [length] in Hn; lia). reflexivity.
  - inversion Hall as [|c0' cs' Hc0 Hall']; subst.
    destruct (shaped_scalar_inv 1 c0 Hc0) as [y ->].
    set (x := match s with c :: _ => Some (VChar c) | [] => None end).
    destruct (IH (tl s) (done ++ [NScalar x]) (length done + length (NScalar y :: cs)) Hall') as [r [Hr Hrep]].
    { rewrite app_length. cbn [length]. lia. }
    exists (NScalar x :: r). split. { cbn [string_fill]. rewrite Hr. reflexivity. }
    rewrite string_events_step by (cbn [length]; lia). fold x.
    unfold replay. cbn [fold_left apply_ev app tset]. unfold upd. rewrite nth_error_length_app, set_nth_app. cbn [tset].
    rewrite app_length in Hrep. cbn [length] in Hrep. rewrite Nat.add_1_r in Hrep. rewrite <- !app_assoc in Hrep. cbn [app] in Hrep.
    exact Hrep.
Qed.

Lemma string_fill_ok : forall e cs s, Forall (shaped e) cs -> is_char_array (TArray (Some (length cs)) e) = true ->
  exists cs', string_fill cs s = Some cs' /\
    replay (NArray false e cs) (string_events [] 0 (Some (length cs)) s) = NArray false e cs'.
Proof.
  intros e cs s Hall Hca. rewrite (is_char_array_elem _ e Hca) in *.
  exact (string_fill_gen (TScalar 1) cs s [] (length cs) Hall eq_refl).
Qed.

Lemma string_init_ok : forall W f e cs s, shaped W (NArray f e cs) -> is_char_array W = true ->
  is_integer_elem e = true /\
  string_initializer (NArray f e cs) s = Some (replay (NArray f e cs) (string_events [] 0 (array_bound (Some W)) s)).
Proof.
  intros W f e cs s Hsh Hca. apply shaped_array in Hsh. destruct Hsh as [-> [-> Hall]].
  destruct (string_fill_ok e cs s Hall Hca) as [cs' [Hsf Hrep]].
  split. { rewrite (is_char_array_elem _ e Hca). reflexivity. }
  cbn [string_initializer array_bound]. rewrite Hsf, Hrep. reflexivity.
Qed.

(* a string literal that is the only item between the braces of an array which is not a character array is for its
   first element, which is then not a scalar *)
Lemma braced_str_elem : forall n e l, in_bound n 0 = true -> ok_items (TArray n e) (Some [0]) l = true ->
  forall s, l = ICons [] (IStr s) INil -> is_integer_elem e = false.
Proof.
  intros n e l Hb H s ->. rewrite ok_items_head in H. apply andb_prop in H. destruct H as [H _].
  destruct s; [discriminate H|]. cbn [ok_init sub child] in H. rewrite Hb in H.
  destruct e; [discriminate H|reflexivity..].
Qed.

Lemma wrapped_children : forall w cs, wrapper w -> children (w cs) = cs.
Proof. intros w cs [[e ->]| ->]; reflexivity. Qed.

Lemma shaped_nodes : forall W t, shaped W t -> wf W = true -> forall k V, child W k = Some V ->
  exists n, nth_error (children t) k = Some n /\ shaped V n /\ wf V = true.
Proof.
  intros W t Hsh Hwf k V HV. destruct (shaped_child W t k V Hsh HV) as [n [Hn Hshn]].
  exists n. repeat split; try assumption. eapply wf_child; eassumption.
Qed.

(* the cursor of the spec's loop inside an object, in either mode, when parse.c's loop over its children is at index i:
   child i, or none behind the last child; m bounds the children *)
Definition curm (m : option nat) (i : nat) : option path := if in_bound m i then @Some path [i] else None.

Lemma next_elem : forall m e k, in_bound m k = true -> next (TArray m e) [k] = curm m (S k).
Proof. intros m e k Hk. cbn [next child]. rewrite Hk. reflexivity. Qed.

Lemma nxt_shaped : forall w W cs i, wrapper w -> shaped W (w cs) -> nxt W i = curm (Some (length cs)) (S i).
Proof.
  intros w W cs i [[e ->]| ->] Hsh.
  - apply shaped_array in Hsh. destruct Hsh as [_ [-> _]]. reflexivity.
  - apply shaped_struct in Hsh. destruct Hsh as [ms [-> H2]]. cbn [nxt]. rewrite (Forall2_length_sh ms cs H2). reflexivity.
Qed.

(* a braced list for an aggregate or union: parse.c merges into the node where the spec starts afresh (`Clear`) *)
Lemma braced_events : forall W t l, (forall k, W <> TScalar k) ->
  (forall s, l = ICons [] (IStr s) INil -> is_char_array W = false) ->
  replay t (fst (spec_init W [] (IList l))) = replay t (spec_items W (Some [0]) l).
Proof. intros W t l Hns Hl. rewrite (spec_init_braced W l Hns Hl). cbn [fst]. rewrite map_at_nil. reflexivity. Qed.

Section Level.
  Variable I2c : I2T.
  Variable Dc : DT.
  Variable d : nat.
  Hypothesis HI2 : I2_in I2c d.
  Hypothesis HD : D_in Dc d.

  (* array_initializer2 / struct_initializer2 on the node w cs, from index i *)
  Definition loop2 (w : list itree -> itree) (cs : list itree) (i : nat) (tok : items) : res :=
    match array_loop2 I2c cs i (length cs - i) tok with Some (cs', tok') => Some (w cs', tok') | None => None end.

  Lemma loop2_step : forall w cs i c v tl, nth_error cs i = Some c ->
    loop2 w cs i (ICons [] v tl)
    = match I2c c v tl with Some (c1, tok1) => loop2 w (set_nth cs i c1) (S i) tok1 | None => None end.
  Proof.
    intros w cs i c v tl Hc. pose proof (nth_error_lt cs i c Hc) as Hi.
    unfold loop2. replace (length cs - i) with (S (length cs - S i)) by lia. cbn [array_loop2]. rewrite Hc.
    destruct (I2c c v tl) as [[c1 tok1]|]; [|reflexivity]. rewrite set_nth_length. reflexivity.
  Qed.

  Lemma loop2_ok : forall n w W cs i tok E tok', wrapper w -> wf W = true -> shaped W (w cs) -> n = length cs - i ->
    tdepth W + idepth_items tok <= d -> inside W false (curm (Some (length cs)) i) tok E tok' ->
    loop2 w cs i tok = Some (replay (w cs) E, tok').
  Proof.
    induction n as [|n IH]; intros w W cs i tok E tok' Hw Hwf Hsh Hn Hdep H; unfold curm in H; cbn [in_bound] in H.
    - rewrite (proj2 (Nat.ltb_ge i (length cs))) in H by lia. unfold loop2. rewrite <- Hn. inversion H; reflexivity.
    - rewrite (proj2 (Nat.ltb_lt i (length cs))) in H by lia.
      destruct tok as [|[|d0 ds'] v tl].
      + unfold loop2. rewrite <- Hn. inversion H. reflexivity.
      + (* the item is for child i: initializer2 on it, then the loop from i+1 *)
        destruct (inside_item W _ i [] v tl E tok' H) as [V HV].
        destruct (shaped_nodes W (w cs) Hsh Hwf i V HV) as [c [Hc [HshV HwfV]]]. rewrite (wrapped_children w cs Hw) in Hc.
        destruct (inside_child W _ i V HV _ (Some []) E tok' H) as [E1 [tok1 [E2 [H1 [H2 ->]]]]].
        pose proof (isuffix_idepth _ _ (inside_suffix _ _ _ _ _ _ H1)) as Hsuf. pose proof (tdepth_child W i V HV) as HdV.
        rewrite (loop2_step w cs i c v tl Hc), (HI2 V c v tl E1 tok1 HshV HwfV ltac:(lia) H1).
        rewrite (nxt_shaped w W cs i Hw Hsh), <- (set_nth_length cs i (replay c E1)) in H2.
        rewrite replay_app, (replay_child w Hw E1 cs i c Hc).
        apply (IH w W _ (S i) tok1 E2 tok' Hw Hwf); [|rewrite set_nth_length; lia|cbn [idepth_items] in *; lia|exact H2].
        rewrite <- (replay_child w Hw E1 cs i c Hc). apply shaped_replay. exact Hsh.
      + (* a designated item: for the braces this loop runs in *)
        unfold loop2. rewrite <- Hn. inversion H. reflexivity.
  Qed.

  (* what designation does with the node once its child k is initialized (result r), and initializer2 when it
     hands an expression to the first child: array_initializer2 / struct_initializer2 from the next child; a union
     holds member k and is done *)
  Definition after_child (t : itree) (k : nat) (r : res) : res :=
    match r with
    | None => None
    | Some (c', tok) =>
        match t with
        | NArray f e cs => array_initializer2 I2c Dc (NArray f e (set_nth cs k c')) (S k) tok
        | NStruct cs => struct_initializer2 I2c (NStruct (set_nth cs k c')) (S k) tok
        | NUnion _ cs => Some (NUnion (Some k) (set_nth cs k c'), tok)
        | NScalar _ => None
        end
    end.

  Lemma after_child_ok : forall W t k c E1 tok1 E2 tok', shaped W t -> wf W = true ->
    nth_error (children t) k = Some c -> tdepth W + idepth_items tok1 <= d -> E1 <> [] ->
    inside W false (nxt W k) tok1 E2 tok' ->
    after_child t k (Some (replay c E1, tok1)) = Some (replay t (map (at_ [k]) E1 ++ E2), tok').
  Proof.
    intros W t k c E1 tok1 E2 tok' Hsh Hwf Hc Hdep HE1 H.
    assert (Hgen : forall w cs, wrapper w -> t = w cs -> nth_error cs k = Some c ->
              loop2 w (set_nth cs k (replay c E1)) (S k) tok1 = Some (replay t (map (at_ [k]) E1 ++ E2), tok')).
    { intros w cs Hw -> Hc'. rewrite (nxt_shaped w W cs k Hw Hsh), <- (set_nth_length cs k (replay c E1)) in H.
      rewrite replay_app, (replay_child w Hw E1 cs k c Hc').
      apply (loop2_ok (length (set_nth cs k (replay c E1)) - S k) w W _ (S k) tok1 E2 tok' Hw Hwf); [|reflexivity|exact Hdep|exact H].
      rewrite <- (replay_child w Hw E1 cs k c Hc'). apply shaped_replay. exact Hsh. }
    destruct t as [x|f e cs|cs|mem cs]; cbn [children] in Hc.
    - destruct k; discriminate Hc.
    - assert (Hf : f = false) by (apply shaped_array in Hsh; apply Hsh). subst f.
      apply (Hgen (NArray false e) cs); [left; exists e; reflexivity|reflexivity|exact Hc].
    - apply (Hgen NStruct cs); [right; reflexivity|reflexivity|exact Hc].
    - (* a union is done: nothing is behind its member *)
      apply shaped_union in Hsh. destruct Hsh as [ms [-> _]]. cbn [nxt] in H.
      inversion H; subst; cbn [after_child]; rewrite app_nil_r, (replay_union_child E1 mem cs k c HE1 Hc); reflexivity.
  Qed.

  Lemma designation_cons : forall W t k c ds v rest, shaped W t -> nth_error (children t) k = Some c ->
    designation I2c Dc t (desig_of W k :: ds) v rest = after_child t k (Dc c ds v rest).
  Proof.
    intros W t k c ds v rest Hsh Hc. destruct t as [x|f e cs|cs|mem cs]; cbn [children] in Hc.
    - destruct k; discriminate Hc.
    - apply shaped_array in Hsh. destruct Hsh as [_ [-> _]].
      assert (Hk : k <? length cs = true) by (apply Nat.ltb_lt, (nth_error_lt cs k c Hc)).
      cbn [desig_of designation array_designator]. rewrite Hk. replace (S k - k) with 1 by lia.
      cbn [designate_range]. rewrite Hc. destruct (Dc c ds v rest) as [[c' tok]|]; reflexivity.
    - apply shaped_struct in Hsh. destruct Hsh as [ms [-> _]].
      cbn [desig_of designation]. rewrite Hc. destruct (Dc c ds v rest) as [[c' tok]|]; reflexivity.
    - apply shaped_union in Hsh. destruct Hsh as [ms [-> _]].
      cbn [desig_of designation]. rewrite Hc. destruct (Dc c ds v rest) as [[c' tok]|]; reflexivity.
  Qed.

  (* p20 in parse.c: an expression for an aggregate or union goes to its first child *)
  Lemma init2_elide : forall W t c v rest, shaped W t -> nth_error (children t) 0 = Some c ->
    descends W v -> ok_init W [] v = true ->
    initializer2 I2c Dc t v rest = after_child t 0 (I2c c v rest).
  Proof.
    intros W t c v rest Hsh Hc Hd Hok. destruct t as [x|f e cs|cs|mem cs]; cbn [children] in Hc.
    - discriminate Hc.
    - apply shaped_array in Hsh. destruct Hsh as [-> [-> _]].
      assert (Hgen : array_initializer2 I2c Dc (NArray false e cs) 0 (ICons [] v rest)
                     = after_child (NArray false e cs) 0 (I2c c v rest)).
      { change (array_initializer2 I2c Dc (NArray false e cs) 0 (ICons [] v rest))
          with (loop2 (NArray false e) cs 0 (ICons [] v rest)).
        rewrite (loop2_step _ cs 0 c v rest Hc). destruct (I2c c v rest) as [[c1 tok1]|]; reflexivity. }
      destruct v as [x|s|l]; [exact Hgen| |contradiction].
      cbn [descends] in Hd. cbn [ok_init sub] in Hok. destruct s as [|c0 s0]; [discriminate|].
      cbn [str_ok] in Hok. rewrite Hd in Hok. apply andb_prop in Hok. destruct Hok as [_ Hok]. cbn [orb] in Hok.
      assert (He : is_integer_elem e = false) by (destruct e; [discriminate Hok|reflexivity|reflexivity|reflexivity]).
      cbn [initializer2]. rewrite He. exact Hgen.
    - assert (Hgen : struct_initializer2 I2c (NStruct cs) 0 (ICons [] v rest) = after_child (NStruct cs) 0 (I2c c v rest)).
      { change (struct_initializer2 I2c (NStruct cs) 0 (ICons [] v rest)) with (loop2 NStruct cs 0 (ICons [] v rest)).
        rewrite (loop2_step _ cs 0 c v rest Hc). destruct (I2c c v rest) as [[c1 tok1]|]; reflexivity. }
      destruct v as [x|s|l]; [exact Hgen|exact Hgen|contradiction].
    - cbn [initializer2 after_child]. unfold union_initializer. rewrite Hc.
      destruct v as [x|s|l]; [reflexivity|reflexivity|contradiction].
  Qed.

  Lemma I2_elide : forall W t v rest E tok', shaped W t -> wf W = true ->
    tdepth W + idepth_items (ICons [] v rest) < S d -> inside W false (Some []) (ICons [] v rest) E tok' ->
    (forall k, W <> TScalar k) -> descends W v ->
    initializer2 I2c Dc t v rest = Some (replay t E, tok').
  Proof.
    intros W t v rest E tok' Hsh Hwf Hdep H Hns Hdesc.
    destruct (wf_child0 W Hwf Hns) as [V HV].
    destruct (shaped_nodes W t Hsh Hwf 0 V HV) as [c [Hc [HshV HwfV]]]. pose proof (tdepth_child W 0 V HV) as HdV.
    destruct (inside_first W _ V v rest E tok' HV Hdesc H) as [H0 Hoki].
    destruct (inside_child W _ 0 V HV _ (Some []) E tok' H0) as [E1 [tok1 [E2 [H1 [H2 ->]]]]].
    pose proof (isuffix_idepth _ _ (inside_suffix _ _ _ _ _ _ H1)) as Hsuf.
    rewrite (init2_elide W t c v rest Hsh Hc Hdesc Hoki), (HI2 V c v rest E1 tok1 HshV HwfV ltac:(lia) H1).
    apply (after_child_ok W t 0 c E1 tok1 E2 tok' Hsh Hwf Hc); [cbn [idepth_items] in *; lia| |exact H2].
    exact (proj1 (inside_taken V _ [] v rest E1 tok1 H1)).
  Qed.

  (* for (j = begin; j <= end; j++) designation(&tok2, tok, init->children[j]) with an initializer for one element *)
  Lemma range_fill : forall e v tl n j cs tok2,
    Forall (shaped e) cs -> wf e = true -> tdepth e + idepth_items (ICons [] v tl) < d -> ok_init e [] v = true ->
    single e v = true -> j + n <= length cs ->
    exists cs', designate_range Dc cs j n [] v tl tok2 = Some (cs', match n with 0 => tok2 | S _ => tl end) /\
      NArray false e cs' = replay (NArray false e cs)
                                  (flat_map (fun k => map (at_ [k]) (fst (spec_init e [] v))) (seq j n)).
  Proof.
    intros e v tl n. induction n as [|n IH]; intros j cs tok2 Hall Hwfe Hde Hoke Hsingle Hjn.
    - exists cs. split; reflexivity.
    - assert (Hw : wrapper (NArray false e)) by (left; exists e; reflexivity).
      destruct (Forall_nth e cs j Hall ltac:(lia)) as [c [Hc Hshc]].
      pose proof (D_single_of_D Dc d HD e c v tl Hshc Hwfe Hde Hoke Hsingle) as Hr.
      destruct (IH (S j) (set_nth cs j (replay c (fst (spec_init e [] v)))) tl) as [cs' [Hf Hrep]]; try assumption.
      { apply Forall_set_nth; [exact Hall|]. apply shaped_replay. exact Hshc. }
      { rewrite set_nth_length. lia. }
      exists cs'. split. { cbn [designate_range]. rewrite Hc, Hr, Hf. destruct n; reflexivity. }
      cbn [seq flat_map]. rewrite replay_app, (replay_child (NArray false e) Hw _ cs j c Hc). exact Hrep.
  Qed.

  (* [a ... b] = v on the array node itself *)
  Lemma range_designated : forall e cs a b v tl, let W := TArray (Some (length cs)) e in
    shaped W (NArray false e cs) -> wf W = true -> tdepth e + idepth_items (ICons [] v tl) < d ->
    range_ok W a b v = true -> ok_init e [] v = true ->
    exists cs1, array_designator (DRange a b) (length cs) = Some (a, b) /\
      designate_range Dc cs a (S b - a) [] v tl tl = Some (cs1, tl) /\
      NArray false e cs1 = replay (NArray false e cs) (range_events e v a b) /\
      shaped W (NArray false e cs1) /\ length cs1 = length cs.
  Proof.
    intros e cs a b v tl W Hsh Hwf Hdv Hr Hoke. pose proof Hsh as Hall. apply shaped_array in Hall. destruct Hall as [_ [_ Hall]].
    destruct (range_ok_inv _ e a b v Hr) as [Hle' [Hb Hsingle]]. cbn [in_bound] in Hb.
    pose proof Hb as Hb'. apply Nat.ltb_lt in Hb'. assert (Hle : a <=? b = true) by (apply Nat.leb_le; exact Hle').
    assert (Hwfe : wf e = true) by (cbn [wf W] in Hwf; apply andb_prop in Hwf; apply Hwf).
    destruct (range_fill e v tl (S b - a) a cs tl Hall Hwfe Hdv Hoke Hsingle ltac:(lia)) as [cs1 [Hfill Hrep]].
    replace (S b - a) with (S (b - a)) in Hfill at 2 by lia.
    assert (Hsh1 : shaped W (NArray false e cs1)) by (rewrite Hrep; apply shaped_replay; exact Hsh).
    exists cs1. split; [|split; [exact Hfill|split; [exact Hrep|split; [exact Hsh1|]]]].
    - cbn [array_designator]. assert (Ha : a <? length cs = true) by (apply Nat.ltb_lt; lia). rewrite Ha, Hb, Hle. reflexivity.
    - apply shaped_array in Hsh1. destruct Hsh1 as [_ [Heq _]]. injection Heq as Heq. symmetry. exact Heq.
  Qed.

  (* the call the loops make for an item that is for child k (node c): initializer2 on an undesignated item, the
     cursor being at k; designation with the designators after the one that names k *)
  Definition child_call (W : ty) (i k : nat) (c : itree) (ds : list desig) (v : init) (tl : items) (r : res) : Prop :=
    ds = [] /\ k = i /\ I2c c v tl = r \/ exists ds', ds = desig_of W k :: ds' /\ Dc c ds' v tl = r.

  (* r is what the function for child k (node c) of an object of type W returns, between the braces of W, when E is what
     the spec logs from here on: the node replayed with the events E1 of E that lie in the child, and a suffix tok1 of
     `rest` from which the spec, its cursor behind k, logs the others.  E1 <> []: the call takes at least one item; a union
     node then holds the member (replay_union_child), and the log reaches k (hmax_at, for the bound of an array of
     unknown length) *)
  Definition child_post (W : ty) (k : nat) (c : itree) (E : list event) (rest : items) (r : res) : Prop :=
    exists E1 tok1 E2, r = Some (replay c E1, tok1) /\ E1 <> [] /\ E = map (at_ [k]) E1 ++ E2 /\
       inside W true (nxt W k) tok1 E2 INil /\ isuffix tok1 rest.

  (* a range over W's own elements as the only designator, between the braces of W *)
  Definition own_range (W : ty) (ds : list desig) (v : init) (tl : items) (E : list event) : Prop :=
    exists a b n e E2, ds = [DRange a b] /\ W = TArray n e /\ range_ok W a b v = true /\ ok_init e [] v = true /\
      E = range_events e v a b ++ E2 /\ inside W true (next W [b]) tl E2 INil.

  (* One round of a loop between the braces of an object of type W whose node has the children cs, parse.c's loop being
     at index i (the spec's cursor is `curm m i`; a union and the count on a dummy have `Some [i]`, m = None).  An item that is not
     a range over W's own elements is for one child k of W, the cursor's or the one its first designator names: the
     child's function is called on it.  Every child the item's log reaches must have a node: all of them when the node
     is shaped W (shaped_nodes), the elements below `length cs` when W is an array of larger or unknown bound. *)
  Lemma item_child : forall W cs m i ds v tl E,
    tdepth W + idepth_items (ICons ds v tl) <= d ->
    inside W true (curm m i) (ICons ds v tl) E INil ->
    (forall k V, child W k = Some V -> S k <= hmax E -> exists n, nth_error cs k = Some n /\ shaped V n /\ wf V = true) ->
    own_range W ds v tl E \/
    exists k V n r, child W k = Some V /\ nth_error cs k = Some n /\
      child_call W i k n ds v tl r /\ child_post W k n E tl r.
  Proof.
    intros W cs m i ds v tl E Hdep H Hnode. cbn [idepth_items] in Hdep.
    destruct ds as [|d0 ds'].
    - right. unfold curm in H. destruct (in_bound m i); [|inversion H].
      destruct (inside_item W _ i [] v tl E INil H) as [V HV]. pose proof (tdepth_child W i V HV) as HdV.
      destruct (inside_child W _ i V HV _ (Some []) E INil H) as [E1 [tok1 [E2 [H1 [H2 ->]]]]].
      destruct (inside_taken V _ [] v tl E1 tok1 H1) as [HE1 Hsuf].
      destruct (Hnode i V HV (reach_le i E1 _ HE1)) as [n [Hn [HshV HwfV]]].
      exists i, V, n, (I2c n v tl). split; [exact HV|]. split; [exact Hn|]. split; [left; repeat split|].
      exists E1, tok1, E2. split; [apply (HI2 V n v tl E1 tok1 HshV HwfV); [cbn [idepth_items]; lia|exact H1]|]. repeat split; assumption.
    - inversion H as [| | |c0 d1 ds1 v1 tl1 Ev p E' tok0 Hrun Hin|]; subst.
      inversion Hrun as [|W0 k V ds0 v0 Ev' p' HV Hrun'|n e a b v0 Hr Hoke]; subst.
      + right. pose proof (tdepth_child W k V HV) as HdV. rewrite (next_lift W k V _ HV) in Hin.
        pose proof (desig_run_nonempty _ _ _ _ _ Hrun') as HEv.
        destruct (inside_child W _ k V HV tl _ E' INil Hin) as [E1 [tok1 [E2 [H1 [H2 ->]]]]].
        destruct (Hnode k V HV (reach_le k Ev' _ HEv)) as [n [Hn [HshV HwfV]]].
        exists k, V, n, (Dc n ds' v tl). split; [exact HV|]. split; [exact Hn|]. split; [right; exists ds'; split; reflexivity|].
        exists (Ev' ++ E1), tok1, E2.
        split; [apply (HD V n ds' v tl Ev' p' E1 tok1 HshV HwfV); [cbn [idepth_items]; lia|exact Hrun'|exact H1]|].
        split; [destruct Ev'; [congruence|discriminate]|]. split; [rewrite map_app, <- app_assoc; reflexivity|].
        split; [exact H2|exact (inside_suffix _ _ _ _ _ _ H1)].
      + left. exists a, b, n, e, E'. repeat split; assumption.
  Qed.

  (* array_initializer1: the loop between the braces of an array.  The node has `length cs` elements; the spec runs on
     an array of bound m, which may be larger or unknown (an array of unknown bound, once count_array_init_elements
     has found its length), as long as every element its log reaches has a node. *)
  Lemma array_loop1_ok : forall fuel m e cs i tok E,
    Forall (shaped e) cs -> wf e = true -> ilength tok < fuel -> S (tdepth e) + idepth_items tok <= d ->
    inside (TArray m e) true (curm m i) tok E INil ->
    (forall k, in_bound m k = true -> S k <= hmax E -> k < length cs) ->
    exists cs', array_loop1 I2c Dc fuel cs i tok = Some cs' /\ NArray false e cs' = replay (NArray false e cs) E.
  Proof.
    induction fuel as [|fuel IH]; intros m e cs i tok E Hall Hwf Hfuel Hdep H Hb; [lia|].
    assert (Hw : wrapper (NArray false e)) by (left; exists e; reflexivity).
    destruct tok as [|ds v tl]; [exists cs; rewrite (inside_nil _ _ _ _ _ H); split; reflexivity|].
    cbn [ilength] in Hfuel.
    (* the rest of the list, from element S k on, once the node has become cs1 = cs replayed with E1 *)
    assert (Hrest : forall k E1 E2 cs1 tok1, in_bound m k = true -> length cs1 = length cs -> Forall (shaped e) cs1 ->
              NArray false e cs1 = replay (NArray false e cs) E1 -> isuffix tok1 tl -> E = E1 ++ E2 ->
              inside (TArray m e) true (curm m (S k)) tok1 E2 INil ->
              exists cs', array_loop1 I2c Dc fuel cs1 (S k) tok1 = Some cs' /\
                NArray false e cs' = replay (NArray false e cs) E).
    { intros k E1 E2 cs1 tok1 Hk Hlen1 Hall1 Hrep1 Hsuf1 HL H2. rewrite HL in Hb |- *.
      destruct (IH m e cs1 (S k) tok1 E2) as [cs' [Hr Hrep]]; try assumption.
      { apply isuffix_length in Hsuf1. lia. }
      { apply isuffix_idepth in Hsuf1. cbn [idepth_items] in Hdep. lia. }
      { intros k' Hk' Hle. rewrite Hlen1. apply (Hb k' Hk'). rewrite hmax_app. lia. }
      exists cs'. split; [exact Hr|]. rewrite replay_app, <- Hrep1. exact Hrep. }
    destruct (item_child (TArray m e) cs m i ds v tl E) as [Hrange|[k [V [n [r [HV [Hn [Hcall Hpost]]]]]]]].
    { cbn [tdepth]. lia. } { exact H. }
    { intros k V HV Hle. cbn [child] in HV. destruct (in_bound m k) eqn:Hk; [|discriminate HV]. injection HV as <-.
      destruct (Forall_nth e cs k Hall (Hb k Hk Hle)) as [n [Hn Hshn]]. exists n. repeat split; assumption. }
    - (* [a ... b] = v over the elements of the array itself *)
      destruct Hrange as [a [b [n0 [e0 [E2 [-> [Heq [Hr [Hoke [HL H2]]]]]]]]]]. injection Heq as <- <-.
      destruct (range_ok_inv m e a b v Hr) as [Hle [Hbb Hsingle]].
      assert (Hlt : b < length cs).
      { apply (Hb b Hbb). rewrite HL, hmax_app, (hmax_range e v a b Hle (spec_init_nonempty e [] v Hoke)). lia. }
      set (W' := TArray (Some (length cs)) e).
      assert (Hr' : range_ok W' a b v = true).
      { cbn [range_ok W' in_bound]. rewrite (proj2 (Nat.leb_le a b) Hle), (proj2 (Nat.ltb_lt b _) Hlt), Hsingle. reflexivity. }
      cbn [idepth_items] in Hdep.
      destruct (range_designated e cs a b v tl) as [cs1 [Hdes [Hfill [Hrep1 [Hsh1 Hlen1]]]]]; try assumption.
      { apply shaped_array. repeat split. exact Hall. }
      { cbn [wf W']. rewrite Hwf. destruct (length cs); [lia|reflexivity]. }
      apply shaped_array in Hsh1. destruct Hsh1 as [_ [_ Hall1]].
      rewrite (next_elem m e b Hbb) in H2.
      destruct (Hrest b _ E2 cs1 tl Hbb Hlen1 Hall1 Hrep1 (suf_refl tl) HL H2) as [cs' [Hr2 Hrep]].
      exists cs'. split; [cbn [array_loop1]; rewrite Hdes, Hfill; exact Hr2|exact Hrep].
    - cbn [child] in HV. destruct (in_bound m k) eqn:Hk; [|discriminate HV]. injection HV as <-.
      destruct Hpost as [E1 [tok1 [E2 [-> [HE1 [HL [H2 Hsuf1]]]]]]]. change (nxt (TArray m e) k) with (curm m (S k)) in H2.
      pose proof (nth_error_lt cs k n Hn) as Hlt. apply Nat.ltb_lt in Hlt.
      destruct (Hrest k (map (at_ [k]) E1) E2 (set_nth cs k (replay n E1)) tok1 Hk (set_nth_length cs k _)) as [cs' [Hr2 Hrep]]; try assumption.
      { apply Forall_set_nth; [exact Hall|]. apply shaped_replay. rewrite Forall_forall in Hall. apply Hall. eapply nth_error_In. exact Hn. }
      { symmetry. exact (replay_child (NArray false e) Hw E1 cs k n Hn). }
      exists cs'. split; [|exact Hrep].
      destruct Hcall as [[-> [-> Hr]]|[ds' [-> Hr]]].
      + cbn [array_loop1]. rewrite Hlt, Hn, Hr. exact Hr2.
      + cbn [array_loop1 desig_of array_designator]. rewrite Hlt. replace (S k - k) with 1 by lia.
        cbn [designate_range]. rewrite Hn, Hr. exact Hr2.
  Qed.

  (* struct_initializer1: the loop between the braces of a struct *)
  Lemma struct_loop1_ok : forall fuel W cs i tok E,
    shaped W (NStruct cs) -> wf W = true -> ilength tok < fuel -> tdepth W + idepth_items tok <= d ->
    inside W true (curm (Some (length cs)) i) tok E INil ->
    exists cs', struct_loop1 I2c Dc fuel cs i tok = Some cs' /\ NStruct cs' = replay (NStruct cs) E.
  Proof.
    induction fuel as [|fuel IH]; intros W cs i tok E Hsh Hwf Hfuel Hdep H; [lia|].
    assert (Hw : wrapper NStruct) by (right; reflexivity).
    destruct tok as [|ds v tl]; [exists cs; rewrite (inside_nil _ _ _ _ _ H); split; reflexivity|].
    cbn [ilength] in Hfuel.
    destruct (item_child W cs _ i ds v tl E Hdep H)
      as [Hrange|[k [V [n [r [HV [Hn [Hcall [E1 [tok1 [E2 [-> [_ [-> [H2 Hsuf1]]]]]]]]]]]]]]].
    { intros k V HV _. exact (shaped_nodes W (NStruct cs) Hsh Hwf k V HV). }
    - destruct Hrange as [a [b [n0 [e0 [E2 [_ [-> _]]]]]]].
      apply shaped_struct in Hsh. destruct Hsh as [ms [Heq _]]. discriminate Heq.
    - pose proof (replay_child NStruct Hw E1 cs k n Hn) as Hrep.
      assert (Hsh1 : shaped W (NStruct (set_nth cs k (replay n E1)))) by (rewrite <- Hrep; apply shaped_replay; exact Hsh).
      rewrite (nxt_shaped NStruct W cs k Hw Hsh), <- (set_nth_length cs k (replay n E1)) in H2.
      destruct (IH W (set_nth cs k (replay n E1)) (S k) tok1 E2 Hsh1 Hwf) as [cs' [Hr2 Hw2]].
      { apply isuffix_length in Hsuf1. lia. }
      { apply isuffix_idepth in Hsuf1. cbn [idepth_items] in Hdep. lia. }
      { exact H2. }
      exists cs'. split.
      { apply shaped_struct in Hsh. destruct Hsh as [ms [-> _]].
        destruct Hcall as [[-> [-> Hr]]|[ds' [-> Hr]]]; cbn [struct_loop1 desig_of]; rewrite Hn, Hr; exact Hr2. }
      rewrite replay_app, Hrep. exact Hw2.
  Qed.

  Lemma init2_array_braced : forall f e cs l rest,
    (forall s, l = ICons [] (IStr s) INil -> is_integer_elem e = false) ->
    initializer2 I2c Dc (NArray f e cs) (IList l) rest
    = match array_initializer1 I2c Dc (NArray f e cs) l with Some t' => Some (t', rest) | None => None end.
  Proof.
    intros f e cs l rest Hl. unfold initializer2.
    destruct l as [|ds v' tl]; [reflexivity|]. destruct ds as [|d0 ds']; [|reflexivity].
    destruct v' as [x|s|l']; try reflexivity. destruct tl as [|ds2 v2 tl2]; [|destruct (is_integer_elem e); reflexivity].
    rewrite (Hl s eq_refl). reflexivity.
  Qed.

  Lemma single_scalar : forall k x v rest, tdepth (TScalar k) + idepth v < S d -> ok_init (TScalar k) [] v = true ->
    initializer2 I2c Dc (NScalar x) v rest = Some (replay (NScalar x) (fst (spec_init (TScalar k) [] v)), rest).
  Proof.
    intros k x v rest Hdep Hok. destruct v as [e0|s|l].
    - reflexivity.
    - cbn [ok_init sub str_ok] in Hok. destruct s; discriminate.
    - (* { e0 }: initializer2 on the same node, one level down *)
      cbn [ok_init sub] in Hok. destruct l as [|[|d0 ds'] [e0|s|l'] [|ds2 v2 tl2]]; try discriminate.
      cbn [initializer2].
      rewrite (HI2 (TScalar k) (NScalar x) (IExpr e0) INil _ INil (proj2 (shaped_scalar _ x) (ex_intro _ k eq_refl)) eq_refl
                 ltac:(cbn [tdepth idepth idepth_items] in *; lia) (in_item _ _ [] (IExpr e0) INil [] INil eq_refl (in_end _ _ _))).
      reflexivity.
  Qed.

  Lemma single_array : forall W f e cs v rest, shaped W (NArray f e cs) -> wf W = true -> tdepth W + idepth v < S d ->
    ok_init W [] v = true -> single W v = true ->
    initializer2 I2c Dc (NArray f e cs) v rest = Some (replay (NArray f e cs) (fst (spec_init W [] v)), rest).
  Proof.
    intros W f e cs v rest Hsh Hwf Hdep Hoki Hsingle.
    pose proof Hsh as Hsh0. apply shaped_array in Hsh0. destruct Hsh0 as [-> [HeqW Hall]].
    destruct v as [x|s|l].
    - rewrite HeqW in Hsingle. discriminate Hsingle.
    - (* a string literal for a character array (p14) *)
      destruct (string_init_ok W false e cs s Hsh Hsingle) as [He Hsi].
      cbn [initializer2]. rewrite He, Hsi, (spec_init_str W s Hsingle). reflexivity.
    - destruct (ok_braced_cases W l ltac:(rewrite HeqW; exact I) Hoki) as [[s [-> [Hca _]]]|[Hokl [_ Hnstr]]].
      + destruct (string_init_ok W false e cs s Hsh Hca) as [He Hsi].
        cbn [initializer2]. rewrite He, Hsi, (spec_init_braced_str W s Hca). reflexivity.
      + assert (Hns : forall k, W <> TScalar k) by (intro k; rewrite HeqW; discriminate).
        assert (Hpos : 0 <? length cs = true) by (rewrite HeqW in Hwf; cbn [wf] in Hwf; apply andb_prop in Hwf; apply Hwf).
        assert (Hcur : curm (Some (length cs)) 0 = @Some path [0]) by (unfold curm; cbn [in_bound]; rewrite Hpos; reflexivity).
        rewrite (braced_events W _ l Hns Hnstr).
        rewrite HeqW in Hokl, Hwf |- *. pose proof (braced_str_elem (Some (length cs)) e l Hpos Hokl) as Hie. rewrite <- Hcur in Hokl |- *.
        cbn [wf] in Hwf. apply andb_prop in Hwf. destruct Hwf as [_ Hwfe].
        destruct (array_loop1_ok (S (ilength l)) (Some (length cs)) e cs 0 l _ Hall Hwfe ltac:(lia)
                    ltac:(rewrite HeqW in Hdep; cbn [tdepth idepth] in Hdep; lia) (ok_items_inside _ l _ Hokl)
                    (fun k Hk _ => proj1 (Nat.ltb_lt k (length cs)) Hk)) as [cs' [Hr Hw2]].
        rewrite (init2_array_braced false e cs l rest Hie). unfold array_initializer1, unflex.
        rewrite Hr, Hw2. reflexivity.
  Qed.

  Lemma single_struct : forall W cs l rest, shaped W (NStruct cs) -> wf W = true -> tdepth W + idepth (IList l) < S d ->
    ok_init W [] (IList l) = true ->
    initializer2 I2c Dc (NStruct cs) (IList l) rest = Some (replay (NStruct cs) (fst (spec_init W [] (IList l))), rest).
  Proof.
    intros W cs l rest Hsh Hwf Hdep Hoki. pose proof Hsh as Hsh0. apply shaped_struct in Hsh0. destruct Hsh0 as [ms [HeqW Hall]].
    destruct (ok_braced_cases W l ltac:(rewrite HeqW; exact I) Hoki) as [[s [_ [Hca _]]]|[Hokl [_ Hnstr]]].
    { rewrite HeqW in Hca. discriminate Hca. }
    assert (Hns : forall k, W <> TScalar k) by (intro k; rewrite HeqW; discriminate).
    assert (Hcur : curm (Some (length cs)) 0 = @Some path [0]).
    { rewrite <- (Forall2_length_sh ms cs Hall). rewrite HeqW in Hwf. destruct ms; [discriminate Hwf|reflexivity]. }
    rewrite (braced_events W _ l Hns Hnstr). rewrite <- Hcur in Hokl |- *.
    destruct (struct_loop1_ok (S (ilength l)) W cs 0 l _ Hsh Hwf ltac:(lia) ltac:(cbn [idepth] in Hdep; lia)
                (ok_items_inside W l _ Hokl)) as [cs' [Hr Hw2]].
    cbn [initializer2]. unfold struct_initializer1. rewrite Hr, Hw2. reflexivity.
  Qed.

  (* the braces of a union hold one item, for one member *)
  Lemma single_union : forall W mem cs l rest, shaped W (NUnion mem cs) -> wf W = true -> tdepth W + idepth (IList l) < S d ->
    ok_init W [] (IList l) = true ->
    initializer2 I2c Dc (NUnion mem cs) (IList l) rest
    = Some (replay (NUnion mem cs) (fst (spec_init W [] (IList l))), rest).
  Proof.
    intros W mem cs l rest Hsh Hwf Hdep Hoki.
    pose proof Hsh as Hsh0. apply shaped_union in Hsh0. destruct Hsh0 as [ms [HeqW _]].
    assert (Hns : forall k, W <> TScalar k) by (intro k; rewrite HeqW; discriminate).
    assert (Hnstr : forall s, l = ICons [] (IStr s) INil -> is_char_array W = false) by (intros; rewrite HeqW; reflexivity).
    rewrite (braced_events W _ l Hns Hnstr).
    rewrite HeqW in Hoki. cbn [ok_init sub] in Hoki. rewrite <- HeqW in Hoki.
    destruct l as [|ds v' [|ds2 v2 tl2]]; try discriminate Hoki.
    destruct (item_child W cs None 0 ds v' INil _ ltac:(cbn [idepth_items idepth] in *; lia) (ok_items_inside W _ _ Hoki)
                (fun k V HV _ => shaped_nodes W (NUnion mem cs) Hsh Hwf k V HV))
      as [Hrange|[k [V [c [r [HV [Hc [Hcall [E1 [tok1 [E2 [-> [HE1 [Hs1 [H2 Hsuf1]]]]]]]]]]]]]]].
    { destruct Hrange as [a [b [n0 [e0 [E2 [_ [Heq _]]]]]]]. rewrite HeqW in Heq. discriminate Heq. }
    apply isuffix_nil in Hsuf1. subst tok1. rewrite (inside_nil _ _ _ _ _ H2), app_nil_r in Hs1.
    rewrite Hs1, (replay_union_child E1 mem cs k c HE1 Hc).
    cbn [initializer2]. unfold union_initializer.
    destruct Hcall as [[-> [-> Hr]]|[ds' [-> Hr]]]; [|rewrite HeqW; cbn [desig_of]]; rewrite Hc, Hr; reflexivity.
  Qed.

  (* initializer2 one level up on an initializer the node takes alone (`single`, as in D_single_of_D), kind of node by kind *)
  Lemma I2_single_step : forall W t v rest, shaped W t -> wf W = true -> tdepth W + idepth v < S d ->
    ok_init W [] v = true -> single W v = true ->
    initializer2 I2c Dc t v rest = Some (replay t (fst (spec_init W [] v)), rest).
  Proof.
    intros W t v rest Hsh Hwf Hdep Hok Hsingle. destruct t as [x|f e cs|cs|mem cs].
    - apply shaped_scalar in Hsh. destruct Hsh as [k ->]. apply single_scalar; assumption.
    - apply single_array; assumption.
    - destruct v as [x|s|l]; [| |apply single_struct; assumption];
        apply shaped_struct in Hsh; destruct Hsh as [ms [-> _]]; discriminate Hsingle.
    - destruct v as [x|s|l]; [| |apply single_union; assumption];
        apply shaped_union in Hsh; destruct Hsh as [ms [-> _]]; discriminate Hsingle.
  Qed.

  (* designation one level up, rule by rule *)
  Lemma D_run_step : D_in (designation I2c Dc) (S d).
  Proof.
    intros W t ds v rest Ev p E tok' Hsh Hwf Hdep Hrun H. pose proof Hdep as Hdep'. cbn [idepth_items] in Hdep'.
    destruct Hrun as [W v Hoki|W k V ds v Ev p HV Hrun|n e a b v Hr Hoke].
    - (* no designator is left: initializer2.  Either the node takes the initializer alone (`single`: its braces, the
         expression for a scalar, the string literal for a character array), or an expression or string literal has
         come to an aggregate or union and is handed to the first child *)
      change (designation I2c Dc t [] v rest) with (initializer2 I2c Dc t v rest).
      destruct (single W v) eqn:Hsingle.
      + rewrite (I2_single_step W t v rest Hsh Hwf ltac:(lia) Hoki Hsingle).
        rewrite (single_done W v Hsingle Hoki) in H. inversion H; rewrite app_nil_r; reflexivity.
      + apply (I2_elide W t v rest _ tok' Hsh Hwf Hdep).
        * apply in_item; assumption.
        * intros k ->. destruct v as [x|[|c s]|l]; discriminate.
        * destruct v as [x|s|l]; [exact I|exact Hsingle|discriminate Hsingle].
    - (* the first designator names child k *)
      destruct (shaped_nodes W t Hsh Hwf k V HV) as [c [Hc [HshV HwfV]]]. pose proof (tdepth_child W k V HV) as HdV.
      rewrite (next_lift W k V p HV) in H. destruct (inside_child W _ k V HV _ _ E tok' H) as [E1 [tok1 [E2 [H1 [H2 ->]]]]].
      pose proof (isuffix_idepth _ _ (inside_suffix _ _ _ _ _ _ H1)) as Hsuf.
      rewrite (designation_cons W t k c ds v rest Hsh Hc), (HD V c ds v rest Ev p E1 tok1 HshV HwfV ltac:(cbn [idepth_items]; lia) Hrun H1).
      rewrite app_assoc, <- map_app.
      apply (after_child_ok W t k c (Ev ++ E1) tok1 E2 tok' Hsh Hwf Hc); [lia| |exact H2].
      pose proof (desig_run_nonempty _ _ _ _ _ Hrun). destruct Ev; [congruence|discriminate].
    - (* the node is the array: [a ... b] = v, then array_initializer2 from b + 1 *)
      destruct (shaped_array_inv n e t Hsh) as [cs [-> [-> _]]].
      set (W := TArray (Some (length cs)) e) in *.
      assert (Hw : wrapper (NArray false e)) by (left; exists e; reflexivity).
      destruct (range_designated e cs a b v rest Hsh Hwf ltac:(cbn [tdepth W] in Hdep; lia) Hr Hoke)
        as [cs1 [Hdes [Hfill [Hrep1 [Hsh1 Hlen1]]]]].
      destruct (range_ok_inv _ e a b v Hr) as [_ [Hb _]].
      rewrite (next_elem _ e b Hb : next W [b] = _), <- Hlen1 in H.
      assert (Hdes1 : designation I2c Dc (NArray false e cs) [DRange a b] v rest = loop2 (NArray false e) cs1 (S b) rest).
      { cbn [designation]. rewrite Hdes, Hfill. reflexivity. }
      rewrite Hdes1, replay_app, <- Hrep1.
      apply (loop2_ok (length cs1 - S b) (NArray false e) W cs1 (S b) rest E tok' Hw Hwf Hsh1 eq_refl); [lia|exact H].
  Qed.
End Level.

Lemma level_nil : forall d t v rest, snd (level d) t [] v rest = fst (level d) t v rest.
Proof. intros [|d] t v rest; [reflexivity|]. cbn [level]. destruct (level d) as [i2c dc]. reflexivity. Qed.

Theorem levels_ok : forall d, D_in (snd (level d)) d.
Proof.
  induction d as [|d IH]; [intros W t; intros; lia|].
  pose proof (I2_of_D _ _ d (level_nil d) IH) as HI. cbn [level]. destruct (level d) as [i2c dc]. cbn [fst snd] in *.
  apply D_run_step; assumption.
Qed.

Corollary levels_I2 : forall d, I2_in (fst (level d)) d.
Proof. intro d. exact (I2_of_D _ _ d (level_nil d) (levels_ok d)). Qed.
