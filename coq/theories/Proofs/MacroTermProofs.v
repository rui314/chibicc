(* Macro expansion ends, function-like macros included: on every text and under every macro set the driver pp2
   and the expander of arguments pp_args give, with enough fuel, a result other than Fuel, and more fuel does not
   change it.  The measure is described at [Level], the induction at [Driver]. *)
From Chibicc Require Import Base.Mach Base.ListFacts Model.Lexer Model.Macro Spec.MacroTermSpec Proofs.MacroProofs.
From Coq Require Import Wellfounded.
Local Open Scope N_scope.

Definition bad (r : mres (list mtok)) : Prop := r = MFuel \/ r = MUnsup.

(* a result other than Fuel is final; going on with it preserves this *)
Lemma bind_mono {A B} (K1 K2 : A -> mres B) r1 r2 : (r1 <> MFuel -> r2 = r1) -> (forall c, K1 c <> MFuel -> K2 c = K1 c) ->
  bind r1 K1 <> MFuel -> bind r2 K2 = bind r1 K1.
Proof.
  intros H HK Hn. rewrite H by (intros E; rewrite E in Hn; apply Hn; reflexivity).
  destruct r1; [apply HK, Hn|reflexivity..].
Qed.

(* expand_macro, split into the part that does not depend on the expander of arguments
   (is this an invocation? which arguments, which new hide set, what follows?) and the substitution *)
Record invo := IV { iv_obj : bool; iv_mac : macro; iv_args : list marg; iv_hs : list name; iv_after : list mtok }.
Inductive invres := INo | IErr | IYes (i : invo).

Definition invocation (e : env) (t : mtok) (rest : list mtok) : invres :=
  if hs_contains (m_hs t) (m_txt t) then INo else
  match find_macro e t with
  | None => INo
  | Some m =>
    if mc_obj m then IYes (IV true m [] (hs_union (m_hs t) [m_txt t]) rest)
    else match rest with
         | lp :: r =>
           if is lp LP then
             match read_macro_args (mc_params m) (mc_va m) r with
             | None => IErr
             | Some (args, rparen, after) => IYes (IV false m args (hs_union (hs_inter (m_hs t) (m_hs rparen)) [m_txt t]) after)
             end
           else INo
         | [] => INo
         end
  end.

(* what replaces an invocation, followed by the text after it: this is what is rescanned *)
Definition rescan (t : mtok) (i : invo) (body : list mtok) : list mtok :=
  set_flags (m_bol t) (m_sp t) (add_hideset (iv_hs i) body) ++ iv_after i.

Section Mono.
Variable pt : list (list N).

Definition pp_le (p1 p2 : list mtok -> mres (list mtok)) : Prop := forall x, p1 x <> MFuel -> p2 x = p1 x.

Lemma subst_mono p1 p2 obj : pp_le p1 p2 -> forall n body args acc, (length body < n)%nat ->
  subst pt p1 obj n body args acc <> MFuel -> subst pt p2 obj n body args acc = subst pt p1 obj n body args acc.
Proof.
  intros Hle n body args acc. apply (subst_rel pt p1 p2 obj args (fun r1 r2 => r1 <> MFuel -> r2 = r1)).
  - reflexivity.
  - reflexivity.
  - intros r1 r2 K1 K2. apply bind_mono.
  - intros a _. apply Hle.
Qed.

Definition run_invo (pp : list mtok -> mres (list mtok)) (t : mtok) (i : invo) : expansion :=
  match subst pt pp (iv_obj i) (S (length (mc_body (iv_mac i)))) (mc_body (iv_mac i)) (iv_args i) [] with
  | MOk body => Exp (rescan t i body)
  | MErr => ExpErr | MFuel => ExpFuel | MUnsup => ExpUnsup
  end.

Lemma expand_macro_eq pp e t rest :
  expand_macro pt pp e t rest =
  match invocation e t rest with INo => NoExp | IErr => ExpErr | IYes i => run_invo pp t i end.
Proof.
  unfold expand_macro, invocation, run_invo.
  destruct (hs_contains (m_hs t) (m_txt t)); [reflexivity|].
  destruct (find_macro e t) as [m|]; [|reflexivity].
  destruct (mc_obj m); [reflexivity|].
  destruct rest as [|lp r]; [reflexivity|]. destruct (is lp LP); [|reflexivity].
  destruct (read_macro_args (mc_params m) (mc_va m) r) as [[[args rp] after]|]; reflexivity.
Qed.

Lemma expand_macro_mono p1 p2 e t rest : pp_le p1 p2 ->
  expand_macro pt p1 e t rest <> ExpFuel -> expand_macro pt p2 e t rest = expand_macro pt p1 e t rest.
Proof.
  intros Hle. rewrite !expand_macro_eq. destruct (invocation e t rest) as [| |i]; try reflexivity.
  unfold run_invo. intros H. rewrite (subst_mono p1 p2 _ Hle); [reflexivity|lia|].
  intros E. rewrite E in H. apply H. reflexivity.
Qed.

Theorem pp_args_mono e : forall f f' ts, (f <= f')%nat -> pp_args pt f e ts <> MFuel -> pp_args pt f' e ts = pp_args pt f e ts.
Proof.
  induction f as [|f IH]; intros f' ts Hf H; [exfalso; apply H; reflexivity|].
  destruct f' as [|f']; [lia|]. apply le_S_n in Hf.
  assert (Hle : pp_le (pp_args pt f e) (pp_args pt f' e)) by (intros x; apply IH; exact Hf).
  cbn [pp_args] in *. destruct ts as [|t r]; [reflexivity|].
  rewrite (expand_macro_mono _ _ e t r Hle) by (intros E; rewrite E in H; apply H; reflexivity).
  destruct (expand_macro pt (pp_args pt f e) e t r); try reflexivity; [|apply IH; assumption].
  destruct (m_bol t && is t HASH && from_source t); [reflexivity|].
  apply (bind_mono (fun l => MOk (t :: l)) _ (pp_args pt f e r)); [apply IH; exact Hf|reflexivity|exact H].
Qed.

Theorem pp2_mono : forall f f' e ts, (f <= f')%nat -> pp2 pt f e ts <> MFuel -> pp2 pt f' e ts = pp2 pt f e ts.
Proof.
  induction f as [|f IH]; intros f' e ts Hf H; [exfalso; apply H; reflexivity|].
  destruct f' as [|f']; [lia|]. apply le_S_n in Hf.
  assert (Hle : pp_le (pp_args pt f e) (pp_args pt f' e)) by (intros x; apply pp_args_mono; exact Hf).
  cbn [pp2] in *. destruct ts as [|t r]; [reflexivity|].
  rewrite (expand_macro_mono _ _ e t r Hle) by (intros E; rewrite E in H; apply H; reflexivity).
  destruct (expand_macro pt (pp_args pt f e) e t r); try reflexivity; [|apply IH; assumption].
  destruct (m_bol t && is t HASH && from_source t).
  - destruct r as [|d r1]; [reflexivity|].
    destruct (is d DEFINE). { destruct (read_definition e r1) as [[e' rest]|]; [apply IH; assumption|reflexivity]. }
    destruct (is d UNDEF). { destruct r1 as [|nm r2]; [reflexivity|]. destruct (m_kind nm); try reflexivity. apply IH; assumption. }
    destruct (existsb (is d) other_directives || match m_kind d with LNum => true | _ => false end); [reflexivity|].
    destruct (m_bol d); [apply IH; assumption|reflexivity].
  - apply (bind_mono (fun l => MOk (t :: l)) _ (pp2 pt f e r)); [apply IH; exact Hf|reflexivity|exact H].
Qed.

(* the driver of a translation unit and the expander of arguments part ways only at a directive *)
Lemma pp2_is_pp_args e : forall f ts, pp_args pt f e ts <> MUnsup -> pp2 pt f e ts = pp_args pt f e ts.
Proof.
  induction f as [|f IH]; intros ts H; [reflexivity|]. cbn [pp2 pp_args] in *. destruct ts as [|t r]; [reflexivity|].
  destruct (expand_macro pt (pp_args pt f e) e t r); try reflexivity.
  - destruct (m_bol t && is t HASH && from_source t); [exfalso; apply H; reflexivity|].
    rewrite IH; [reflexivity|]. intros Hc. rewrite Hc in H. apply H. reflexivity.
  - apply IH. exact H.
Qed.
Lemma pp_args_fuel_pp2 e f ts : pp_args pt f e ts = MFuel -> pp2 pt f e ts = MFuel.
Proof. intros E. rewrite pp2_is_pp_args; rewrite E; [reflexivity|discriminate]. Qed.

Lemma pp2_invocation f e t r i : invocation e t r = IYes i ->
  pp2 pt (S f) e (t :: r) =
  match subst pt (pp_args pt f e) (iv_obj i) (S (length (mc_body (iv_mac i)))) (mc_body (iv_mac i)) (iv_args i) [] with
  | MOk body => pp2 pt f e (rescan t i body)
  | MErr => MErr | MFuel => MFuel | MUnsup => MUnsup
  end.
Proof. intros Ei. cbn [pp2]. rewrite expand_macro_eq, Ei. unfold run_invo. destruct (subst pt _ _ _ _ _ _); reflexivity. Qed.
End Mono.

Inductive lexlt : list nat -> list nat -> Prop :=
| lex_hd a b u v : (a < b)%nat -> length u = length v -> lexlt (a :: u) (b :: v)
| lex_tl a u v : lexlt u v -> lexlt (a :: u) (a :: v).

Lemma lexlt_length u v : lexlt u v -> length u = length v.
Proof. induction 1 as [a b u v _ Hl|a u v _ IH]; cbn [length]; congruence. Qed.

Lemma lexlt_hd a u b v : lexlt (a :: u) (b :: v) -> (a <= b)%nat.
Proof. intros H. inversion H; subst; lia. Qed.

Lemma lexlt_acc_len : forall n v, length v = n -> Acc lexlt v.
Proof.
  (* by induction on the length; for b :: v', on b and, inside, on the accessibility of v' among the
     vectors of its length: a predecessor has a smaller head (and any tail of that length) or the same
     head and a smaller tail *)
  induction n as [|n IHn]; intros v Hv.
  - destruct v; [|discriminate]. constructor. intros y Hy. inversion Hy.
  - destruct v as [|b v']; [discriminate|]. injection Hv as Hv.
    revert v' Hv. induction b as [b IHb] using lt_wf_ind. intros v' Hv.
    pose proof (IHn v' Hv) as Hacc. revert Hv. induction Hacc as [v' _ IHv]. intros Hv.
    constructor. intros y Hy. inversion Hy as [a b' u v0 Hab Hlen|a u v0 Hlt]; subst.
    + apply IHb; [exact Hab|congruence].
    + apply IHv; [exact Hlt|]. rewrite (lexlt_length _ _ Hlt). reflexivity.
Qed.
Lemma lexlt_wf : well_founded lexlt.
Proof. intros v. eapply lexlt_acc_len. reflexivity. Qed.

(* vectors given by a function on an interval of indices: the first index where they differ decides *)
Lemma lexlt_at (f g : nat -> nat) j : forall n a, (a <= j < a + n)%nat ->
  (forall l, (a <= l < j)%nat -> (f l <= g l)%nat) -> (f j < g j)%nat ->
  lexlt (map f (seq a n)) (map g (seq a n)).
Proof.
  induction n as [|n IH]; intros a Hj Hle Hlt; [lia|]. cbn [seq map].
  destruct (Nat.eq_dec a j) as [->|Hne].
  - apply lex_hd; [exact Hlt|rewrite !map_length; reflexivity].
  - assert (Ha : (f a <= g a)%nat) by (apply Hle; lia). destruct (Nat.eq_dec (f a) (g a)) as [Heq|Hneq].
    + rewrite Heq. apply lex_tl. apply IH; [lia| |exact Hlt]. intros l Hl. apply Hle. lia.
    + apply lex_hd; [lia|rewrite !map_length; reflexivity].
Qed.

(* The measure.  Each token of the pending stream is annotated with a "base" hide set:
   a set of names contained in the token's hide set, such that the bases shrink along the stream
   (the stream is a stack of remainders of replacement lists, innermost first; the base of a
   remainder is what all of its tokens were given when they were produced).  A function-like
   invocation that reaches down to a ")" with base b produces tokens with base b + {macro name}:
   the intersection rule can lose names of the macro token's hide set, but never names of b.
   Level of a token = number of defined names in its base; the stream is measured by the vector
   (number of tokens of level 0, of level 1, ..., of level |U|), compared lexicographically. *)
Section Level.
Variable U : list name.                                 (* the names that can be macro names *)

Definition sub (b h : list name) : Prop := forall n, hs_contains b n = true -> hs_contains h n = true.
Definition cov (b : list name) : nat := length (filter (hs_contains b) U).
Definition astream := list (mtok * list name).
Fixpoint valid (s : astream) : Prop :=
  match s with
  | [] => True
  | x :: r => sub (snd x) (m_hs (fst x)) /\ Forall (fun y => sub (snd y) (snd x)) r /\ valid r
  end.
Definition cnt (l : nat) (s : astream) : nat := length (filter (fun x => Nat.eqb (cov (snd x)) l) s).
Definition vec (s : astream) : list nat := map (fun l => cnt l s) (seq 0 (S (length U))).

Lemma sub_refl b : sub b b. Proof. intros n H. exact H. Qed.
Lemma sub_trans a b c : sub a b -> sub b c -> sub a c.
Proof. intros H1 H2 n H. apply H2, H1, H. Qed.
Lemma sub_nil_l b : sub [] b. Proof. intros n Hn. discriminate. Qed.
Lemma sub_nil b : sub b [] -> b = [].
Proof. destruct b as [|x b]; [reflexivity|]. intros H. discriminate (H x (proj2 (hs_contains_In (x :: b) x) (or_introl eq_refl))). Qed.
Lemma sub_app b h m : sub b h -> sub (b ++ m) (h ++ m).
Proof.
  intros H n. rewrite !hs_contains_app. intros Hn. apply orb_true_iff in Hn.
  destruct Hn as [Hn|Hn]; [rewrite (H n Hn); reflexivity|rewrite Hn; apply orb_true_r].
Qed.
Lemma sub_union_r h hs : sub hs (hs_union h hs).
Proof. intros n. apply hs_contains_union_r. Qed.
Lemma sub_inter b h1 h2 : sub b h1 -> sub b h2 -> sub b (hs_inter h1 h2).
Proof. intros H1 H2 n Hn. apply hs_contains_inter; [apply H1|apply H2]; exact Hn. Qed.

Lemma cov_le b : (cov b <= length U)%nat.
Proof. unfold cov. induction U as [|u l IH]; cbn [filter length]; [lia|]. destruct (hs_contains b u); cbn [length]; lia. Qed.
Lemma cov_add b m : In m U -> hs_contains b m = false -> (cov b < cov (b ++ [m]))%nat.
Proof.
  intros Hin Hn. unfold cov. eapply filter_length_lt with (x := m).
  - intros y Hy. rewrite hs_contains_app, Hy. reflexivity.
  - exact Hin.
  - apply hs_contains_last.
  - exact Hn.
Qed.

Lemma cnt_app l a b : cnt l (a ++ b) = (cnt l a + cnt l b)%nat.
Proof. unfold cnt. rewrite filter_app, app_length. reflexivity. Qed.
Lemma cnt_cons l x s : cnt l (x :: s) = ((if Nat.eqb (cov (snd x)) l then 1 else 0) + cnt l s)%nat.
Proof. unfold cnt. cbn [filter]. destruct (Nat.eqb (cov (snd x)) l); reflexivity. Qed.
Lemma cnt_zero l s : Forall (fun x => cov (snd x) <> l) s -> cnt l s = 0%nat.
Proof.
  induction 1 as [|x s Hx _ IH]; [reflexivity|]. rewrite cnt_cons, IH.
  destruct (Nat.eqb_spec (cov (snd x)) l); [contradiction|reflexivity].
Qed.

(* tokens with an empty base are of level 0, whatever the names *)
Lemma cov_nil : cov [] = 0%nat.
Proof. unfold cov. induction U as [|u l IH]; [reflexivity|exact IH]. Qed.
Lemma cnt0_all s : Forall (fun y => snd y = []) s -> cnt 0 s = length s.
Proof. induction 1 as [|x s Hx _ IH]; [reflexivity|]. rewrite cnt_cons, IH, Hx, cov_nil. reflexivity. Qed.
(* below a token of the source text every base is empty *)
Lemma cnt0_source t bt sr : valid ((t, bt) :: sr) -> from_source t = true -> cnt 0 ((t, bt) :: sr) = S (length sr).
Proof.
  intros (Hbt & Hchain & _) Hfs. cbn [fst snd] in *. unfold from_source in Hfs. destruct (m_hs t); [|discriminate].
  apply sub_nil in Hbt. subst bt. apply (cnt0_all ((t, []) :: sr)). constructor; [reflexivity|].
  eapply Forall_impl; [|exact Hchain]. intros y. apply sub_nil.
Qed.

Lemma valid_app a : forall b, valid (a ++ b) -> valid a /\ valid b.
Proof.
  induction a as [|x a IH]; intros b H; cbn [app valid] in *; [split; [exact I|exact H]|].
  destruct H as (H1 & H2 & H3). apply Forall_app in H2. destruct (IH _ H3) as (Va & Vb). tauto.
Qed.

Lemma valid_fresh nb body safter : Forall (fun tk => sub nb (m_hs tk)) body -> valid safter ->
  Forall (fun y => sub (snd y) nb) safter -> valid (map (fun tk => (tk, nb)) body ++ safter).
Proof.
  intros Hb Hv Ha. induction Hb as [|tk body Htk _ IH]; cbn [map app valid]; [exact Hv|].
  cbn [fst snd]. split; [exact Htk|]. split; [|exact IH].
  apply Forall_app. split; [|exact Ha]. apply Forall_map, Forall_forall. intros tk' _. apply sub_refl.
Qed.

Lemma vec_piece x p sx q : lexlt (vec sx) (vec (x :: p ++ sx ++ q)).
Proof.
  unfold vec. apply lexlt_at with (j := cov (snd x)).
  - pose proof (cov_le (snd x)). lia.
  - intros l _. rewrite cnt_cons, !cnt_app. lia.
  - rewrite cnt_cons, !cnt_app, Nat.eqb_refl. lia.
Qed.
Lemma vec_tail x s : lexlt (vec s) (vec (x :: s)).
Proof. pose proof (vec_piece x [] s []) as H. rewrite app_nil_r in H. exact H. Qed.

(* the stream after a replacement: the tokens up to x0 (the macro name itself, or the closing
   parenthesis) are replaced by tokens with base (base of x0) + {m}; nothing is asked of the tokens in front of x0 *)
Lemma vec_rescan sfront x0 safter m body :
  valid (x0 :: safter) -> In m U -> hs_contains (snd x0) m = false ->
  Forall (fun tk => sub (snd x0 ++ [m]) (m_hs tk)) body ->
  let s' := map (fun tk => (tk, snd x0 ++ [m])) body ++ safter in
  valid s' /\ lexlt (vec s') (vec (sfront ++ x0 :: safter)).
Proof.
  intros (_ & Haft & Hva) Hin Hm Hb s'. split.
  - subst s'. apply valid_fresh; [exact Hb|exact Hva|].
    eapply Forall_impl; [|exact Haft]. intros y Hy n Hn. rewrite hs_contains_app. rewrite (Hy n Hn). reflexivity.
  - pose proof (cov_add _ _ Hin Hm) as Hlt. pose proof (cov_le (snd x0)) as Hle.
    assert (Hnew : forall l, (l <= cov (snd x0))%nat -> cnt l (map (fun tk => (tk, snd x0 ++ [m])) body) = 0%nat).
    { intros l Hl. apply cnt_zero, Forall_map, Forall_forall. intros tk _. cbn [snd]. lia. }
    (* what stands in front of x0 only adds to the old vector *)
    unfold vec. subst s'. apply lexlt_at with (j := cov (snd x0)); [lia| |].
    + intros l Hl. rewrite !cnt_app, cnt_cons, Hnew by lia. lia.
    + rewrite !cnt_app, cnt_cons, Nat.eqb_refl, Hnew by lia. lia.
Qed.
End Level.

Lemma invocation_shape e t rest i : invocation e t rest = IYes i ->
  hs_contains (m_hs t) (m_txt t) = false /\ In (m_txt t) (names e) /\
  Forall (fun a => infix (a_toks a) rest) (iv_args i) /\
  (* the invocation ends with x0: the macro name itself, or the closing parenthesis *)
  exists front x0, t :: rest = front ++ x0 :: iv_after i /\
    forall b, sub b (m_hs t) -> sub b (m_hs x0) -> sub (b ++ [m_txt t]) (iv_hs i).
Proof.
  unfold invocation. destruct (hs_contains (m_hs t) (m_txt t)); [discriminate|].
  destruct (find_macro e t) as [m|] eqn:Em; [|discriminate].
  assert (Hl : In (m_txt t) (names e)).
  { unfold find_macro in Em. destruct (m_kind t); try discriminate. apply (lookup_in e _ _ Em). }
  destruct (mc_obj m).
  - intros H. injection H as <-. cbn [iv_args iv_after iv_hs]. split; [reflexivity|]. split; [exact Hl|]. split; [constructor|].
    exists [], t. split; [reflexivity|]. intros b Hb _. apply sub_app. exact Hb.
  - destruct rest as [|lp r]; [discriminate|]. destruct (is lp LP); [|discriminate].
    destruct (read_macro_args (mc_params m) (mc_va m) r) as [[[args rp] after]|] eqn:Ea; [|discriminate].
    intros H. injection H as <-. cbn [iv_args iv_after iv_hs].
    apply read_macro_args_shape in Ea. destruct Ea as (pre & -> & Hin). split; [reflexivity|]. split; [exact Hl|]. split.
    + eapply Forall_impl; [|exact Hin]. intros a Ha. apply (infix_app_r _ [lp]), infix_app_l, Ha.
    + exists (t :: lp :: pre), rp. split; [reflexivity|]. intros b Hb Hrp. apply sub_app, sub_inter; assumption.
Qed.

Lemma invocation_hs e t rest i : invocation e t rest = IYes i ->
  hs_contains (iv_hs i) (m_txt t) = true /\ suffix (iv_after i) rest.
Proof.
  intros Ei. destruct (invocation_shape _ _ _ _ Ei) as (_ & _ & _ & front & x0 & Hsplit & Hhs). split.
  - apply (Hhs [] (sub_nil_l _) (sub_nil_l _)), hs_contains_single.
  - destruct front as [|t0 front]; injection Hsplit as _ ->; [apply suffix_refl|]. exists (front ++ [x0]). rewrite <- app_assoc. reflexivity.
Qed.

(* every token that replaces an invocation of M carries M in its hide set, so M is not replaced
   again during rescanning; the text after the invocation is passed on untouched *)
Theorem replacement_painted pt pp e t rest ts : expand_macro pt pp e t rest = Exp ts ->
  exists body after, ts = body ++ after /\ Forall (painted (m_txt t)) body /\ suffix after rest.
Proof.
  rewrite expand_macro_eq. destruct (invocation e t rest) as [| |i] eqn:Ei; try discriminate.
  destruct (invocation_hs _ _ _ _ Ei) as [Hn Hs]. unfold run_invo. destruct (subst pt pp _ _ _ _ _); try discriminate.
  intros H. injection H as <-. eexists _, _. split; [reflexivity|]. split; [|exact Hs].
  apply (replacement_hs (fun h => hs_contains h (m_txt t) = true)). intros h. apply hs_contains_union_r, Hn.
Qed.

Lemma take_line_length : forall ts, (length (snd (take_line ts)) <= length ts)%nat.
Proof.
  induction ts as [|t r IH]; cbn [take_line]; [cbn; lia|]. destruct (m_bol t); [cbn; lia|].
  destruct (take_line r) as [a b]. cbn [snd length] in *. lia.
Qed.

Lemma skip_length s ts r : skip s ts = Some r -> (length r < length ts)%nat.
Proof. intros H. apply skip_cons in H. destruct H as [t ->]. cbn. lia. Qed.

Lemma read_params_length : forall n first ts ps va rest, read_params n first ts = Some (ps, va, rest) -> (length rest <= length ts)%nat.
Proof.
  induction n as [|n IH]; intros first ts ps va rest H; cbn [read_params] in H; [discriminate|].
  destruct ts as [|t r]; [discriminate|]. destruct (is t RP); [injection H as <- <- <-; cbn; lia|].
  destruct (if first then Some (t :: r) else skip COMMA (t :: r)) as [ts1|] eqn:E1; [|discriminate].
  assert (L1 : (length ts1 <= length (t :: r))%nat) by (destruct first; [injection E1 as <-; lia|apply skip_length in E1; lia]).
  destruct ts1 as [|p r1]; [discriminate|]. cbn [length] in L1.
  destruct (is p ELLIPSIS).
  { destruct (skip RP r1) as [r2|] eqn:E2; [|discriminate]. injection H as <- <- <-. apply skip_length in E2. cbn [length]. lia. }
  destruct (m_kind p); try discriminate. destruct r1 as [|e0 r2]; [discriminate|].
  destruct (is e0 ELLIPSIS).
  { destruct (skip RP r2) as [r3|] eqn:E2; [|discriminate]. injection H as <- <- <-. apply skip_length in E2. cbn [length] in *. lia. }
  destruct (read_params n false (e0 :: r2)) as [[[ps' va'] rest']|] eqn:E3; [|discriminate]. injection H as <- <- <-.
  apply IH in E3. cbn [length] in *. lia.
Qed.

Lemma read_definition_length e ts e' rest : read_definition e ts = Some (e', rest) -> (length rest <= length ts)%nat.
Proof.
  unfold read_definition. destruct ts as [|nm r]; [discriminate|]. destruct (m_kind nm); try discriminate.
  destruct r as [|lp r1]; [intros H; injection H as <- <-; cbn; lia|].
  destruct (negb (m_sp lp) && negb (m_bol lp) && is lp LP).
  - destruct (read_params (S (length r1)) true r1) as [[[ps va] rest0]|] eqn:E; [|discriminate].
    apply read_params_length in E. pose proof (take_line_length rest0) as L. destruct (take_line rest0) as [body rest'].
    intros H; injection H as <- <-. cbn [snd length] in *. lia.
  - pose proof (take_line_length (lp :: r1)) as L. destruct (take_line (lp :: r1)) as [body rest'].
    intros H; injection H as <- <-. cbn [snd length] in *. lia.
Qed.

(* Termination of the driver.  Well-founded induction on the annotated pending text.
   The macro set changes at a #define or #undef, and the measure with it; but a directive is only
   recognised at a token with an empty hide set, and then every token still pending has an empty base:
   the pending text is a piece of the original text.  Hence an outer induction on the length of the
   text; the pending tokens with empty base are of level 0, the first entry of the vector, so their number never grows. *)
Section Driver.
Variable pt : list (list N).

Definition terminates (e : env) (ts : list mtok) : Prop := exists f, pp2 pt f e ts <> MFuel.

Lemma map_fst_annot (nb : list name) (body : list mtok) : map fst (map (fun tk => (tk, nb)) body) = body.
Proof. rewrite map_map. apply map_id. Qed.

(* what the induction hypothesis of the termination proof applies to.  The number of pending tokens of level 0
   (those with an empty base among them) needs no conjunct of its own: it is the first entry of the vector,
   which [lexlt] never lets grow ([lexlt_hd]). *)
Definition below (e : env) (s' s : astream) : Prop := valid s' /\ lexlt (vec (names e) s') (vec (names e) s).

Lemma invocation_args e t bt sr i : valid ((t, bt) :: sr) -> invocation e t (map fst sr) = IYes i ->
  Forall (fun a => exists sx, map fst sx = a_toks a /\ below e sx ((t, bt) :: sr)) (iv_args i).
Proof.
  intros Hv Ei. destruct (invocation_shape _ _ _ _ Ei) as (_ & _ & Hargs & _).
  eapply Forall_impl; [|exact Hargs]. intros a (p & q & Hpq). cbn beta.
  apply map_eq_app in Hpq. destruct Hpq as (sp & s2 & -> & _ & H2).
  apply map_eq_app in H2. destruct H2 as (sx & sq & -> & Hx & _).
  exists sx. split; [exact Hx|]. cbn [valid] in Hv. destruct Hv as (_ & _ & Hvr).
  apply valid_app in Hvr. destruct Hvr as (_ & Hvr). apply valid_app in Hvr. destruct Hvr as (Hvx & _).
  split; [exact Hvx|apply vec_piece].
Qed.

(* the text to be rescanned: the base of the last token of the invocation is contained in the hide sets
   of the macro name and of that token, so the replacement can be given that base + {macro name} *)
Lemma invocation_rescan e t bt sr i body : valid ((t, bt) :: sr) -> invocation e t (map fst sr) = IYes i ->
  exists s', map fst s' = rescan t i body /\ below e s' ((t, bt) :: sr).
Proof.
  intros Hv Ei. unfold rescan. destruct (invocation_shape _ _ _ _ Ei) as (Hnot & HinU & _ & front & x0 & Hsplit & Hhs).
  assert (Hbt : sub bt (m_hs t)) by apply Hv.
  assert (Hall : Forall (fun y => sub (snd y) bt) ((t, bt) :: sr)) by (constructor; [apply sub_refl|apply Hv]).
  change (t :: map fst sr) with (map fst ((t, bt) :: sr)) in Hsplit.
  apply map_eq_app in Hsplit. destruct Hsplit as (sfront & s2 & Es & _ & Hs2).
  apply map_eq_cons in Hs2. destruct Hs2 as (sx0 & safter & -> & <- & <-). rewrite Es in *. clear Es.
  apply Forall_app in Hall. destruct Hall as [_ Hall]. apply Forall_inv in Hall.
  apply valid_app in Hv. destruct Hv as [_ Hv]. assert (Hb0 : sub (snd sx0) (m_hs (fst sx0))) by apply Hv.
  destruct (vec_rescan (names e) sfront sx0 safter (m_txt t) (set_flags (m_bol t) (m_sp t) (add_hideset (iv_hs i) body)) Hv HinU) as [Hv' Hlt].
  - destruct (hs_contains (snd sx0) (m_txt t)) eqn:Eb; [|reflexivity]. rewrite (Hbt _ (Hall _ Eb)) in Hnot. discriminate.
  - apply (replacement_hs (sub (snd sx0 ++ [m_txt t]))). intros h. eapply sub_trans; [|apply sub_union_r].
    apply Hhs; [exact (sub_trans _ _ _ Hall Hbt)|exact Hb0].
  - eexists. split; [rewrite map_app, map_fst_annot; reflexivity|]. split; [exact Hv'|exact Hlt].
Qed.

(* arguments are expanded by pp_args; that pp2 ends on them is enough, since pp_args answers Fuel only where pp2 does *)
Lemma fuel_all e args : Forall (fun a => terminates e (a_toks a)) args ->
  exists F, forall a, In a args -> pp_args pt F e (a_toks a) <> MFuel.
Proof.
  induction 1 as [|a args [f Hf] _ [F HF]]; [exists 0%nat; intros a []|].
  exists (Nat.max f F). intros a' [<-|Hin].
  - rewrite (pp_args_mono pt e f); [|lia|]; intros E; apply Hf, pp_args_fuel_pp2, E.
  - rewrite (pp_args_mono pt e F) by (auto; lia). apply HF. exact Hin.
Qed.

Lemma invocation_terminates e t r i : invocation e t r = IYes i ->
  Forall (fun a => terminates e (a_toks a)) (iv_args i) ->
  (forall body, terminates e (rescan t i body)) ->
  terminates e (t :: r).
Proof.
  intros Ei HA HB. destruct (fuel_all e _ HA) as [F1 HF1].
  destruct (subst pt (pp_args pt F1 e) (iv_obj i) (S (length (mc_body (iv_mac i)))) (mc_body (iv_mac i)) (iv_args i) []) as [body| | |] eqn:Es.
  - destruct (HB body) as [F2 HF2]. exists (S (Nat.max F1 F2)). rewrite (pp2_invocation pt _ _ _ _ _ Ei).
    assert (Hle : pp_le (pp_args pt F1 e) (pp_args pt (Nat.max F1 F2) e)) by (intros x Hx; apply pp_args_mono; [lia|exact Hx]).
    rewrite (subst_mono pt _ _ _ Hle); rewrite ?Es; [|lia|discriminate].
    rewrite (pp2_mono pt F2) by (auto; lia). exact HF2.
  - exists (S F1). rewrite (pp2_invocation pt _ _ _ _ _ Ei), Es. discriminate.
  - exfalso. apply subst_stuck_arg in Es; [|left; reflexivity|lia]. destruct Es as (a & Hin & Ha). exact (HF1 a Hin Ha).
  - exists (S F1). rewrite (pp2_invocation pt _ _ _ _ _ Ei), Es. discriminate.
Qed.

Lemma terminates_S e ts k : (forall f, pp2 pt (S f) e ts = k f) -> (exists f, k f <> MFuel) -> terminates e ts.
Proof. intros Hk [f Hf]. exists (S f). rewrite Hk. exact Hf. Qed.

(* after a directive the driver goes on with a text that is not longer, under a macro set that may have changed *)
Lemma directive_terminates e t r : invocation e t r = INo -> m_bol t && is t HASH && from_source t = true ->
  (forall e' ts', (length ts' <= length r)%nat -> terminates e' ts') -> terminates e (t :: r).
Proof.
  intros Ei Edir Hsub. eapply terminates_S; [intros f; cbn [pp2]; rewrite expand_macro_eq, Ei, Edir; reflexivity|]. cbn beta.
  destruct r as [|d r1]; [exists 0%nat; discriminate|]. cbn [length] in Hsub.
  destruct (is d DEFINE).
  { destruct (read_definition e r1) as [[e' rest]|] eqn:Erd; [|exists 0%nat; discriminate].
    apply Hsub. apply read_definition_length in Erd. lia. }
  destruct (is d UNDEF).
  { destruct r1 as [|nm r2]; [exists 0%nat; discriminate|]. destruct (m_kind nm); try (exists 0%nat; discriminate).
    apply Hsub. pose proof (take_line_length r2). cbn [length]. lia. }
  destruct (existsb (is d) other_directives || match m_kind d with LNum => true | _ => false end); [exists 0%nat; discriminate|].
  destruct (m_bol d); [apply Hsub; cbn [length]; lia|exists 0%nat; discriminate].
Qed.

Lemma driver_inner n : (forall e ts, (length ts < n)%nat -> terminates e ts) ->
  forall e s, valid s -> (cnt (names e) 0 s <= n)%nat -> terminates e (map fst s).
Proof.
  intros Hout e s. induction s as [s IH] using (well_founded_induction (wf_inverse_image _ _ lexlt (vec (names e)) lexlt_wf)).
  intros Hv Hz.
  assert (IH' : forall s', below e s' s -> terminates e (map fst s')).
  { intros s' [Hv' Hlt]. apply IH; [exact Hlt|exact Hv'|]. apply lexlt_hd in Hlt. lia. }
  destruct s as [|[t bt] sr]; [exists 1%nat; discriminate|]. cbn [map fst].
  assert (Htail : terminates e (map fst sr)) by (apply IH'; split; [cbn [valid] in Hv; tauto|apply vec_tail]).
  destruct (invocation e t (map fst sr)) as [| |i] eqn:Ei.
  - destruct (m_bol t && is t HASH && from_source t) eqn:Edir.
    + (* a directive: everything pending has an empty base, so the pending text has at most n tokens *)
      apply (directive_terminates e t _ Ei Edir). intros e' ts' Hl. apply Hout.
      rewrite (cnt0_source _ _ _ _ Hv (proj2 (andb_prop _ _ Edir))) in Hz. rewrite map_length in Hl. lia.
    + destruct Htail as [f Hf]. exists (S f). cbn [pp2]. rewrite expand_macro_eq, Ei, Edir.
      destruct (pp2 pt f e (map fst sr)); try discriminate. exfalso. apply Hf. reflexivity.
  - exists 1%nat. cbn [pp2]. rewrite expand_macro_eq, Ei. discriminate.
  - apply (invocation_terminates e t _ i Ei).
    + eapply Forall_impl; [|exact (invocation_args e t bt sr i Hv Ei)]. intros a (sx & <- & Hb). exact (IH' _ Hb).
    + intros body. destruct (invocation_rescan e t bt sr i body Hv Ei) as (s' & <- & Hb). exact (IH' _ Hb).
Qed.

Lemma valid_empty_bases ts : valid (map (fun t : mtok => (t, @nil name)) ts).
Proof.
  induction ts as [|t r IH]; cbn [map valid fst snd]; [exact I|]. split; [apply sub_nil_l|]. split; [|exact IH].
  apply Forall_map, Forall_forall. intros t' _. apply sub_nil_l.
Qed.

(* the driver of the model ends on EVERY token list, under every initial macro set: the text may define
   and undefine macros as it goes ([MUnsup] = a directive that is not modelled was met) *)
Theorem driver_terminates : forall e ts, exists f, pp2 pt f e ts <> MFuel /\
  forall f', (f <= f')%nat -> pp2 pt f' e ts = pp2 pt f e ts.
Proof.
  assert (H : forall n e ts, (length ts < n)%nat -> terminates e ts).
  { induction n as [|n IHn]; intros e ts Hl; [lia|].
    pose proof (driver_inner n IHn e _ (valid_empty_bases ts)) as Hi.
    rewrite map_fst_annot in Hi. apply Hi.
    rewrite cnt0_all; [rewrite map_length; lia|]. apply Forall_map, Forall_forall. reflexivity. }
  intros e ts. destruct (H (S (length ts)) e ts) as [f Hf]; [lia|].
  exists f. split; [exact Hf|]. intros f' Hle. apply pp2_mono; assumption.
Qed.
End Driver.

Section Final.
Variable pt : list (list N).
Variable e : env.

Theorem pp_args_terminates ts : exists f, pp_args pt f e ts <> MFuel /\
  forall f', (f <= f')%nat -> pp_args pt f' e ts = pp_args pt f e ts.
Proof.
  destruct (driver_terminates pt e ts) as (f & Hf & _).
  assert (Hf' : pp_args pt f e ts <> MFuel) by (intros E; apply Hf, pp_args_fuel_pp2, E).
  exists f. split; [exact Hf'|]. intros f' Hle. apply pp_args_mono; assumption.
Qed.

(* a directive can only begin with a # that comes from the source text at the beginning of a line *)
Definition nodir (t : mtok) : Prop := m_bol t && is t HASH && from_source t = false.

Lemma replaced_nodir bol sp hs m body : hs_contains hs m = true -> Forall nodir (set_flags bol sp (add_hideset hs body)).
Proof.
  intros H. eapply Forall_impl; [|apply (replacement_hs (fun h => hs_contains h m = true))].
  - intros tk Htk. cbn beta in Htk. unfold nodir, from_source. destruct (m_hs tk); [discriminate Htk|apply andb_false_r].
  - intros h. apply sub_union_r. exact H.
Qed.

Lemma pp_args_no_unsup : forall f ts, Forall nodir ts -> pp_args pt f e ts <> MUnsup.
Proof.
  induction f as [|f IH]; intros ts Hts; [discriminate|]. cbn [pp_args]. destruct ts as [|t r]; [discriminate|].
  rewrite expand_macro_eq. destruct (invocation e t r) as [| |i] eqn:Ei; [| discriminate |].
  - inversion Hts as [|? ? Ht Hr]; subst. unfold nodir in Ht. rewrite Ht. specialize (IH r Hr).
    destruct (pp_args pt f e r); try discriminate. exact IH.
  - destruct (invocation_shape _ _ _ _ Ei) as (_ & _ & Hargs & _). destruct (invocation_hs _ _ _ _ Ei) as (Hn & pre & Hpre).
    apply Forall_inv_tail in Hts. unfold run_invo.
    destruct (subst pt (pp_args pt f e) (iv_obj i) _ _ (iv_args i) []) as [body| | |] eqn:Es; try discriminate.
    + apply IH. unfold rescan. apply Forall_app. split; [apply (replaced_nodir _ _ _ (m_txt t)), Hn|].
      rewrite Hpre in Hts. apply Forall_app in Hts. apply Hts.
    + exfalso. apply subst_stuck_arg in Es; [|right; reflexivity|lia]. destruct Es as (a & Hin & Ha).
      rewrite Forall_forall in Hargs. exact (IH _ (infix_Forall _ _ _ (Hargs a Hin) Hts) Ha).
Qed.

Theorem macro_expansion_terminates ts : Forall nodir ts ->
  exists f, ((exists out, pp2 pt f e ts = MOk out) \/ pp2 pt f e ts = MErr) /\
            forall f', (f <= f')%nat -> pp2 pt f' e ts = pp2 pt f e ts.
Proof.
  intros Hts. destruct (driver_terminates pt e ts) as (f & Hf & Hmono). exists f. split; [|exact Hmono].
  pose proof (pp_args_no_unsup f ts Hts) as Hu. rewrite (pp2_is_pp_args pt e f ts Hu) in *.
  destruct (pp_args pt f e ts) as [out| | |]; [left; exists out; reflexivity|right; reflexivity|contradiction|contradiction].
Qed.

Lemma invocation_no_settled t r : invocation e t r = INo -> settled_tok e t = true.
Proof.
  unfold invocation, settled_tok, exempt, objlike_name. destruct (hs_contains (m_hs t) (m_txt t)); [intros _; apply orb_true_r|].
  destruct (find_macro e t) as [m|]; [|reflexivity]. destruct (mc_obj m); [discriminate|reflexivity].
Qed.

Theorem pp_args_settled : forall f ts out, pp_args pt f e ts = MOk out -> settled e out = true.
Proof.
  induction f as [|f IH]; intros ts out H; [discriminate|]. cbn [pp_args] in H. destruct ts as [|t r]; [injection H as <-; reflexivity|].
  rewrite expand_macro_eq in H. destruct (invocation e t r) as [| |i] eqn:Ei; [|discriminate|].
  - destruct (m_bol t && is t HASH && from_source t); [discriminate|].
    destruct (pp_args pt f e r) as [l| | |] eqn:E; try discriminate. injection H as <-.
    unfold settled. cbn [forallb]. rewrite (invocation_no_settled _ _ Ei). apply (IH _ _ E).
  - unfold run_invo in H. destruct (subst pt (pp_args pt f e) (iv_obj i) _ _ (iv_args i) []); try discriminate. apply (IH _ _ H).
Qed.
End Final.
