From Chibicc Require Import Base.Mach Model.IntLit Spec.IntLitSpec.
Local Open Scope Z_scope.

Lemma shr_nz z n : 0 <= n -> nz (Z.shiftr z n) = negb ((0 <=? z) && (z <? 2 ^ n)).
Proof.
  intros Hn. unfold nz. rewrite Z.shiftr_div_pow2 by assumption.
  assert (0 < 2 ^ n) by (apply Z.pow_pos_nonneg; lia).
  destruct (z / 2 ^ n =? 0) eqn:E.
  - apply Z.eqb_eq in E. apply Z.div_small_iff in E; lia.
  - apply Z.eqb_neq in E. rewrite Z.div_small_iff in E by lia. lia.
Qed.

(* each test [val >> n] of the ladder (n <= 63) asks whether the unsigned value reaches 2^n: a
   value from 2^63 on is a negative int64_t, and no shift makes that zero *)
Lemma shr_sval v n k : 0 <= n <= 63 -> Z.of_N k = 2 ^ n -> (v < 18446744073709551616)%N ->
  nz (Z.shiftr (sval v) n) = negb (v <? k)%N.
Proof.
  intros Hn Hk Hv. rewrite shr_nz by lia. unfold sval.
  assert (H : 2 ^ n <= 2 ^ 63) by (apply Z.pow_le_mono_r; lia).
  change (2 ^ 63) with 9223372036854775808 in H.
  destruct (Z.of_N v <? 9223372036854775808) eqn:E; lia.
Qed.

Lemma fits_ladder v : (v < 18446744073709551616)%N ->
  fits TULong v = true /\
  ((fits TInt v = true /\ fits TUInt v = true /\ fits TLong v = true) \/
   (fits TInt v = false /\ fits TUInt v = true /\ fits TLong v = true) \/
   (fits TInt v = false /\ fits TUInt v = false /\ fits TLong v = true) \/
   (fits TInt v = false /\ fits TUInt v = false /\ fits TLong v = false)).
Proof. cbn [fits]. lia. Qed.

(* with the shifts read as [fits] tests, ladder and first-fit search branch on the same three
   booleans; [fits_ladder] leaves four size classes, and in each of them, for each of the eight
   (decimal, l, u), both sides evaluate to the same type *)
Theorem literal_type_is_c11 : forall decimal l u v t,
  (v < 18446744073709551616)%N ->
  c11_literal_type decimal l u v = Some t -> lit_type decimal l u v = t.
Proof.
  intros decimal l u v t Hv.
  unfold c11_literal_type, first_fit, lit_type.
  rewrite (shr_sval v 31 2147483648), (shr_sval v 32 4294967296), (shr_sval v 63 9223372036854775808)
    by (reflexivity || lia || exact Hv).
  destruct (fits_ladder v Hv) as [H4 [(H1 & H2 & H3)|[(H1 & H2 & H3)|[(H1 & H2 & H3)|(H1 & H2 & H3)]]]];
    cbn [fits] in H1, H2, H3, H4;
    destruct decimal, l, u; cbn [candidates find fits andb]; rewrite ?H1, ?H2, ?H3, ?H4; cbn [negb]; congruence.
Qed.

(* below 2^63 some candidate fits (long or unsigned long is in every list); from 2^63 on a decimal
   constant without u has no type in C11 (the fourth line of C11_nonvacuous) *)
Lemma literal_type_defined decimal l u v :
  (v < 9223372036854775808)%N -> c11_literal_type decimal l u v <> None.
Proof.
  intros Hv E. unfold c11_literal_type, first_fit in E.
  assert (H : In TLong (candidates decimal l u) \/ In TULong (candidates decimal l u))
    by (destruct decimal, l, u; cbn; tauto).
  destruct H as [H|H]; apply (find_none _ _ E) in H; cbn [fits] in H; lia.
Qed.
