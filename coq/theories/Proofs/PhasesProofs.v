From Chibicc Require Import Base.Mach Model.Phases.
Local Open Scope N_scope.

Lemma count_lf_cons c l : count_lf (c :: l) = ((if (c =? 10)%N then 1 else 0) + count_lf l)%nat.
Proof. unfold count_lf. cbn [filter]. destruct (c =? 10); reflexivity. Qed.
Lemma count_lf_app a b : count_lf (a ++ b) = (count_lf a + count_lf b)%nat.
Proof. unfold count_lf. rewrite filter_app, app_length. reflexivity. Qed.
Lemma count_lf_repeat n : count_lf (repeat 10 n) = n.
Proof. induction n; [reflexivity|]. cbn [repeat]. rewrite count_lf_cons, IHn. reflexivity. Qed.
Lemma count_lf_firstn_repeat j n : (j <= n)%nat -> count_lf (firstn j (repeat 10 n)) = j.
Proof.
  revert n; induction j as [|j IH]; intros n H; [reflexivity|]. destruct n as [|n]; [lia|].
  cbn [firstn repeat]. rewrite count_lf_cons, IH by lia. reflexivity.
Qed.

(* induction two bytes at a time, for a scanner that looks at a pair of bytes (scan_num of the tokenizer) *)
Lemma list_ind2 (P : list N -> Prop) :
  P [] -> (forall c, P [c]) -> (forall c d r, P r -> P (d :: r) -> P (c :: d :: r)) -> forall l, P l.
Proof.
  intros H0 H1 H2. assert (H : forall l, P l /\ forall c, P (c :: l)).
  { induction l as [|d r [IHa IHb]]; [split; [exact H0|exact H1]|]. split; [apply IHb|]. intros c. apply H2; [exact IHa|apply IHb]. }
  intros l. apply H.
Qed.

Lemma list_len_ind (P : list N -> Prop) :
  (forall p, (forall q, (length q < length p)%nat -> P q) -> P p) -> forall p, P p.
Proof.
  intros H p. remember (length p) as n eqn:E. revert p E.
  induction n as [n IHn] using (well_founded_induction Nat.lt_wf_0). intros p ->. apply H. intros q Hq. eapply IHn; [exact Hq|reflexivity].
Qed.
Ltac len := cbn [length]; lia.

(* canonicalize_newline writes [b] for the source byte [c]: [c] itself, or the LF that replaces a CR *)
Definition canon_byte (c b : N) : Prop := (c = b /\ c <> 13) \/ (c = 13 /\ b = 10).

(* one step of canonicalize_newline in front of c :: r writes a byte b, reads k bytes (2 for CR LF) and leaves r'.
   All that the inductions below use of it, so that none of them repeats the case analysis of canon: the equations
   of canon and canon_idx; where the k bytes read lie; k > 0 (the rest is shorter); the byte written; the count of line ends *)
Lemma canon_step c r : exists b k r',
  canon (c :: r) = b :: canon r' /\ (forall i, canon_idx i (c :: r) = (b, i) :: canon_idx (k + i) r') /\
  (forall m, nth_error (c :: r) (k + m) = nth_error r' m) /\ (0 < k /\ k + length r' = length (c :: r))%nat /\
  canon_byte c b /\
  (forall m, terms_before (c :: r) (k + m) = ((if (b =? 10)%N then 1 else 0) + terms_before r' m)%nat).
Proof.
  cbn [canon canon_idx]. destruct (c =? 13) eqn:E13.
  - apply N.eqb_eq in E13. subst c. assert (Hb : canon_byte 13 10) by (right; auto).
    (* a CR at the end, CR LF, a CR before another byte.  In each case the equations hold by [reflexivity], the byte is Hb
       and the two facts about k go to [lia]; what is left, where a byte d follows, is the count of line ends, which
       computes once d =? 10 is decided *)
    destruct r as [|d r'']; [exists 10, 1%nat, []|destruct (d =? 10) eqn:Ed; [exists 10, 2%nat, r''|exists 10, 1%nat, (d :: r'')]];
      (repeat split; try reflexivity; try apply Hb; try (cbn [length]; lia)); intros m;
      cbn [plus terms_before]; unfold ends_line; cbn [N.eqb Pos.eqb andb orb negb]; rewrite ?Ed; reflexivity.
  - exists c, 1%nat, r. repeat split; try reflexivity; try lia.
    + left. split; [reflexivity|lia].
    + intros m. cbn [plus terms_before]. unfold ends_line. rewrite E13. cbn [andb]. rewrite orb_false_r. reflexivity.
Qed.

Lemma canon_erase : forall p i, map fst (canon_idx i p) = canon p.
Proof.
  induction p as [p IH] using list_len_ind. intros i. destruct p as [|c r]; [reflexivity|].
  destruct (canon_step c r) as (b & k & r' & Ec & Ei & _ & Elen & _).
  rewrite Ec, Ei. cbn [map fst]. f_equal. apply IH. lia.
Qed.

Lemma canon_lines_gen : forall p i0 j b i, nth_error (canon_idx i0 p) j = Some (b, i) ->
  exists m, i = (i0 + m)%nat /\ (exists c, nth_error p m = Some c /\ canon_byte c b) /\
  count_lf (firstn j (canon p)) = terms_before p m.
Proof.
  induction p as [p IH] using list_len_ind. intros i0 j b i H. destruct p as [|c r]; [destruct j; discriminate|].
  destruct (canon_step c r) as (b0 & k & r' & Ec & Ei & Enth & Elen & Hbyte & Eterms).
  rewrite Ei in H. rewrite Ec. destruct j as [|j]; cbn [nth_error firstn] in *.
  - injection H as <- <-. exists 0%nat. split; [lia|]. split; [exists c; split; [reflexivity|exact Hbyte]|reflexivity].
  - destruct (IH r' ltac:(lia) _ _ _ _ H) as (m & -> & Hc & Hn). exists (k + m)%nat.
    split; [lia|]. rewrite Enth, Eterms, count_lf_cons, Hn. split; [exact Hc|reflexivity].
Qed.

Theorem canon_lines s j b i : nth_error (canon_idx 0 s) j = Some (b, i) ->
  (exists c, nth_error s i = Some c /\ canon_byte c b) /\ line_at (canon s) j = phys_line s i.
Proof.
  intros H. destruct (canon_lines_gen _ _ _ _ _ H) as (m & -> & Hc & Hn).
  split; [exact Hc|]. unfold line_at, phys_line. rewrite Hn. reflexivity.
Qed.

Theorem canon_no_cr : forall p, ~ In 13 (canon p).
Proof.
  induction p as [p IH] using list_len_ind. destruct p as [|c r]; [intros []|].
  destruct (canon_step c r) as (b & k & r' & Ec & _ & _ & Elen & Hb & _).
  rewrite Ec. intros [H|H]; [unfold canon_byte in Hb; lia|exact (IH r' ltac:(lia) H)].
Qed.

Lemma canon_count : forall s, count_lf (canon s) = terms_before s (length s).
Proof.
  induction s as [s IH] using list_len_ind. destruct s as [|c r]; [reflexivity|].
  destruct (canon_step c r) as (b & k & r' & Ec & _ & _ & (Hk & Elen) & _ & Eterms).
  rewrite Ec, count_lf_cons, <- Elen, Eterms, IH by lia. reflexivity.
Qed.

Lemma map_fst_repeat {A} (a : A) n : map fst (repeat (10, a) n) = repeat 10 n.
Proof. induction n; cbn; congruence. Qed.

(* remove_backslash_newline in front of c :: r: a backslash-new-line is dropped and counted; any other
   byte is copied, and a new-line is followed by the pending ones *)
Definition spliced_here (c : N) (r : list N) : bool := (c =? 92) && match r with d :: _ => d =? 10 | [] => false end.

Lemma splice_cons n c r : splice n (c :: r) =
  if spliced_here c r then splice (S n) (tl r)
  else c :: if c =? 10 then repeat 10 n ++ splice 0 r else splice n r.
Proof.
  (* for c <> 10 both sides compute to the same term; for a new-line splice writes the literal 10 where the equation has c *)
  unfold spliced_here. destruct r as [|d r']; [rewrite andb_false_r|]; cbn [splice tl];
    destruct (c =? 10) eqn:E; try reflexivity; apply N.eqb_eq in E; subst c; reflexivity.
Qed.

Lemma splice_idx_cons i n c r : splice_idx i n (c :: r) =
  if spliced_here c r then splice_idx (S (S i)) (S n) (tl r)
  else (c, Some (i, n)) :: if c =? 10 then repeat (10, None) n ++ splice_idx (S i) 0 r else splice_idx (S i) n r.
Proof.
  unfold spliced_here. destruct r as [|d r']; [rewrite andb_false_r|]; cbn [splice_idx tl];
    destruct (c =? 10) eqn:E; try reflexivity; apply N.eqb_eq in E; subst c; reflexivity.
Qed.

Lemma spliced_here_inv c r : spliced_here c r = true -> c = 92 /\ exists r', r = 10 :: r'.
Proof.
  unfold spliced_here. destruct r as [|d r']; [rewrite andb_false_r; discriminate|]. intros H.
  apply andb_prop in H as [Hc Hd]. apply N.eqb_eq in Hc, Hd. subst. split; [reflexivity|exists r'; reflexivity].
Qed.

Lemma splice_erase : forall p i n, map fst (splice_idx i n p) = splice n p.
Proof.
  induction p as [p IH] using list_len_ind. intros i n. destruct p as [|c r]; [apply map_fst_repeat|].
  rewrite splice_cons, splice_idx_cons. destruct (spliced_here c r) eqn:E.
  - apply spliced_here_inv in E as (_ & r' & ->). cbn [tl]. apply IH. len.
  - cbn [map fst]. f_equal. destruct (c =? 10); [rewrite map_app, map_fst_repeat; f_equal|]; (apply IH; len).
Qed.

(* "later lines keep their numbers": splicing neither adds nor removes line ends overall *)
Theorem splice_count : forall p n, count_lf (splice n p) = (n + count_lf p)%nat.
Proof.
  induction p as [p IH] using list_len_ind. intros n. destruct p as [|c r]; [cbn [splice]; rewrite count_lf_repeat; unfold count_lf; cbn; lia|].
  rewrite splice_cons. destruct (spliced_here c r) eqn:E.
  - apply spliced_here_inv in E as (-> & r' & ->). cbn [tl]. rewrite IH by len. rewrite !count_lf_cons. cbn. lia.
  - rewrite !count_lf_cons. destruct (c =? 10).
    + rewrite count_lf_app, count_lf_repeat, IH by len. lia.
    + rewrite IH by len. lia.
Qed.

Lemma nth_repeat_none {A} (a : A) n j x : nth_error (repeat (10, @None A) n) j = Some (x, Some a) -> False.
Proof. revert j; induction n; intros [|j] H; cbn in H; try discriminate; eauto. Qed.

(* every copied byte is the byte at its origin, and
   (LF before it in the output) + (splices pending there) = n + (LF before its origin) *)
Lemma splice_lines_gen : forall p i0 n j b i k, nth_error (splice_idx i0 n p) j = Some (b, Some (i, k)) ->
  exists m, i = (i0 + m)%nat /\ nth_error p m = Some b /\
  (count_lf (firstn j (splice n p)) + k = n + count_lf (firstn m p))%nat.
Proof.
  induction p as [p IH] using list_len_ind. intros i0 n j b i k H. destruct p as [|c r]; [exfalso; eapply nth_repeat_none; exact H|].
  rewrite splice_idx_cons in H. rewrite splice_cons. destruct (spliced_here c r) eqn:E.
  { apply spliced_here_inv in E as (-> & r' & ->). cbn [tl] in *.
    destruct (IH r' ltac:(len) _ _ _ _ _ _ H) as (m & -> & Hb & Hn). exists (S (S m)). split; [lia|]. split; [exact Hb|].
    cbn [firstn]. rewrite !count_lf_cons. cbn [N.eqb Pos.eqb]. lia. }
  destruct j as [|j]; cbn [nth_error firstn] in *.
  { injection H as <- <- <-. exists 0%nat. split; [lia|split; [reflexivity|cbn [firstn]; lia]]. }
  rewrite count_lf_cons. destruct (c =? 10) eqn:E10.
  - (* behind the new-line come the n pending ones, which are not copied bytes *)
    destruct (Nat.lt_ge_cases j n) as [Hj|Hj].
    + rewrite nth_error_app1 in H by (rewrite repeat_length; exact Hj). exfalso; eapply nth_repeat_none; exact H.
    + rewrite nth_error_app2, repeat_length in H by (rewrite repeat_length; exact Hj).
      destruct (IH r ltac:(len) _ _ _ _ _ _ H) as (m & -> & Hb & Hn). exists (S m). split; [lia|]. split; [exact Hb|].
      cbn [firstn]. rewrite count_lf_cons, E10, firstn_app, repeat_length, count_lf_app.
      rewrite firstn_all2, count_lf_repeat by (rewrite repeat_length; lia). lia.
  - destruct (IH r ltac:(len) _ _ _ _ _ _ H) as (m & -> & Hb & Hn). exists (S m). split; [lia|]. split; [exact Hb|].
    cbn [firstn]. rewrite count_lf_cons, E10. lia.
Qed.

Theorem splice_lines t j b i k : nth_error (splice_idx 0 0 t) j = Some (b, Some (i, k)) ->
  nth_error t i = Some b /\ (line_at (splice 0 t) j + k = line_at t i)%nat.
Proof.
  intros H. destruct (splice_lines_gen _ _ _ _ _ _ _ H) as (m & -> & Hb & Hn).
  cbn [Nat.add]. split; [exact Hb|]. unfold line_at. lia.
Qed.

(* a byte of the processed buffer at offset j, copied from canonical offset i (origin o in the
   file), with k splices pending: the computed line is k short of the physical line of o.  So
   tokenize_file reports the first physical line of a logical line for every token of it, where
   C18 asks for the token's own line (known finding C18-after-splice) *)
Theorem phases_line_lag s j b i o k :
  nth_error (splice_idx 0 0 (canon s)) j = Some (b, Some (i, k)) ->
  nth_error (canon_idx 0 s) i = Some (b, o) ->
  (line_at (phases12 s) j + k = phys_line s o)%nat.
Proof.
  intros H1 H2. destruct (splice_lines _ _ _ _ _ H1) as [_ Hl]. destruct (canon_lines _ _ _ _ H2) as [_ Hp].
  unfold phases12. lia.
Qed.

(* with no splice pending - as at the start of every logical line: the recursive call of splice_idx
   behind a new-line passes 0 - its computed line is the physical line of o in the file *)
Theorem phases_line_physical s j b i o :
  nth_error (splice_idx 0 0 (canon s)) j = Some (b, Some (i, 0%nat)) ->
  nth_error (canon_idx 0 s) i = Some (b, o) ->
  line_at (phases12 s) j = phys_line s o.
Proof. intros H1 H2. pose proof (phases_line_lag _ _ _ _ _ _ H1 H2). lia. Qed.

(* the processed buffer holds as many new-lines as the file has line ends (LF, CR LF, lone CR) *)
Theorem phases_count s : count_lf (phases12 s) = terms_before s (length s).
Proof. unfold phases12. rewrite splice_count. apply canon_count. Qed.

(* the witness of Properties_C18.C18_after_splice_refuted: a token after a backslash-newline on the
   same logical line gets the line of the backslash, not its own (chibicc does the same: known
   finding C18-after-splice) *)
Definition refute_src : list N := [97; 32; 92; 10; 98; 10].          (* "a \<LF>b<LF>" *)
