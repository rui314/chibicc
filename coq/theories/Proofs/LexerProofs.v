(* A space or a new-line always ends a token: if the token cut in front of p ++ r1 lies inside p,
   the same token is cut in front of p ++ sep :: r2 whatever r2 is ([first_token_cut]: maximal munch
   can be stopped earlier by a separator, never made longer).
   And the punctuator table of the source: which adjacent punctuator pairs fuse. *)
From Chibicc Require Import Base.Mach Model.Lexer Gen.PunctTable Proofs.PhasesProofs.
Local Open Scope N_scope.

Definition is_sep (c : N) : bool := (c =? 10) || (c =? 32).

Lemma sep_cases c : is_sep c = true -> c = 10 \/ c = 32.
Proof. unfold is_sep. lia. Qed.

Lemma sep_ident2 c : is_sep c = true -> is_ident2 c = false.
Proof. intros [-> | ->]%sep_cases; reflexivity. Qed.
Lemma sep_sign c : is_sep c = true -> is_sign c = false.
Proof. intros [-> | ->]%sep_cases; reflexivity. Qed.
Lemma sep_digit c : is_sep c = true -> is_digit c = false.
Proof. intros [-> | ->]%sep_cases; reflexivity. Qed.

(* cbn on the two-step scanner unfolds too much: its equations *)
Lemma scan_num_cons2 c0 c1 r :
  scan_num (c0 :: c1 :: r) = if is_exp c0 && is_sign c1 then S (S (scan_num r))
                             else if num_char c0 then S (scan_num (c1 :: r)) else 0%nat.
Proof. reflexivity. Qed.
Lemma scan_num_one c0 : scan_num [c0] = if num_char c0 then 1%nat else 0%nat.
Proof. reflexivity. Qed.

Lemma scan_num_sep c r : is_sep c = true -> scan_num (c :: r) = 0%nat.
Proof. intros [-> | ->]%sep_cases; destruct r; reflexivity. Qed.

Lemma scan_num_digit d r : is_digit d = true -> (1 <= scan_num (d :: r))%nat.
Proof.
  intros Hd. assert (Hn : num_char d = true) by (unfold num_char, is_alnum; rewrite Hd; reflexivity).
  destruct r as [|e r]; [rewrite scan_num_one|rewrite scan_num_cons2]; rewrite ?Hn.
  - lia.
  - destruct (is_exp d && is_sign e); lia.
Qed.

Lemma scan_ident2_cut : forall p r1 c r2, is_sep c = true ->
  (scan_ident2 (p ++ r1) <= length p)%nat -> scan_ident2 (p ++ c :: r2) = scan_ident2 (p ++ r1).
Proof.
  induction p as [|y p IH]; intros r1 c r2 Hc Hn; cbn [app scan_ident2 length] in *.
  - rewrite (sep_ident2 c Hc). lia.
  - destruct (is_ident2 y); [|reflexivity]. f_equal. apply IH; [exact Hc|lia].
Qed.

Lemma scan_num_cut : forall p r1 c r2, is_sep c = true ->
  (scan_num (p ++ r1) <= length p)%nat -> scan_num (p ++ c :: r2) = scan_num (p ++ r1).
Proof.
  induction p as [|y|y z p IH0 IH1] using list_ind2; intros r1 c r2 Hc Hn; cbn [app length] in *.
  - rewrite (scan_num_sep c r2 Hc). lia.
  - (* the last byte of p: an exponent character there does not take the separator for its sign *)
    rewrite scan_num_cons2, (scan_num_sep c r2 Hc), (sep_sign c Hc), andb_false_r.
    destruct r1 as [|c1 r1]; [reflexivity|]. rewrite scan_num_cons2 in *.
    destruct (is_exp y && is_sign c1); [lia|]. destruct (num_char y); [lia|reflexivity].
  - rewrite !scan_num_cons2 in *. destruct (is_exp y && is_sign z).
    + do 2 f_equal. apply IH0; [exact Hc|lia].
    + destruct (num_char y); [|reflexivity]. f_equal. apply (IH1 r1 c r2 Hc). cbn [length]. lia.
Qed.

(* the fixed strings the tokenizer compares with (comment openers, literal prefixes, table entries) hold no separator *)
Definition nosep (pre : list N) : bool := forallb (fun b => negb (is_sep b)) pre.

Lemma sw_cut : forall pre p r1 c r2, is_sep c = true -> nosep pre = true ->
  (starts_with (p ++ r1) pre = true -> (length pre <= length p)%nat) ->
  starts_with (p ++ c :: r2) pre = starts_with (p ++ r1) pre.
Proof.
  induction pre as [|a pre IH]; intros p r1 c r2 Hc Hp Hl; [destruct p; destruct r1; reflexivity|].
  cbn [nosep forallb] in Hp. apply andb_true_iff in Hp as [Ha Hp]. destruct p as [|y p]; cbn [app length] in *.
  - (* where p ends the left side compares a, which is no separator, with c; the right side is false, because a match would be longer than p *)
    destruct (starts_with r1 (a :: pre)); [specialize (Hl eq_refl); lia|]. cbn [starts_with].
    destruct (a =? c) eqn:E; [|reflexivity]. apply N.eqb_eq in E. subst a. rewrite Hc in Ha. discriminate.
  - cbn [starts_with] in *. destruct (a =? y); [|reflexivity]. apply (IH p r1 c r2 Hc Hp). intros H. specialize (Hl H). lia.
Qed.

Lemma sw_cut_false pre p r1 c r2 : is_sep c = true -> nosep pre = true ->
  starts_with (p ++ r1) pre = false -> starts_with (p ++ c :: r2) pre = false.
Proof. intros Hc Hp A. rewrite (sw_cut pre p r1 c r2 Hc Hp); [exact A|]. rewrite A. discriminate. Qed.

Lemma first_match_cut : forall t p r1 c r2, forallb nosep t = true -> is_sep c = true ->
  (forall kw, first_match (p ++ r1) t = Some kw -> (length kw <= length p)%nat) ->
  first_match (p ++ c :: r2) t = first_match (p ++ r1) t.
Proof.
  induction t as [|kw t IH]; intros p r1 c r2 Ht Hc Hb; cbn [first_match] in *; [reflexivity|].
  cbn [forallb] in Ht. apply andb_true_iff in Ht as [Hkw Ht].
  assert (E : starts_with (p ++ c :: r2) kw = starts_with (p ++ r1) kw).
  { apply sw_cut; auto. intros A. rewrite A in Hb. exact (Hb _ eq_refl). }
  rewrite E. destruct (starts_with (p ++ r1) kw); [reflexivity|]. apply IH; auto.
Qed.

(* the prefixes of string and character literals are tables too: the entry found ends with the
   opening quote, so the prefix is one byte shorter *)
Definition opener (t : list (list N)) (p : list N) : option nat :=
  option_map (fun kw => pred (length kw)) (first_match p t).
Definition str_openers : list (list N) := [[34]; [117; 56; 34]; [117; 34]; [76; 34]; [85; 34]].
Definition chr_openers : list (list N) := [[39]; [117; 39]; [76; 39]; [85; 39]].

Lemma str_prefix_opener p : str_prefix p = opener str_openers p.
Proof.
  unfold str_prefix, opener, str_openers. cbn [first_match].
  destruct (starts_with p [34]); [reflexivity|]. destruct (starts_with p [117; 56; 34]); [reflexivity|].
  destruct (starts_with p [117; 34]); [reflexivity|]. destruct (starts_with p [76; 34]); [reflexivity|].
  destruct (starts_with p [85; 34]); reflexivity.
Qed.
Lemma chr_prefix_opener p : chr_prefix p = opener chr_openers p.
Proof.
  unfold chr_prefix, opener, chr_openers. cbn [first_match].
  destruct (starts_with p [39]); [reflexivity|]. destruct (starts_with p [117; 39]); [reflexivity|].
  destruct (starts_with p [76; 39]); [reflexivity|]. destruct (starts_with p [85; 39]); reflexivity.
Qed.

Lemma opener_cut t p r1 c r2 o : forallb nosep t = true -> is_sep c = true ->
  opener t (p ++ r1) = o -> (forall k, o = Some k -> (S k <= length p)%nat) -> opener t (p ++ c :: r2) = o.
Proof.
  unfold opener. intros Ht Hc <- Hk. rewrite (first_match_cut t p r1 c r2 Ht Hc); [reflexivity|].
  intros kw E. rewrite E in Hk. specialize (Hk _ eq_refl). lia.
Qed.

(* the scanners of literal bodies look at nothing behind the closing quote *)
Lemma find_quote_stable : forall x r1 r2 n, find_quote (x ++ r1) = Some n -> (n < length x)%nat -> find_quote (x ++ r2) = Some n.
Proof.
  induction x as [|y x IH]; intros r1 r2 n H Hn; [cbn in Hn; lia|]. cbn [app find_quote length] in *.
  destruct (y =? 39); [exact H|]. destruct (find_quote (x ++ r1)) as [m|] eqn:E; [|discriminate]. cbn in H. injection H as <-.
  rewrite (IH r1 r2 m E); [reflexivity|lia].
Qed.

Lemma string_end_cons c r : string_end (c :: r) =
  if c =? 34 then Some 0%nat else if c =? 10 then None
  else if c =? 92 then match r with _ :: r' => option_map (fun n => S (S n)) (string_end r') | [] => None end
  else option_map S (string_end r).
Proof. reflexivity. Qed.

Lemma string_end_stable : forall x r1 r2 n, string_end (x ++ r1) = Some n -> (n < length x)%nat -> string_end (x ++ r2) = Some n.
Proof.
  induction x as [x IH] using list_len_ind; intros r1 r2 n H Hn. destruct x as [|y x]; [cbn in Hn; lia|].
  cbn [app length] in *. rewrite string_end_cons in *.
  destruct (y =? 34); [exact H|]. destruct (y =? 10); [discriminate|]. destruct (y =? 92).
  - destruct x as [|z x]; cbn [app length] in *.
    + (* the escaped byte is the first of r1: the closing quote lies in r1 *)
      exfalso. destruct r1 as [|a r1]; [discriminate|]. destruct (string_end r1); cbn in H; [injection H as <-; lia|discriminate].
    + destruct (string_end (x ++ r1)) as [m|] eqn:E; [|discriminate]. cbn in H. injection H as <-.
      rewrite (IH x ltac:(len) r1 r2 m E); [reflexivity|len].
  - destruct (string_end (x ++ r1)) as [m|] eqn:E; [|discriminate]. cbn in H. injection H as <-.
    rewrite (IH x ltac:(len) r1 r2 m E); [reflexivity|lia].
Qed.

(* a body scanner started k bytes into p: [d] bytes behind its result are still part of the token
   (d = 1 for find_quote and string_end, whose result is the offset of the closing quote itself;
   d = 0 for char_body, whose result counts the closing quote) *)
Lemma skipped_stable (body : list N -> option nat) (d : nat) :
  (forall x r1 r2 m, body (x ++ r1) = Some m -> (d + m <= length x)%nat -> body (x ++ r2) = Some m) ->
  forall k p r1 r2 m, body (skipn k (p ++ r1)) = Some m -> (k + m + d <= length p)%nat ->
  body (skipn k (p ++ r2)) = Some m.
Proof.
  intros Hb k p r1 r2 m H L. rewrite skipn_app in *. replace (k - length p)%nat with 0%nat in * by lia.
  apply (Hb _ r1); [exact H|]. rewrite skipn_length. lia.
Qed.

(* the body of a character literal is found by strchr behind one or two bytes *)
Lemma char_body_find p : char_body p =
  match p with
  | [] => None
  | c :: _ => let k := if c =? 92 then 2%nat else 1%nat in option_map (fun n => (S k + n)%nat) (find_quote (skipn k p))
  end.
Proof. unfold char_body. destruct p as [|c [|d r]]; [reflexivity|destruct (c =? 92); reflexivity..]. Qed.

Lemma char_body_stable x r1 r2 n : char_body (x ++ r1) = Some n -> (n <= length x)%nat -> char_body (x ++ r2) = Some n.
Proof.
  rewrite !char_body_find. destruct x as [|y x]; cbn [app length].
  - destruct r1 as [|c r1]; [discriminate|]. cbv zeta. destruct (find_quote _); [|discriminate]. intros [= <-]. lia.
  - cbv zeta. set (k := if y =? 92 then 2%nat else 1%nat).
    change (y :: x ++ r1) with ((y :: x) ++ r1). change (y :: x ++ r2) with ((y :: x) ++ r2).
    destruct (find_quote (skipn k ((y :: x) ++ r1))) as [m|] eqn:E; [|discriminate]. intros [= <-] Hn.
    rewrite (skipped_stable find_quote 1 find_quote_stable k _ _ r2 _ E) by (cbn [length]; lia). reflexivity.
Qed.

Lemma scan_ident2_le : forall p, (scan_ident2 p <= length p)%nat.
Proof. induction p as [|c p IH]; cbn [scan_ident2 length]; [lia|]. destruct (is_ident2 c); lia. Qed.

Lemma scan_num_le : forall p, (scan_num p <= length p)%nat.
Proof.
  induction p as [|c0|c0 c1 r IH0 IH1] using list_ind2; [cbn; lia| |].
  - rewrite scan_num_one. destruct (num_char c0); cbn [length]; lia.
  - rewrite scan_num_cons2. cbn [length] in *. destruct (is_exp c0 && is_sign c1); [lia|]. destruct (num_char c0); lia.
Qed.

Lemma find_quote_lt : forall p n, find_quote p = Some n -> (n < length p)%nat.
Proof.
  induction p as [|c p IH]; intros n H; cbn [find_quote length] in *; [discriminate|].
  destruct (c =? 39); [inversion H; lia|]. destruct (find_quote p) as [m|]; [|discriminate].
  cbn in H. inversion H. specialize (IH m eq_refl). lia.
Qed.

Lemma string_end_lt : forall p n, string_end p = Some n -> (n < length p)%nat.
Proof.
  induction p as [p IH] using list_len_ind; intros n H. destruct p as [|c r]; [discriminate|].
  rewrite string_end_cons in H. cbn [length].
  destruct (c =? 34); [injection H as <-; lia|]. destruct (c =? 10); [discriminate|]. destruct (c =? 92).
  - destruct r as [|d r]; [discriminate|]. destruct (string_end r) as [m|] eqn:E; [|discriminate]. injection H as <-.
    apply IH in E; cbn [length] in *; lia.
  - destruct (string_end r) as [m|] eqn:E; [|discriminate]. injection H as <-. apply IH in E; cbn [length]; lia.
Qed.

Lemma char_body_le p n : char_body p = Some n -> (1 <= n <= length p)%nat.
Proof.
  rewrite char_body_find. destruct p as [|c r]; [discriminate|]. cbv zeta.
  destruct (find_quote _) as [m|] eqn:E; [|discriminate]. intros [= <-].
  apply find_quote_lt in E. rewrite skipn_length in E. lia.
Qed.

Lemma starts_with_length : forall pre p, starts_with p pre = true -> (length pre <= length p)%nat.
Proof.
  induction pre as [|a pre IH]; intros p H; [cbn; lia|]. destruct p as [|b p]; [discriminate|].
  cbn [starts_with length] in *. apply andb_true_iff in H as [_ H]. specialize (IH p H). lia.
Qed.

Lemma first_match_length : forall t p kw, first_match p t = Some kw -> (length kw <= length p)%nat.
Proof.
  induction t as [|k t IH]; intros p kw H; cbn [first_match] in H; [discriminate|].
  destruct (starts_with p k) eqn:E; [inversion H; subst; exact (starts_with_length _ _ E)|exact (IH p kw H)].
Qed.

Section Token.
Variable tbl : list (list N).
Hypothesis tbl_nosep : forallb nosep tbl = true.

Lemma read_punct_cut p r1 c r2 : p <> [] -> is_sep c = true ->
  (read_punct tbl (p ++ r1) <= length p)%nat ->
  read_punct tbl (p ++ c :: r2) = read_punct tbl (p ++ r1).
Proof.
  intros Hp Hc Hb. unfold read_punct in *.
  rewrite (first_match_cut tbl p r1 c r2 tbl_nosep Hc).
  - destruct p; [congruence|]. reflexivity.
  - intros kw E. rewrite E in Hb. exact Hb.
Qed.

Lemma first_token_bounds p k n : first_token tbl p = Some (k, n) -> (1 <= n <= length p)%nat.
Proof.
  unfold first_token. destruct p as [|c r]; [discriminate|].
  destruct (is_digit c || _).
  { intros H. inversion H. pose proof (scan_num_le r). cbn [length]. lia. }
  destruct (str_prefix (c :: r)) as [k'|].
  { destruct (string_end (skipn (S k') (c :: r))) as [m|] eqn:E; [|discriminate]. intros H. inversion H.
    apply string_end_lt in E. rewrite skipn_length in E. lia. }
  destruct (chr_prefix (c :: r)) as [k'|].
  { destruct (char_body (skipn (S k') (c :: r))) as [m|] eqn:E; [|discriminate]. intros H. inversion H.
    apply char_body_le in E. rewrite skipn_length in E. lia. }
  cbn [read_ident]. destruct (is_ident1 c).
  { intros H. inversion H. pose proof (scan_ident2_le r). cbn [length]. lia. }
  unfold read_punct. destruct (first_match (c :: r) tbl) as [kw|] eqn:E.
  - apply first_match_length in E. destruct (length kw); [discriminate|]. intros H. inversion H. lia.
  - destruct (is_punct c); [|discriminate]. intros H. inversion H. cbn [length]. lia.
Qed.

Theorem first_token_cut p r1 c r2 k n : is_sep c = true ->
  first_token tbl (p ++ r1) = Some (k, n) -> (n <= length p)%nat ->
  first_token tbl (p ++ c :: r2) = Some (k, n).
Proof.
  intros Hc H Hn. pose proof (proj1 (first_token_bounds _ _ _ H)) as Hpos.
  destruct p as [|y x]; [cbn [length] in Hn; lia|].
  unfold first_token in *. rewrite !str_prefix_opener, !chr_prefix_opener in *. cbn [app length] in *.
  (* the test for the start of a number looks at one byte after y *)
  assert (Hd : (is_digit y || (y =? 46) && match x ++ c :: r2 with d :: _ => is_digit d | [] => false end)
             = (is_digit y || (y =? 46) && match x ++ r1 with d :: _ => is_digit d | [] => false end)).
  { destruct (is_digit y); [reflexivity|]. cbn [orb] in *. destruct x as [|z x]; [|reflexivity].
    cbn [app] in *. rewrite (sep_digit c Hc), andb_false_r.
    destruct ((y =? 46) && match r1 with d :: _ => is_digit d | [] => false end) eqn:T; [|reflexivity].
    exfalso. apply andb_true_iff in T as [_ T]. destruct r1 as [|d r1]; [discriminate|].
    pose proof (scan_num_digit d r1 T) as L. assert (E : S (scan_num (d :: r1)) = n) by congruence. cbn [length] in Hn. lia. }
  rewrite Hd. destruct (is_digit y || (y =? 46) && _).
  - injection H as <- <-. rewrite (scan_num_cut x r1 c r2 Hc) by lia. reflexivity.
  - change (y :: x ++ r1) with ((y :: x) ++ r1) in *. change (y :: x ++ c :: r2) with ((y :: x) ++ c :: r2).
    destruct (opener str_openers ((y :: x) ++ r1)) as [k'|] eqn:Ep.
    + destruct (string_end (skipn (S k') ((y :: x) ++ r1))) as [m|] eqn:Ee; [|discriminate]. injection H as <- <-.
      rewrite (opener_cut str_openers _ _ c r2 _ eq_refl Hc Ep) by (intros ? [= <-]; cbn [length]; lia).
      rewrite (skipped_stable string_end 1 string_end_stable _ _ _ (c :: r2) _ Ee) by (cbn [length]; lia). reflexivity.
    + rewrite (opener_cut str_openers _ _ c r2 _ eq_refl Hc Ep) by (intros ? [=]).
      destruct (opener chr_openers ((y :: x) ++ r1)) as [k'|] eqn:Eq.
      * destruct (char_body (skipn (S k') ((y :: x) ++ r1))) as [m|] eqn:Ee; [|discriminate]. injection H as <- <-.
        rewrite (opener_cut chr_openers _ _ c r2 _ eq_refl Hc Eq) by (intros ? [= <-]; cbn [length]; lia).
        rewrite (skipped_stable char_body 0 char_body_stable _ _ _ (c :: r2) _ Ee) by (cbn [length]; lia). reflexivity.
      * rewrite (opener_cut chr_openers _ _ c r2 _ eq_refl Hc Eq) by (intros ? [=]).
        cbn [app read_ident] in *. destruct (is_ident1 y).
        -- injection H as <- <-. rewrite (scan_ident2_cut x r1 c r2 Hc) by lia. reflexivity.
        -- change (y :: x ++ r1) with ((y :: x) ++ r1) in *. change (y :: x ++ c :: r2) with ((y :: x) ++ c :: r2).
           destruct (read_punct tbl ((y :: x) ++ r1)) as [|q] eqn:Er; [discriminate|]. injection H as <- <-.
           rewrite (read_punct_cut (y :: x) r1 c r2), Er by (rewrite ?Er; auto; discriminate). reflexivity.
Qed.

(* in particular with the cut directly behind the token: what follows the separator does not matter *)
Corollary first_token_stable x c1 r1 c2 r2 k : is_sep c2 = true ->
  first_token tbl (x ++ c1 :: r1) = Some (k, length x) -> first_token tbl (x ++ c2 :: r2) = Some (k, length x).
Proof. intros H2 H. exact (first_token_cut x (c1 :: r1) c2 r2 k (length x) H2 H (le_n _)). Qed.

Lemma lex_sp f r bol sp : lex tbl (S f) (32 :: r) bol sp = lex tbl f r bol true.
Proof. reflexivity. Qed.

(* a spelling that is one token when followed by a new-line (decidable by running the lexer) *)
Definition tok_ok (a : list N) : Prop :=
  a <> [] /\ (exists k, first_token tbl (a ++ [10]) = Some (k, length a)) /\
  starts_with (a ++ [10]) [47; 47] = false /\ starts_with (a ++ [10]) [47; 42] = false /\
  match a with c :: _ => (c =? 10) = false /\ is_space c = false | [] => True end.

Definition spaced (ts : list (list N)) : list N := concat (map (fun a => a ++ [32]) ts).

Lemma spaced_cons a ts : spaced (a :: ts) = a ++ 32 :: spaced ts.
Proof. unfold spaced. cbn [map concat]. rewrite <- app_assoc. reflexivity. Qed.

End Token.

Lemma punct_table_nosep : forallb nosep punct_table = true.
Proof. vm_compute. reflexivity. Qed.

(* ispunct characters that start another kind of token: the two quotes (literals), dollar and underscore (identifiers);
   [seq 33 94] below is 33..126, the printable ASCII characters other than the space *)
Definition not_punct_start (c : N) : bool := (c =? 34) || (c =? 39) || (c =? 36) || (c =? 95).
Definition single_puncts : list (list N) :=
  map (fun c => [c]) (filter (fun c => is_punct c && negb (not_punct_start c)) (map N.of_nat (seq 33 94))).
(* every punctuator the lexer can produce: the table entries and the single ispunct characters *)
Definition all_puncts : list (list N) := punct_table ++ single_puncts.

Definition lex_texts (p : list N) : option (list (list N)) :=
  match tokenize punct_table p with LexOk l => Some (map t_text l) | LexErr => None end.

Definition list_eqb (a b : list N) : bool := (length a =? length b)%nat && forallb (fun xy => fst xy =? snd xy) (combine a b).
(* two punctuators written without a space between them are read back as themselves? *)
Definition pair_safe (a b : list N) : bool :=
  match lex_texts (a ++ b ++ [10]) with
  | Some [x; y] => list_eqb x a && list_eqb y b
  | _ => false
  end.

(* the pairs that are NOT safe must be separated by the printer *)
Definition fusing_pairs : list (list N * list N) :=
  filter (fun ab => negb (pair_safe (fst ab) (snd ab))) (list_prod all_puncts all_puncts).

(* [filter_In] is given its arguments: left to find them, [apply] evaluates the whole list *)
Lemma fusing_intro a b : In a all_puncts -> In b all_puncts -> pair_safe a b = false -> In (a, b) fusing_pairs.
Proof.
  intros Ha Hb E. unfold fusing_pairs. refine (proj2 (filter_In _ (a, b) _) (conj (in_prod _ _ a b Ha Hb) _)).
  cbn [fst snd]. rewrite E. reflexivity.
Qed.

(* every punctuator in front of a new-line is cut as itself: the [first_token] clause of [tok_ok] *)
Lemma puncts_tok_ok : forallb (fun a => match first_token punct_table (a ++ [10]) with
                                        | Some (LPunct, n) => (n =? length a)%nat | _ => false end) all_puncts = true.
Proof. vm_compute. reflexivity. Qed.

Lemma single_punct_in c : 33 <= c < 127 -> is_punct c && negb (not_punct_start c) = true -> In [c] all_puncts.
Proof.
  intros Hc Hp. apply in_or_app. right. apply (in_map (fun c => [c])).
  apply (proj2 (filter_In _ c _)). split; [|exact Hp].
  apply in_map_iff. exists (N.to_nat c). split; [apply N2Nat.id|apply in_seq; lia].
Qed.

Ltac in_list := repeat (first [left; reflexivity | right]).

Lemma fusing_examples :
  In ([45], [45]) fusing_pairs /\ In ([43], [43]) fusing_pairs /\ In ([47], [42]) fusing_pairs /\
  In ([60; 60], [61]) fusing_pairs /\ pair_safe [45] [43] = true.
Proof.
  assert (S : forall c, In c [42; 43; 45; 47; 61] -> In [c] all_puncts).
  { intros c Hc. apply single_punct_in; [cbn [In] in Hc; lia|].
    destruct Hc as [<-|[<-|[<-|[<-|[<-|[]]]]]]; reflexivity. }
  assert (Hshl : In [60; 60] all_puncts) by (apply in_or_app; left; unfold punct_table; in_list).
  pose proof (fun a b Ha Hb => fusing_intro [a] [b] (S a Ha) (S b Hb)) as F.
  (* the conjunction is built by hand: [split] evaluates [fusing_pairs]; [in_list] closes the memberships in the list
     of S, [reflexivity] runs the lexer for the [pair_safe] equations *)
  refine (conj (F 45 45 _ _ _) (conj (F 43 43 _ _ _) (conj (F 47 42 _ _ _) (conj (fusing_intro _ _ Hshl (S 61 _) _) _))));
    try in_list; reflexivity.
Qed.

Lemma tok_ok_examples :
  tok_ok punct_table [45; 45] /\ tok_ok punct_table [48; 120; 49; 112; 43; 51] /\ tok_ok punct_table [117; 56; 34; 97; 32; 98; 34].
Proof.
  (* the conjuncts of [tok_ok]: [discriminate] for a <> [], a lexer run for the token cut, evaluation for the other three *)
  repeat split; try discriminate; try (eexists; vm_compute; reflexivity); try (vm_compute; reflexivity).
Qed.
