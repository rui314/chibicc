(* Main theorem for expressions over objects: induction on the expression, following meval; the code of each construct is
   dealt with where it arises, except that of op= and of postfix ++ / --, which go through the parser's pointer and
   saved-value temporaries and have lemmas of their own (case_opassign, case_postfix). *)
From Coq Require Import ZArith Bool List Lia.
From Chibicc Require Import Base.Mach Spec.C11Int Spec.C11IntMem Model.X86Int Model.CodegenInt Gen.CastTable
     Model.ConstFold Proofs.ConstFoldProofs Proofs.CastTableProofs Proofs.CodegenIntProofs Model.ExprGen
     Model.ExprMem Proofs.ExprMemProofs.
Import ListNotations.
Local Open Scope Z_scope.

Definition is_logical (o : binop) : bool := match o with LAnd | LOr => true | _ => false end.

Lemma eval_bin o a b : is_logical o = false ->
  eval (Bin o a b) =
  match eval a, eval b with
  | Some x, Some y => eval_binval o (type_of a) (type_of b) x y
  | _, _ => None
  end.
Proof.
  intros L. assert (N1 : o <> LAnd) by (intros ->; discriminate L). assert (N2 : o <> LOr) by (intros ->; discriminate L).
  rewrite (eval_Bin o a b N1 N2). unfold eval_binval. destruct (eval a) as [x|], (eval b) as [y|]; try reflexivity.
  destruct (is_arith o) eqn:A; [reflexivity|]. destruct (is_shift o) eqn:S; [reflexivity|].
  rewrite (other_is_cmp o N1 N2 A S). reflexivity.
Qed.

(* the result of an operator is a value of the result type: range_eval of C11Int, read at the operator applied to literals *)
Lemma binval_range {o ta tb x y v} : in_range ta x = true -> in_range tb y = true ->
  eval_binval o ta tb x y = Some v -> in_range (type_of (Bin o (Lit ta x) (Lit tb y))) v = true.
Proof.
  intros Hx Hy H. apply range_eval. destruct (is_logical o) eqn:L; [destruct o; discriminate|].
  rewrite (eval_bin o _ _ L). cbn [eval type_of]. rewrite Hx, Hy. exact H.
Qed.

Lemma unval_range {o ta x v} : in_range ta x = true ->
  eval_unval o ta x = Some v -> in_range (type_of (Un o (Lit ta x))) v = true.
Proof.
  intros Hx H. apply range_eval. unfold eval_unval in H. destruct o; cbn [eval type_of]; rewrite Hx; exact H.
Qed.

Lemma meval_bin G env o a b : is_logical o = false ->
  meval G env (MBin o a b) =
  if norace a b then
    if lhs_first o then
      match meval G env a with
      | Some (x, env1) =>
        match meval G env1 b with
        | Some (y, env2) => match eval_binval o (mtype G a) (mtype G b) x y with Some v => Some (v, env2) | None => None end
        | None => None
        end
      | None => None
      end
    else
      match meval G env b with
      | Some (y, env1) =>
        match meval G env1 a with
        | Some (x, env2) => match eval_binval o (mtype G a) (mtype G b) x y with Some v => Some (v, env2) | None => None end
        | None => None
        end
      | None => None
      end
  else None.
Proof. destruct o; intros L; try discriminate L; reflexivity. Qed.

Lemma mcomp_bin F n o a b : is_logical o = false ->
  mcomp F n (MBin o a b) = bin_code o (mcomp F n a) (mm_type (ftys F) a) (mcomp F (n + ntemps a) b) (mm_type (ftys F) b).
Proof. destruct o; intros L; try discriminate L; reflexivity. Qed.

Section Main.
Variable F : frame.
Hypothesis WF : wf_frame F.
Local Notation G := (ftys F).
Local Notation run := (mrun (frbp F)).

(* the code of e, placed at temporary index n: from a memory that agrees with env to one that agrees with env', computing v; and a
   memory that differs from m0 only in the variables and in the temporaries below hi still does so afterwards, for any hi past the
   temporaries of e.
   m0 is a reference memory of the caller's choice: the memory the code starts in, to learn what it leaves alone (mcomputes_touch);
   the memory in which tmp has just received &x, for the operand of an op=, which must leave tmp alone (case_opassign).
   The window of touch_only starts at 0, not at n: what lies below n is dead while the code of e runs; what has to survive it is the
   pointer of an enclosing op=, and that has a higher index *)
Definition mcomputes (n : nat) (e : mexpr) (env : venv) (v : Z) (env' : venv) : Prop :=
  forall hi m0, (n + ntemps e <= hi)%nat ->
    runs F (mcomp F n e) (mtype G e) v (fun m => agree F env m /\ touch_only F 0 hi m0 m) (fun m => agree F env' m /\ touch_only F 0 hi m0 m).

(* ... in particular it touches only variables and temporaries below the end of its own *)
Lemma mcomputes_touch {n e env v env'} : mcomputes n e env v env' -> forall s k m, agree F env m ->
  exists s' m', run (mcomp F n e) (s, k, m) = Some (s', k, m') /\ R (mtype G e) v (rax s') /\ agree F env' m' /\ touch_only F 0 (n + ntemps e) m m'.
Proof. intros H s k m Ha. exact (H _ m (le_n _) s k m (conj Ha (touch_refl _ _ _ _))). Qed.

Lemma ptr_size i : tkind_at F i = TPtr -> Z.of_nat 8 = tsize F i.
Proof. intros Hk. unfold tsize. rewrite Hk. reflexivity. Qed.
Lemma saved_size i t : tkind_at F i = TSaved t -> Z.of_nat (nbytes t) = tsize F i.
Proof. intros Hk. unfold tsize. rewrite Hk. unfold nbytes. destruct t; reflexivity. Qed.

(* tmp = &x *)
Lemma run_take_addr i x env s k m lo hi : (i < ntmps F)%nat -> tkind_at F i = TPtr -> (x < nvars F)%nat -> (lo <= i < hi)%nat ->
  agree F env m ->
  exists s' m', (forall rest, run (CLea (toff F i) ;;; CPush ;;; CLea (voff F x) ;;; CPopRdi ;;; CStore St8 ;;; rest) (s, k, m) = run rest (s', k, m')) /\
                agree F env m' /\ touch_only F lo hi m m' /\ load_le m' (taddr F i) 8 = vaddr F x.
Proof.
  intros Hi Hk Hx Hlh Ha.
  exists (set_rdi (set_rax (set_rax s (taddr F i)) (vaddr F x)) (taddr F i)), (store_le m (taddr F i) 8 (vaddr F x)).
  split; [|split; [|split]].
  - intros rest. rewrite mrun_lea, (lea_temp F WF i Hi), mrun_push, mrun_lea, (lea_var F WF x Hx), mrun_pop.
    rewrite mrun_store by (apply (valid_temp F WF i 8 Hi (ptr_size i Hk))). reflexivity.
  - apply store_temp_agree; [exact WF|exact Ha|exact Hi|exact (ptr_size i Hk)].
  - apply store_temp_touch; [exact Hlh|exact (ptr_size i Hk)].
  - rewrite load_store_same. exact (lea_var F WF x Hx).
Qed.

Lemma mrun_ptr i c s k m : (i < ntmps F)%nat -> tkind_at F i = TPtr ->
  run (CLea (toff F i) ;;; CLoad LdQ ;;; c) (s, k, m) = run c (set_rax (set_rax s (taddr F i)) (load_le m (taddr F i) 8), k, m).
Proof.
  intros Hi Hk. rewrite mrun_lea, (lea_temp F WF i Hi), mrun_loadq by (apply (valid_temp F WF i 8 Hi (ptr_size i Hk))). reflexivity.
Qed.

(* *tmp where tmp holds the address of x *)
Lemma run_deref i x env s k m : (i < ntmps F)%nat -> tkind_at F i = TPtr -> (x < nvars F)%nat -> agree F env m ->
  load_le m (taddr F i) 8 = vaddr F x ->
  exists s', run (CLea (toff F i) ;;; CLoad LdQ ;;; CLoad (load_kind (vty G x))) (s, k, m) = Some (s', k, m) /\
             R (vty G x) (vget env x) (rax s').
Proof.
  intros Hi Hk Hx [_ Ha] Ht. destruct (Ha x Hx) as [Hr Hl].
  rewrite (mrun_ptr i _ s k m Hi Hk), Ht. apply mrun_load; cbn [rax set_rax]; [apply (valid_var F WF x Hx)|exact Hr|exact Hl].
Qed.

Lemma opassign_rhs_first o : is_arith o || is_shift o = true -> lhs_first o = false.
Proof. destruct o; intros H; try discriminate H; reflexivity. Qed.

(* x o= e : tmp = &x, *tmp = *tmp o e *)
Lemma case_opassign {n o x a env y env1 r} : (x < nvars F)%nat -> (n + ntemps a < ntmps F)%nat -> tkind_at F (n + ntemps a) = TPtr ->
  is_arith o || is_shift o = true -> in_range (mtype G a) y = true -> mcomputes n a env y env1 ->
  in_range (vty G x) (vget env1 x) = true -> eval_binval o (vty G x) (mtype G a) (vget env1 x) y = Some r ->
  mcomputes n (MOpAssign o x a) env (conv (vty G x) r) (vset env1 x (conv (vty G x) r)).
Proof.
  intros Hx Hi Hk Ho Ry IH Rxv Er hi m0 Hhi s k m [Ha Hj]. cbn [mcomp ntemps mtype] in *. rewrite !mm_type_is_c11.
  set (i := (n + ntemps a)%nat) in *.
  assert (Rr : in_range (bin_type o (vty G x) (mtype G a)) r = true).
  { rewrite bin_type_c11. exact (binval_range Rxv Ry Er). }
  destruct (run_take_addr i x env s k m 0 hi Hi Hk Hx ltac:(unfold i; lia) Ha) as (s1 & m1 & E1 & A1 & T1 & P1). rewrite E1.
  rewrite (mrun_ptr i _ s1 k m1 Hi Hk), P1, mrun_push, mrun_seq. cbn [rax set_rax].
  (* *tmp o e: the operand e changes nothing from the index of tmp on, so tmp still holds &x when it is read *)
  destruct (bin_code_ok F o (CLea (toff F i) ;;; CLoad LdQ ;;; CLoad (load_kind (vty G x))) (vty G x) (mcomp F n a) (mtype G a) (vget env1 x) y r
              (fun m' => agree F env m' /\ touch_only F 0 i m1 m') (fun m' => agree F env1 m' /\ touch_only F 0 i m1 m')
              (fun m' => agree F env1 m' /\ touch_only F 0 i m1 m') Er Rxv Ry)
    with (s := set_rax (set_rax s1 (taddr F i)) (vaddr F x)) (k := vaddr F x :: k) (m := m1) as (s3 & m3 & E3 & R3 & A3 & T3).
  - rewrite (opassign_rhs_first o Ho). split; [exact (IH i m1 (le_n i))|].
    intros s0 k0 m2 [Ha2 Ht2]. destruct (run_deref i x env1 s0 k0 m2 Hi Hk Hx Ha2) as (s' & E & HR).
    { rewrite <- P1. apply (touch_keeps_temp WF Ht2 Hi); [lia|lia|exact (ptr_size i Hk)]. }
    exists s', m2. auto.
  - exact (conj A1 (touch_refl _ _ _ _)).
  - rewrite E3. destruct (run_cast_store F WF x env1 _ r s3 k m3 0 hi Hx A3 Rr R3) as (s4 & m4 & E4 & R4 & A4 & T4).
    exists s4, m4. refine (conj E4 (conj R4 (conj A4 (touch_trans (touch_trans (touch_trans Hj T1) (touch_mono T3 (le_n 0) _)) T4)))).
    unfold i. lia.
Qed.

(* new_inc_dec adds d = -1 for x--, where the specification subtracts 1 *)
Lemma dec_is_add t xv : eval_binval Add t I32 xv (-1) = eval_binval Sub t I32 xv 1.
Proof.
  unfold eval_binval. cbn [is_arith eval_bin_arith]. unfold arith_result.
  generalize (conv (uac t I32) xv) as a. generalize (uac_big t I32). generalize (uac t I32) as u. intros u Hb a.
  destruct (is_signed u) eqn:S.
  - rewrite !conv_in_range by (destruct Hb as [-> | [-> | [-> | ->]]]; try discriminate S; reflexivity). reflexivity.
  - rewrite !conv_unsigned by (destruct Hb as [-> | [-> | [-> | ->]]]; (exact S || discriminate)).
    rewrite Zplus_mod_idemp_r, Zminus_mod_idemp_r. reflexivity.
Qed.

(* the saved old value, read back *)
Lemma run_saved i t xv s k m : (i < ntmps F)%nat -> tkind_at F i = TSaved t -> in_range t xv = true ->
  load_le m (taddr F i) (nbytes t) = urepr t xv ->
  exists s', run (CLea (toff F i) ;;; CLoad (load_kind t)) (s, k, m) = Some (s', k, m) /\ R t xv (rax s').
Proof.
  intros Hi Hk Hr Hl. rewrite mrun_lea, (lea_temp F WF i Hi).
  apply mrun_load; cbn [rax set_rax]; [apply (valid_temp F WF i (nbytes t) Hi (saved_size i t Hk))|exact Hr|exact Hl].
Qed.

(* x++ x-- : tmp = &x, old = *tmp, *tmp = old + d, old *)
Lemma case_postfix {n} {inc : bool} {x env r} : (x < nvars F)%nat -> (S n < ntmps F)%nat ->
  tkind_at F n = TSaved (vty G x) -> tkind_at F (S n) = TPtr ->
  in_range (vty G x) (vget env x) = true -> eval_binval (if inc then Add else Sub) (vty G x) I32 (vget env x) 1 = Some r ->
  mcomputes n (MIncDec true inc x) env (vget env x) (vset env x (conv (vty G x) r)).
Proof.
  intros Hx Hn Hks Hkp Rxv Er.
  set (tx := vty G x) in *. set (xv := vget env x) in *. set (d := if inc then 1 else -1).
  assert (Er' : eval_binval Add tx I32 xv d = Some r).
  { unfold d. destruct inc; [exact Er|]. rewrite dec_is_add. exact Er. }
  assert (Rd : in_range I32 d = true) by (unfold d; destruct inc; reflexivity).
  assert (Rr : in_range (bin_type Add tx I32) r = true).
  { rewrite bin_type_c11. exact (binval_range Rxv Rd Er'). }
  assert (Hi0 : (n < ntmps F)%nat) by lia.
  intros hi m0 Hhi s k m [Ha Hj]. cbn [mcomp ntemps mtype] in *. fold tx. fold d.
  (* tmp = &x *)
  destruct (run_take_addr (S n) x env s k m 0 hi Hn Hkp Hx ltac:(lia) Ha) as (s1 & m1 & E1 & A1 & T1 & P1). rewrite E1.
  (* old = *tmp: the value of x, through the pointer, into the saved-value temporary *)
  pose proof (saved_size n tx Hks) as Ss.
  rewrite mrun_lea, (lea_temp F WF n Hi0), mrun_push, mrun_seq3. cbn [rax set_rax].
  destruct (run_deref (S n) x env (set_rax s1 (taddr F n)) (taddr F n :: k) m1 Hn Hkp Hx A1 P1) as (s2 & E2 & R2). fold tx xv in E2, R2.
  destruct (maps_cast F tx tx xv Rxv s2 (taddr F n :: k) m1 R2) as (s3 & E3 & R3). rewrite (conv_in_range _ _ Rxv) in R3.
  rewrite E2, mrun_seq, E3, mrun_pop, mrun_store by (rewrite st_bytes_kind; apply (valid_temp F WF n _ Hi0 Ss)).
  rewrite st_bytes_kind. cbn [rdi rax set_rdi]. set (m2 := store_le m1 (taddr F n) (nbytes tx) (rax s3)).
  assert (T2 : touch_only F n (S n) m1 m2) by (apply store_temp_touch; [lia|exact Ss]).
  assert (A2 : agree F env m2) by (apply store_temp_agree; [exact WF|exact A1|exact Hi0|exact Ss]).
  assert (P2s : load_le m2 (taddr F n) (nbytes tx) = urepr tx xv) by (unfold m2; rewrite load_store_same; apply R_urepr; exact R3).
  assert (P2p : load_le m2 (taddr F (S n)) 8 = vaddr F x).
  { rewrite <- P1. apply (touch_keeps_temp WF T2 Hn); [lia|lia|exact (ptr_size _ Hkp)]. }
  (* *tmp = old + d *)
  rewrite (mrun_ptr (S n) _ _ k m2 Hn Hkp), P2p, mrun_push, mrun_seq. cbn [rax set_rax].
  assert (Hbin : runs F (bin_code Add (CLea (toff F n) ;;; CLoad (load_kind tx)) tx (CImm d) I32) (bin_type Add tx I32) r
                      (fun m' => m' = m2) (fun m' => m' = m2)).
  { apply bin_code_ok with (x := xv) (y := d) (P1 := fun m' => m' = m2); [exact Er'|exact Rxv|exact Rd|]. cbn [lhs_first]. split.
    - intros s0 k0 m' ->. eexists; eexists. split; [reflexivity|]. split; [apply R_imm; exact Rd|reflexivity].
    - intros s0 k0 m' ->. destruct (run_saved n tx xv s0 k0 m2 Hi0 Hks Rxv P2s) as (s' & E & HR). exists s', m2. auto. }
  destruct (Hbin (set_rax (set_rax (set_rdi s3 (taddr F n)) (taddr F (S n))) (vaddr F x)) (vaddr F x :: k) m2 eq_refl) as (s5 & m5 & E5 & R5 & ->). rewrite E5, mrun_seq3.
  (* the store to x touches no temporary: the bound 0 *)
  destruct (run_cast_store F WF x env _ r s5 k m2 0 0 Hx A2 Rr R5) as (s6 & m3 & E6 & R6 & A6 & T6). fold tx in E6. rewrite E6.
  (* , old *)
  assert (P3s : load_le m3 (taddr F n) (nbytes tx) = urepr tx xv).
  { rewrite <- P2s. apply (touch_keeps_temp WF T6 Hi0); [lia|lia|exact (saved_size n tx Hks)]. }
  rewrite mrun_seq2.
  destruct (run_saved n tx xv s6 k m3 Hi0 Hks Rxv P3s) as (s8 & E8 & R8). rewrite E8.
  destruct (maps_cast F tx tx xv Rxv s8 k m3 R8) as (s9 & E9 & R9). rewrite (conv_in_range _ _ Rxv) in R9.
  exists s9, m3. refine (conj E9 (conj R9 (conj A6 _))).
  (* the three stores *)
  refine (touch_trans (touch_trans (touch_trans Hj T1) (touch_mono T2 _ _)) (touch_mono T6 _ _)); lia.
Qed.

(* the temporaries the expression needs are in the frame, of the right kinds, from index n on *)
Definition kinds_at (n : nat) (l : list tkind) : Prop :=
  forall i k, nth_error l i = Some k -> (n + i < ntmps F)%nat /\ tkind_at F (n + i) = k.

Lemma kinds_at_app n l1 l2 : kinds_at n (l1 ++ l2) -> kinds_at n l1 /\ kinds_at (n + length l1) l2.
Proof.
  intros H. split; intros i k Hi.
  - apply H. rewrite nth_error_app1; [exact Hi|]. apply nth_error_Some. rewrite Hi. discriminate.
  - rewrite <- Nat.add_assoc. apply H. rewrite nth_error_app2 by lia. replace (length l1 + i - length l1)%nat with i by lia. exact Hi.
Qed.

Lemma temps_of_length G0 : forall e, length (temps_of G0 e) = ntemps e.
Proof.
  induction e as [t v0|x|o a IHa|o a IHa b IHb|t a IHa|c IHc a IHa b IHb|a IHa b IHb|x a IHa|o x a IHa|post inc x];
    cbn [temps_of ntemps]; rewrite ?app_length, ?IHa, ?IHb, ?IHc; cbn [length]; try lia.
  (* left: ++ / --, whose temporaries depend on post *)
  destruct post; reflexivity.
Qed.

(* what the code of e at temporary index n needs of the frame; prefix ++ / -- do not reach gen_expr (the parser rewrites them: desugar) *)
Fixpoint fits (n : nat) (e : mexpr) : Prop :=
  match e with
  | MLit _ _ => True
  | MVar x => (x < nvars F)%nat
  | MUn _ a | MCast _ a => fits n a
  | MBin _ a b | MComma a b => fits n a /\ fits (n + ntemps a) b
  | MCond c a b => fits n c /\ fits (n + ntemps c) a /\ fits (n + ntemps c + ntemps a) b
  | MAssign x a => (x < nvars F)%nat /\ fits n a
  | MOpAssign _ x a => (x < nvars F)%nat /\ fits n a /\ (n + ntemps a < ntmps F)%nat /\ tkind_at F (n + ntemps a) = TPtr
  | MIncDec post _ x =>
    post = true /\ (x < nvars F)%nat /\ (S n < ntmps F)%nat /\ tkind_at F n = TSaved (vty G x) /\ tkind_at F (S n) = TPtr
  end.

(* what the code owes to a result of meval: nothing if it is undefined; otherwise it computes it - and the value is a value of the
   type of e.  The range stands in the statement because every construct needs it of its operands (casts, tests and operators
   are correct on values of the operand's type only): so it is half of the induction hypothesis. *)
Definition good (n : nat) (e : mexpr) (env : venv) (r : option (Z * venv)) : Prop :=
  match r with Some (v, env') => in_range (mtype G e) v = true /\ mcomputes n e env v env' | None => True end.

Theorem mcomp_good : forall e env n, fits n e -> good n e env (meval G env e).
Proof.
  induction e as [t v0|x|o a IHa|o a IHa b IHb|t a IHa|c IHc a IHa b IHb|a IHa b IHb|x a IHa|o x a IHa|post inc x];
    intros env n Hf; cbn [fits] in Hf.
  - cbn [meval]. destruct (in_range t v0) eqn:Hr; [|exact I]. split; [exact Hr|].
    intros hi m0 _ s k m Hp. eexists; eexists. split; [reflexivity|]. split; [apply R_imm; exact Hr|exact Hp].
  - (* a variable: lea, load *)
    cbn [meval]. unfold read_var. destruct (in_range _ _) eqn:Hr; [|exact I]. split; [exact Hr|].
    intros hi m0 _ s k m [Ha Hj]. destruct (proj2 Ha x Hf) as [_ Hl]. cbn [mcomp mtype]. rewrite mrun_lea, (lea_var F WF x Hf).
    destruct (mrun_load F (vty G x) (vget env x) (set_rax s (vaddr F x)) k m (valid_var F WF x Hf) Hr Hl) as (s' & E & HR).
    exists s', m. auto.
  - (* - ~ ! + : the operand, promoted where C promotes it, then the instruction *)
    cbn [meval]. specialize (IHa env n Hf). destruct (meval G env a) as [[x env1]|]; [destruct IHa as [Rx Ha]|exact I].
    destruct (eval_unval o (mtype G a) x) as [v|] eqn:Er; [|exact I].
    split; [pose proof (unval_range Rx Er) as Hr; destruct o; exact Hr|]. intros hi m0 Hhi. specialize (Ha hi m0 Hhi). unfold eval_unval in Er.
    destruct o; cbn [mcomp mtype]; rewrite ?mm_type_is_c11; cbn [mtype]; apply (runs_then F Ha).
    + apply (maps_then F (maps_promote F _ x Rx)), maps_ins. intros s HR. exact (neg_codegen_ok _ x s v (promote_big _) HR Er).
    + injection Er as <-. apply (maps_then F (maps_promote F _ x Rx)), maps_ins. intros s HR. exact (not_codegen_ok _ x s (promote_big _) HR).
    + injection Er as <-. apply maps_ins. intros s HR. exact (lognot_codegen_ok _ x s Rx HR).
    + injection Er as <-. exact (maps_promote F _ x Rx).
  - destruct Hf as [Fa Fb]. destruct (is_logical o) eqn:L.
    + (* a && b, a || b *)
      destruct o; try discriminate L; cbn [meval]; specialize (IHa env n Fa);
        (destruct (meval G env a) as [[x env1]|]; [destruct IHa as [Rx Ha]|exact I]); destruct (x =? 0) eqn:Hx; cbn [negb].
      * split; [reflexivity|]. intros hi m0 Hhi. cbn [ntemps] in Hhi. cbn [mcomp]. rewrite !mm_type_is_c11. refine (runs_logic_short F true _ _ (Ha hi m0 _) Rx Hx); lia.
      * specialize (IHb env1 _ Fb). destruct (meval G env1 b) as [[y env2]|]; [destruct IHb as [Ry Hb]|exact I].
        split; [apply b2z_range|]. intros hi m0 Hhi. cbn [ntemps] in Hhi. cbn [mcomp]. rewrite !mm_type_is_c11. refine (runs_logic_long F true (Ha hi m0 _) Rx Hx (Hb hi m0 _) Ry); lia.
      * specialize (IHb env1 _ Fb). destruct (meval G env1 b) as [[y env2]|]; [destruct IHb as [Ry Hb]|exact I].
        split; [apply b2z_range|]. intros hi m0 Hhi. cbn [ntemps] in Hhi. cbn [mcomp]. rewrite !mm_type_is_c11. refine (runs_logic_long F false (Ha hi m0 _) Rx Hx (Hb hi m0 _) Ry); lia.
      * split; [reflexivity|]. intros hi m0 Hhi. cbn [ntemps] in Hhi. cbn [mcomp]. rewrite !mm_type_is_c11. refine (runs_logic_short F false _ _ (Ha hi m0 _) Rx Hx); lia.
    + (* the operators that evaluate both operands: in chibicc's order, then bin_code_ok *)
      rewrite (meval_bin G env o a b L). destruct (norace a b); [|exact I].
      assert (Last : forall x y env1 env2, in_range (mtype G a) x = true -> in_range (mtype G b) y = true ->
                (forall hi m0, (n + ntemps (MBin o a b) <= hi)%nat ->
                   if lhs_first o then runs F (mcomp F n a) (mtype G a) x (fun m => agree F env m /\ touch_only F 0 hi m0 m) (fun m => agree F env1 m /\ touch_only F 0 hi m0 m) /\
                                       runs F (mcomp F (n + ntemps a) b) (mtype G b) y (fun m => agree F env1 m /\ touch_only F 0 hi m0 m) (fun m => agree F env2 m /\ touch_only F 0 hi m0 m)
                   else runs F (mcomp F (n + ntemps a) b) (mtype G b) y (fun m => agree F env m /\ touch_only F 0 hi m0 m) (fun m => agree F env1 m /\ touch_only F 0 hi m0 m) /\
                        runs F (mcomp F n a) (mtype G a) x (fun m => agree F env1 m /\ touch_only F 0 hi m0 m) (fun m => agree F env2 m /\ touch_only F 0 hi m0 m)) ->
                good n (MBin o a b) env (match eval_binval o (mtype G a) (mtype G b) x y with Some v => Some (v, env2) | None => None end)).
      { intros x y env1 env2 Rx Ry H. destruct (eval_binval _ _ _ _ _) as [v|] eqn:Er; [|exact I]. split.
        - pose proof (binval_range Rx Ry Er) as Hr. cbn [type_of] in Hr. cbn [mtype]. exact Hr.
        - intros hi m0 Hhi. rewrite (mcomp_bin F n o a b L), !mm_type_is_c11. cbn [mtype]. rewrite <- bin_type_c11.
          exact (bin_code_ok F o _ _ _ _ x y v _ (fun m => agree F env1 m /\ touch_only F 0 hi m0 m) _ Er Rx Ry (H hi m0 Hhi)). }
      destruct (lhs_first o) eqn:LF.
      * specialize (IHa env n Fa). destruct (meval G env a) as [[x env1]|]; [destruct IHa as [Rx Ha]|exact I].
        specialize (IHb env1 _ Fb). destruct (meval G env1 b) as [[y env2]|]; [destruct IHb as [Ry Hb]|exact I].
        apply (Last x y env1 env2 Rx Ry). intros hi m0 Hhi. cbn [ntemps] in Hhi. split; [refine (Ha hi m0 _)|refine (Hb hi m0 _)]; lia.
      * specialize (IHb env _ Fb). destruct (meval G env b) as [[y env1]|]; [destruct IHb as [Ry Hb]|exact I].
        specialize (IHa env1 n Fa). destruct (meval G env1 a) as [[x env2]|]; [destruct IHa as [Rx Ha]|exact I].
        apply (Last x y env1 env2 Rx Ry). intros hi m0 Hhi. cbn [ntemps] in Hhi. split; [refine (Hb hi m0 _)|refine (Ha hi m0 _)]; lia.
  - cbn [meval]. specialize (IHa env n Hf). destruct (meval G env a) as [[x env1]|]; [destruct IHa as [Rx Ha]|exact I].
    split; [apply conv_range|]. intros hi m0 Hhi. cbn [mcomp mtype]. rewrite mm_type_is_c11. exact (runs_then F (Ha hi m0 Hhi) (maps_cast F _ t x Rx)).
  - (* c ? a : b: the chosen operand, converted to the common type *)
    destruct Hf as (Fc & Fa & Fb). cbn [meval].
    specialize (IHc env n Fc). destruct (meval G env c) as [[x env1]|]; [destruct IHc as [Rx Hc]|exact I].
    specialize (IHa env1 _ Fa). specialize (IHb env1 _ Fb). destruct (x =? 0) eqn:Hx; cbn [negb].
    + destruct (meval G env1 b) as [[y env2]|]; [destruct IHb as [Ry Hb]|exact I]. split; [apply conv_range|].
      intros hi m0 Hhi. cbn [ntemps] in Hhi. cbn [mcomp mtype]. rewrite !mm_type_is_c11, m_common_is_uac.
      refine (runs_cond F (Hc hi m0 _) Rx _); [lia|]. rewrite Hx.
      refine (runs_then F (Hb hi m0 _) (maps_cast F _ _ y Ry)); lia.
    + destruct (meval G env1 a) as [[y env2]|]; [destruct IHa as [Ry Ha]|exact I]. split; [apply conv_range|].
      intros hi m0 Hhi. cbn [ntemps] in Hhi. cbn [mcomp mtype]. rewrite !mm_type_is_c11, m_common_is_uac.
      refine (runs_cond F (Hc hi m0 _) Rx _); [lia|]. rewrite Hx.
      refine (runs_then F (Ha hi m0 _) (maps_cast F _ _ y Ry)); lia.
  - destruct Hf as [Fa Fb]. cbn [meval]. specialize (IHa env n Fa). destruct (meval G env a) as [[x env1]|]; [destruct IHa as [Rx Ha]|exact I].
    specialize (IHb env1 _ Fb). destruct (meval G env1 b) as [[y env2]|]; [destruct IHb as [Ry Hb]|exact I].
    split; [exact Ry|]. intros hi m0 Hhi. cbn [ntemps] in Hhi. refine (runs_seq F (Ha hi m0 _) (Hb hi m0 _)); lia.
  - (* x = a: the address of x waits on the stack while a is computed; then cast, pop, store *)
    destruct Hf as [Hx Fa]. cbn [meval]. destruct (mem_nat x (writes a)); [exact I|].
    specialize (IHa env n Fa). destruct (meval G env a) as [[y env1]|]; [destruct IHa as [Ry Ha]|exact I].
    split; [apply conv_range|]. intros hi m0 Hhi s k m Hp. cbn [mcomp ntemps mtype] in *. rewrite mm_type_is_c11, mrun_lea, (lea_var F WF x Hx), mrun_push. cbn [rax set_rax].
    destruct (Ha hi m0 Hhi (set_rax s (vaddr F x)) (vaddr F x :: k) m Hp) as (s1 & m1 & E1 & R1 & A1 & T1). rewrite mrun_seq, E1.
    destruct (run_cast_store F WF x env1 _ y s1 k m1 0 hi Hx A1 Ry R1) as (s2 & m2 & E2 & R2 & A2 & T2).
    exists s2, m2. exact (conj E2 (conj R2 (conj A2 (touch_trans T1 T2)))).
  - destruct Hf as (Hx & Fa & Hi & Hk). cbn [meval]. destruct (mem_nat x (writes a)); [exact I|]. destruct (is_arith o || is_shift o) eqn:Ho; [|exact I]. cbn [orb negb].
    specialize (IHa env n Fa). destruct (meval G env a) as [[y env1]|]; [destruct IHa as [Ry Ha]|exact I].
    unfold read_var. destruct (in_range (vty G x) (vget env1 x)) eqn:Rxv; [|exact I]. destruct (eval_binval _ _ _ _ _) as [r|] eqn:Er; [|exact I].
    split; [apply conv_range|exact (case_opassign Hx Hi Hk Ho Ry Ha Rxv Er)].
  - destruct Hf as (-> & Hx & Hn & Hs & Hp). cbn [meval]. unfold read_var. destruct (in_range _ _) eqn:Rxv; [|exact I].
    destruct (eval_binval _ _ _ _ _) as [r|] eqn:Er; [|exact I]. split; [exact Rxv|exact (case_postfix Hx Hn Hs Hp Rxv Er)].
Qed.

Theorem mcomp_correct : forall e env v env', meval G env e = Some (v, env') -> forall n, fits n e -> mcomputes n e env v env'.
Proof. intros e env v env' H n Hf. pose proof (mcomp_good e env n Hf) as P. rewrite H in P. exact (proj2 P). Qed.
End Main.
