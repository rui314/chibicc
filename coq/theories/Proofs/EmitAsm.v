(* C15 (symbol emission): the assembler model applied to what emit produces.
   The events of the whole output are the concatenation of per-object blocks that do not depend
   on the assembler state they are met in; the entry of a symbol s depends only on the events
   that name s. *)
From Coq Require Import List Bool Arith ZArith.
From Chibicc Require Import Model.Linkage Spec.LinkSpec Model.Emit.
Import ListNotations.

Lemma ident_eqb_eq a b : ident_eqb a b = true <-> a = b.
Proof. destruct a, b; cbn; rewrite ?Nat.eqb_eq; split; congruence. Qed.
Lemma ident_eqb_refl a : ident_eqb a a = true. Proof. apply ident_eqb_eq. reflexivity. Qed.
Lemma ident_eqb_spec a b : reflect (a = b) (ident_eqb a b).
Proof. apply iff_reflect. symmetry. apply ident_eqb_eq. Qed.
Lemma ident_eqb_sym a b : ident_eqb a b = ident_eqb b a.
Proof. destruct a, b; cbn; try reflexivity; apply Nat.eqb_sym. Qed.

Lemma asm_app a : forall sec al b, exists sec' al', asm sec al (a ++ b) = asm sec al a ++ asm sec' al' b.
Proof.
  induction a as [|d r IH]; intros sec al b; [exists sec, al; reflexivity|].
  (* whatever state d leaves, the induction hypothesis is used at that state *)
  destruct d; cbn [app asm]; edestruct IH as (s' & a' & E); rewrite E; exists s', a'; rewrite ?app_assoc; reflexivity.
Qed.

Lemma asm_flat_map {A} (blk : A -> list directive) (ev : A -> list event) :
  (forall x sec al, asm sec al (blk x) = ev x) -> forall l sec al, asm sec al (flat_map blk l) = flat_map ev l.
Proof.
  intros Hind l. induction l as [|x r IH]; intros sec al; [reflexivity|].
  cbn [flat_map]. destruct (asm_app (blk x) sec al (flat_map blk r)) as (s' & a' & E). rewrite E, IH, Hind. reflexivity.
Qed.

Definition data_ev (fc : bool) (prog : list obj) (o : obj) : list event := asm P_text None (emit_data_obj fc prog o).
Definition text_ev (pic : bool) (prog : list obj) (o : obj) : list event := asm P_text None (emit_text_obj pic prog o).

Definition is_ref (e : event) : bool := match e with ERef _ _ => true | _ => false end.
Definition core (s : ident) (evs : list event) : list event :=
  filter (fun e => ident_eqb s (ev_name e) && negb (is_ref e)) evs.

Lemma fold_left_filter {A B} (f : A -> B -> A) (keep : B -> bool) :
  (forall a e, keep e = false -> f a e = a) -> forall l a, fold_left f (filter keep l) a = fold_left f l a.
Proof.
  intros H l. induction l as [|e r IH]; intros a; [reflexivity|]. cbn [filter fold_left].
  destruct (keep e) eqn:Ek; [cbn [fold_left]; apply IH|]. rewrite (H a e Ek). apply IH.
Qed.

Lemma filter_filter_sub {A} (P Q : A -> bool) l : (forall x, In x l -> P x = true -> Q x = true) -> filter P l = filter P (filter Q l).
Proof.
  induction l as [|x r IH]; intros H; [reflexivity|]. cbn [filter].
  rewrite IH by (intros y Hy; apply H; right; exact Hy).
  destruct (P x) eqn:Ep.
  - rewrite (H x (or_introl eq_refl) Ep). cbn [filter]. rewrite Ep. reflexivity.
  - destruct (Q x); [cbn [filter]; rewrite Ep|]; reflexivity.
Qed.

Lemma ev_binding_core s evs : ev_binding s (core s evs) = ev_binding s evs.
Proof.
  unfold ev_binding, core. apply fold_left_filter. intros a e Hk. destruct e; [|reflexivity..]. cbn in Hk.
  rewrite andb_true_r in Hk. rewrite Hk. reflexivity.
Qed.
Lemma ev_stype_core s evs : ev_stype s (core s evs) = ev_stype s evs.
Proof.
  unfold ev_stype, core. apply fold_left_filter. intros a e Hk. destruct e; [reflexivity| |reflexivity..]. cbn in Hk.
  rewrite andb_true_r in Hk. rewrite Hk. reflexivity.
Qed.
Lemma ev_size_core s evs : ev_size s (core s evs) = ev_size s evs.
Proof.
  unfold ev_size, core. apply fold_left_filter. intros a e Hk. destruct e; [reflexivity|reflexivity| |reflexivity| |reflexivity]; cbn in Hk;
    rewrite andb_true_r in Hk; rewrite Hk; reflexivity.
Qed.
Lemma ev_defs_core s evs : ev_defs s (core s evs) = ev_defs s evs.
Proof.
  unfold ev_defs, core. symmetry. apply filter_filter_sub. intros e _ He.
  destruct e; try discriminate He; cbn [ev_name is_ref negb]; rewrite He; reflexivity.
Qed.

(* sym_lookup from the core and the references *)
Definition look (s : ident) (c : list event) (rs : list bool) : lookup_result :=
  match ev_defs s c with
  | [] => match rs with
          | [] => Absent
          | ts => Present (mkEntry B_global (if existsb (fun t => t) ts then T_tls else T_notype) P_undef None None)
          end
  | [EDef _ p al] =>
      let t := ev_stype s c in
      Present (mkEntry (ev_binding s c) (if tls_place p then T_tls else t) p (ev_size s c) al)
  | [EComm _ z al] =>
      match ev_binding s c with
      | B_local => Present (mkEntry B_local T_object P_bss (Some z) (Some al))
      | B_global => Present (mkEntry B_global T_object P_common (Some z) (Some al))
      end
  | _ => Clash
  end.

Lemma sym_lookup_look evs s : sym_lookup evs s = look s (core s evs) (ev_refs s evs).
Proof.
  unfold sym_lookup, look. rewrite ev_defs_core, ev_stype_core, ev_binding_core, ev_size_core.
  destruct (ev_defs s evs) as [|e r]; [destruct (ev_refs s evs); reflexivity|reflexivity].
Qed.

Lemma core_app s a b : core s (a ++ b) = core s a ++ core s b.
Proof. apply filter_app. Qed.
Lemma core_all_refs s evs : forallb is_ref evs = true -> core s evs = [].
Proof.
  induction evs as [|e r IH]; intros H; [reflexivity|]. cbn [forallb] in H. apply andb_true_iff in H as [He Hr].
  unfold core. cbn [filter]. rewrite He, andb_false_r. apply IH. exact Hr.
Qed.
Lemma core_flat_map {A} s (g : A -> list event) l : core s (flat_map g l) = flat_map (fun x => core s (g x)) l.
Proof. induction l as [|x r IH]; [reflexivity|]. cbn [flat_map]. rewrite core_app, IH. reflexivity. Qed.
Lemma ev_refs_app s a b : ev_refs s (a ++ b) = ev_refs s a ++ ev_refs s b.
Proof. unfold ev_refs. apply flat_map_app. Qed.
Lemma ev_refs_flat_map {A} s (g : A -> list event) l : ev_refs s (flat_map g l) = flat_map (fun x => ev_refs s (g x)) l.
Proof. induction l as [|x r IH]; [reflexivity|]. cbn [flat_map]. rewrite ev_refs_app, IH. reflexivity. Qed.

Definition emits_data (prog : list obj) (o : obj) : bool := negb (ob_function o) && ob_definition o && owner_live prog o.
Definition data_place (o : obj) : place :=
  if ob_init o then (if ob_tls o then P_tdata else P_data) else (if ob_tls o then P_tbss else P_bss).
Definition data_core (fc : bool) (prog : list obj) (o : obj) : list event :=
  if emits_data prog o then
    EBind (ob_name o) (if ob_static o then B_local else B_global) ::
    if fc && ob_tentative o && negb (ob_tls o) then [EComm (ob_name o) (ob_size o) (eff_align o)]
    else [EType (ob_name o) T_object; ESize (ob_name o) (ob_size o); EDef (ob_name o) (data_place o) (Some (eff_align o))]
  else [].
(* the relocation of an initialized object that holds an address *)
Definition data_rel (fc : bool) (prog : list obj) (o : obj) : list event :=
  if emits_data prog o && negb (fc && ob_tentative o && negb (ob_tls o)) && ob_init o then
    match ob_rel o with Some t => [ERef (User t) false] | None => [] end
  else [].
Definition data_refs (fc : bool) (prog : list obj) (s : ident) (o : obj) : list bool :=
  if emits_data prog o && negb (fc && ob_tentative o && negb (ob_tls o)) && ob_init o then
    match ob_rel o with Some t => if ident_eqb s (User t) then [false] else [] | None => [] end
  else [].

Lemma emits_data_alt prog o : (if ob_function o || negb (ob_definition o) then true else negb (owner_live prog o)) = negb (emits_data prog o).
Proof. unfold emits_data. destruct (ob_function o), (ob_definition o), (owner_live prog o); reflexivity. Qed.

(* whatever the section and the pending .align a data block is met in *)
Lemma data_ev_shape fc prog o sec al : asm sec al (emit_data_obj fc prog o) = data_core fc prog o ++ data_rel fc prog o.
Proof.
  unfold emit_data_obj, data_core, data_rel, data_place, emits_data.
  destruct (ob_function o); [reflexivity|]. destruct (ob_definition o); [|reflexivity]. destruct (owner_live prog o); [|reflexivity].
  cbn [negb orb andb].
  destruct (ob_static o), (fc && ob_tentative o && negb (ob_tls o)), (ob_init o), (ob_rel o); reflexivity.
Qed.
Lemma data_rel_refs fc prog o : forallb is_ref (data_rel fc prog o) = true.
Proof. unfold data_rel. destruct (_ && _ && _); [destruct (ob_rel o)|]; reflexivity. Qed.

Lemma core_data_ev s fc prog o : core s (data_ev fc prog o) = if same_name s o then data_core fc prog o else [].
Proof.
  unfold data_ev. rewrite data_ev_shape, core_app, (core_all_refs s _ (data_rel_refs fc prog o)), app_nil_r.
  unfold data_core, same_name, core. destruct (emits_data prog o); [|destruct (ident_eqb s (ob_name o)); reflexivity].
  destruct (fc && ob_tentative o && negb (ob_tls o)); cbn [filter ev_name is_ref negb]; rewrite !andb_true_r;
    destruct (ident_eqb s (ob_name o)); reflexivity.
Qed.
Lemma refs_data_ev s fc prog o : ev_refs s (data_ev fc prog o) = data_refs fc prog s o.
Proof.
  unfold data_ev. rewrite data_ev_shape, ev_refs_app. unfold data_core, data_rel, data_refs. destruct (emits_data prog o); [|reflexivity].
  destruct (fc && ob_tentative o && negb (ob_tls o)); [reflexivity|]. destruct (ob_init o); [destruct (ob_rel o)|]; cbn; rewrite ?app_nil_r; reflexivity.
Qed.

Lemma data_blk_indep fc prog o sec al : asm sec al (emit_data_obj fc prog o) = data_ev fc prog o.
Proof. unfold data_ev. rewrite !data_ev_shape. reflexivity. Qed.

(* the events of one use of an identifier in a body: the relocations of gen_addr's instructions *)
Definition use_events (pic : bool) (prog : list obj) (r : rref) : list event := flat_map insn_events (gen_addr pic (var_of_ref prog r)).
(* the code of a use is a block like that of an object: its events do not depend on the state it is met in *)
Lemma asm_use pic prog r sec al : asm sec al (map D_insn (gen_addr pic (var_of_ref prog r)) ++ [D_code]) = use_events pic prog r.
Proof.
  unfold use_events. revert sec al. induction (gen_addr pic (var_of_ref prog r)) as [|i is IH]; intros sec al; [reflexivity|].
  cbn [map app asm flat_map]. rewrite IH. reflexivity.
Qed.
Lemma use_events_refs pic prog body : forallb is_ref (flat_map (use_events pic prog) body) = true.
Proof.
  induction body as [|r rest IH]; [reflexivity|]. cbn [flat_map]. rewrite forallb_app, IH, andb_true_r. unfold use_events.
  induction (gen_addr pic (var_of_ref prog r)) as [|i is IHi]; [reflexivity|]. cbn [flat_map]. rewrite forallb_app, IHi, andb_true_r. destruct i; reflexivity.
Qed.

Definition emits_text (o : obj) : bool := ob_function o && ob_definition o && ob_live o.
Definition text_core (o : obj) : list event :=
  if emits_text o then [EBind (ob_name o) (if ob_static o then B_local else B_global); EType (ob_name o) T_func; EDef (ob_name o) P_text None]
  else [].
(* the relocations one use produces against s *)
Definition ref_flags (s : ident) (r : rref) : list bool :=
  match r with
  | RFun m => if ident_eqb s (User m) then [false] else []
  | RObj m t => if ident_eqb s (User m) then [t] else []
  | RAnon k t => if ident_eqb s (Anon k) then [t] else []
  end.
Definition text_refs (s : ident) (o : obj) : list bool :=
  if emits_text o then flat_map (ref_flags s) (ob_body o) else [].

Lemma emits_text_alt o : (if negb (ob_function o) || negb (ob_definition o) then true else negb (ob_live o)) = negb (emits_text o).
Proof. unfold emits_text. destruct (ob_function o), (ob_definition o), (ob_live o); reflexivity. Qed.

Lemma text_ev_shape pic prog o :
  text_ev pic prog o =
  if emits_text o then
    EBind (ob_name o) (if ob_static o then B_local else B_global) :: EType (ob_name o) T_func :: EDef (ob_name o) P_text None ::
    flat_map (use_events pic prog) (ob_body o)
  else [].
Proof.
  unfold text_ev, emit_text_obj, emits_text.
  destruct (ob_function o); [|reflexivity]. destruct (ob_definition o); [|reflexivity]. destruct (ob_live o); [|reflexivity].
  cbn [negb orb andb].
  (* the body: one block per use, side by side (asm_flat_map), then a D_code, which has no event in any state *)
  destruct (asm_app (flat_map (fun r => map D_insn (gen_addr pic (var_of_ref prog r)) ++ [D_code]) (ob_body o)) P_text None [D_code]) as (s' & a' & E).
  destruct (ob_static o); cbn [asm]; rewrite E, (asm_flat_map _ _ (asm_use pic prog)); apply f_equal, f_equal, f_equal, app_nil_r.
Qed.

Lemma core_text_ev s pic prog o : core s (text_ev pic prog o) = if same_name s o then text_core o else [].
Proof.
  rewrite text_ev_shape. unfold text_core, same_name. destruct (emits_text o); [|destruct (ident_eqb s (ob_name o)); reflexivity].
  change (?a :: ?b :: ?c :: ?r) with ([a; b; c] ++ r). rewrite core_app, (core_all_refs _ _ (use_events_refs _ _ _)), app_nil_r.
  unfold core. cbn [filter ev_name is_ref negb]. rewrite andb_true_r. destruct (ident_eqb s (ob_name o)); reflexivity.
Qed.

Lemma refs_of_use s pic prog r : ev_refs s (use_events pic prog r) = ref_flags s r.
Proof.
  unfold use_events. destruct r as [m|m t|k t]; cbn [var_of_ref ref_flags]; unfold gen_addr; cbn [v_vla v_local v_tls v_function v_definition v_name].
  - destruct pic; [|destruct (match find_fun m prog with Some f => ob_definition f | None => false end)];
      cbn [flat_map insn_events app ev_refs]; rewrite ?app_nil_r; reflexivity.
  - destruct pic, t; cbn [flat_map insn_events app ev_refs]; rewrite ?app_nil_r; destruct (ident_eqb s _); reflexivity.
  - destruct pic, t; cbn [flat_map insn_events app ev_refs]; rewrite ?app_nil_r; destruct (ident_eqb s _); reflexivity.
Qed.

Lemma refs_text_ev s pic prog o : ev_refs s (text_ev pic prog o) = text_refs s o.
Proof.
  rewrite text_ev_shape. unfold text_refs. destruct (emits_text o); [|reflexivity].
  change (ev_refs s (flat_map (use_events pic prog) (ob_body o)) = flat_map (ref_flags s) (ob_body o)).
  rewrite ev_refs_flat_map. apply flat_map_ext. intros r. apply refs_of_use.
Qed.

Lemma text_blk_indep pic prog o sec al : asm sec al (emit_text_obj pic prog o) = text_ev pic prog o.
Proof.
  unfold text_ev, emit_text_obj. destruct (negb (ob_function o) || negb (ob_definition o)); [reflexivity|].
  destruct (negb (ob_live o)); [reflexivity|].
  (* .text comes before anything that reads the section or the pending .align *)
  destruct (ob_static o); reflexivity.
Qed.

Theorem asm_emit o prog :
  asm P_text None (emit o prog) = flat_map (data_ev (fcommon o) prog) prog ++ flat_map (text_ev (fpic o) prog) prog.
Proof.
  unfold emit. destruct (asm_app (flat_map (emit_data_obj (fcommon o) prog) prog) P_text None (flat_map (emit_text_obj (fpic o) prog) prog)) as (s' & a' & E).
  rewrite E, (asm_flat_map _ _ (data_blk_indep (fcommon o) prog)), (asm_flat_map _ _ (text_blk_indep (fpic o) prog)). reflexivity.
Qed.

Lemma core_emit s o prog :
  core s (asm P_text None (emit o prog)) =
  flat_map (fun x => if same_name s x then data_core (fcommon o) prog x else []) prog ++ flat_map (fun x => if same_name s x then text_core x else []) prog.
Proof.
  rewrite asm_emit, core_app, !core_flat_map. f_equal; apply flat_map_ext; intros x; [apply core_data_ev|apply core_text_ev].
Qed.

Theorem symtab_closed_form o prog s :
  sym_lookup (asm P_text None (emit o prog)) s =
  look s (flat_map (fun x => if same_name s x then data_core (fcommon o) prog x else []) prog ++
          flat_map (fun x => if same_name s x then text_core x else []) prog)
         (flat_map (data_refs (fcommon o) prog s) prog ++ flat_map (text_refs s) prog).
Proof.
  rewrite sym_lookup_look, core_emit, asm_emit, ev_refs_app, !ev_refs_flat_map. f_equal.
  f_equal; apply flat_map_ext; intros x; [apply refs_data_ev|apply refs_text_ev].
Qed.
