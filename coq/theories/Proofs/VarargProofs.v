(* C06 / vararg: the callee of a variadic call reads with va_start + va_arg exactly the variadic
   actuals the caller passed (Model/Vararg.v; `delivers` and `wf_args` are those of Spec/VarargSpec.v - the psABI
   walk spec_va_arg of that file is compared with the model by evaluation only, in
   Properties_C06_vararg.C06_vararg_nonvacuous). *)
From Chibicc Require Import Base.Mach Base.ListFacts Model.Abi Gen.AbiConsts Model.Vararg Spec.AbiSpec Spec.VarargSpec.
Local Open Scope Z_scope.

(* the va_list that corresponds to a caller frame, the invariant of the walk: gp_offset = 8 per GP register used,
   fp_offset = 48 + 16 per vector register (the six 8-byte GP slots of the save area come first, so 48 and
   176 = 48 + 8 * 16 are where va_arg finds the two classes exhausted), overflow_arg_area = 16(%rbp) + 8 per stack
   word, reg_save_area = offset 24 of __va_area__ *)
Definition ap_of (fr : frame) : va_list :=
  VaList (Z.of_nat (length (fr_gp fr)) * 8) (Z.of_nat (length (fr_fp fr)) * 16 + 48)
         (16 + 8 * Z.of_nat (length (fr_stk fr))) 24.

Definition ext (a b : frame) : Prop :=
  exists g f s, fr_gp b = fr_gp a ++ g /\ fr_fp b = fr_fp a ++ f /\ fr_stk b = fr_stk a ++ s.

Definition regs_ok (fr : frame) : Prop := (length (fr_gp fr) <= 6)%nat /\ (length (fr_fp fr) <= 8)%nat.

Lemma ext_refl fr : ext fr fr.
Proof. exists [], [], []. now rewrite !app_nil_r. Qed.

Lemma ext_trans a b c : ext a b -> ext b c -> ext a c.
Proof.
  intros (g1 & f1 & s1 & Hg1 & Hf1 & Hs1) (g2 & f2 & s2 & Hg2 & Hf2 & Hs2).
  exists (g1 ++ g2), (f1 ++ f2), (s1 ++ s2).
  rewrite Hg2, Hf2, Hs2, Hg1, Hf1, Hs1, !app_assoc. auto.
Qed.

(* whether an argument of type t still goes to registers when gp and fp of them are in use *)
Definition in_regs (gp fp : nat) (t : vty) : bool :=
  match t with
  | VInt => gp <? 6
  | VFlt => fp <? 8
  | VSmall c1 c2 => (fp + snd (small_regs c1 c2) <=? 8) && (gp + fst (small_regs c1 c2) <=? 6)
  | VLdbl | VBig _ => false
  end%nat.

Lemma pass_one_eq fr t v :
  pass_one fr (t, v) =
  if in_regs (length (fr_gp fr)) (length (fr_fp fr)) t
  then Frame (fr_gp fr ++ pick false (classes t) v) (fr_fp fr ++ pick true (classes t) v) (fr_stk fr)
  else Frame (fr_gp fr) (fr_fp fr) (fr_stk fr ++ v).
Proof.
  unfold pass_one. destruct t; cbn [caller_place to_arg in_regs]; change GP_MAX with 6%nat; change FP_MAX with 8%nat.
  - destruct (_ <? 6)%nat; reflexivity.
  - destruct (_ <? 8)%nat; reflexivity.
  - reflexivity.
  - destruct (_ && _); reflexivity.
  - reflexivity.
Qed.

(* assign_lvar_offsets takes the same decision, and the prologue counts param_regs for it *)
Lemma callee_place_cons gp fp st t r :
  callee_place GP_MAX FP_MAX gp fp st (to_arg t :: r) =
  if in_regs gp fp t
  then InRegs gp fp :: callee_place GP_MAX FP_MAX (gp + fst (param_regs t)) (fp + snd (param_regs t)) st r
  else OnStack st :: callee_place GP_MAX FP_MAX gp fp (st + words t) r.
Proof.
  destruct t; cbn [callee_place to_arg in_regs param_regs fst snd]; rewrite ?Nat.add_1_r, ?Nat.add_0_r; reflexivity.
Qed.

(* an argument passed in registers occupies param_regs of them, and these were free *)
Lemma in_regs_spec gp fp t v : in_regs gp fp t = true -> length v = words t ->
  length (pick false (classes t) v) = fst (param_regs t) /\ length (pick true (classes t) v) = snd (param_regs t) /\
  ((gp <= 6 -> gp + fst (param_regs t) <= 6) /\ (fp <= 8 -> fp + snd (param_regs t) <= 8))%nat.
Proof.
  intros E Hl. destruct t as [ | | |c1 c2|w]; try discriminate E; cbn [in_regs] in E.
  - apply Nat.ltb_lt in E. destruct v as [|x [|y v]]; try discriminate Hl. cbn. lia.
  - apply Nat.ltb_lt in E. destruct v as [|x [|y v]]; try discriminate Hl. cbn. lia.
  - apply andb_true_iff in E as [Ef Eg]. apply Nat.leb_le in Ef, Eg. cbn [param_regs].
    split; [|split; [|lia]];
      destruct c1, c2 as [[|]|]; destruct v as [|x [|y [|z v]]]; try discriminate Hl; reflexivity.
Qed.

Lemma pass_one_ext fr a : ext fr (pass_one fr a).
Proof.
  destruct a as [t v]. rewrite pass_one_eq. destruct (in_regs _ _ t).
  - exists (pick false (classes t) v), (pick true (classes t) v), []. cbn. now rewrite app_nil_r.
  - exists [], [], v. cbn. now rewrite !app_nil_r.
Qed.

Lemma pass_args_ext args : forall fr, ext fr (pass_args fr args).
Proof.
  induction args as [|a r IH]; intros fr; cbn [pass_args fold_left].
  - apply ext_refl.
  - eapply ext_trans; [apply pass_one_ext | apply IH].
Qed.

Lemma pass_one_ok fr a : length (snd a) = words (fst a) -> regs_ok fr -> regs_ok (pass_one fr a).
Proof.
  destruct a as [t v]. intros Hl [Hg Hf]. rewrite pass_one_eq.
  destruct (in_regs _ _ t) eqn:E; [|split; assumption].
  destruct (in_regs_spec _ _ t v E Hl) as (Lg & Lf & Bg & Bf).
  split; cbn [fr_gp fr_fp]; rewrite app_length; [rewrite Lg|rewrite Lf]; auto.
Qed.

Lemma pass_args_ok ns : forall fr, wf_args ns -> regs_ok fr -> regs_ok (pass_args fr ns).
Proof.
  induction ns as [|a r IH]; intros fr Hwf Hok; cbn [pass_args fold_left]; auto.
  inversion_clear Hwf as [|? ? Hl Hwf']. apply IH; auto. apply pass_one_ok; auto.
Qed.

(* the counts the prologue takes over the named parameters are the caller's *)
Lemma named_counts ns : forall fr, wf_args ns ->
  va_counts (map fst ns)
    (callee_place GP_MAX FP_MAX (length (fr_gp fr)) (length (fr_fp fr)) (length (fr_stk fr)) (map to_arg (map fst ns)))
    (length (fr_gp fr)) (length (fr_fp fr)) (16 + 8 * Z.of_nat (length (fr_stk fr)))
  = (length (fr_gp (pass_args fr ns)), length (fr_fp (pass_args fr ns)), 16 + 8 * Z.of_nat (length (fr_stk (pass_args fr ns)))).
Proof.
  induction ns as [|[t v] r IH]; intros fr Hwf; [reflexivity|].
  inversion_clear Hwf as [|? ? Hl Hwf']. cbn [fst snd] in Hl.
  change (pass_args fr ((t, v) :: r)) with (pass_args (pass_one fr (t, v)) r). rewrite <- (IH _ Hwf').
  cbn [map fst]. rewrite pass_one_eq, callee_place_cons.
  destruct (in_regs _ _ t) eqn:E; cbn [va_counts fr_gp fr_fp fr_stk]; rewrite !app_length.
  - destruct (in_regs_spec _ _ t v E Hl) as (-> & -> & _). reflexivity.
  - rewrite Hl, Nat2Z.inj_add. f_equal. lia.
Qed.

Lemma va_start_is_ap_of ns : wf_args ns -> va_start (map fst ns) = ap_of (pass_args frame0 ns).
Proof.
  intros Hwf. unfold va_start. pose proof (named_counts ns frame0 Hwf) as Hc.
  cbn [frame0 fr_gp fr_fp fr_stk length] in Hc. change (16 + 8 * Z.of_nat 0) with 16 in Hc. rewrite Hc. unfold ap_of. f_equal; lia.
Qed.

(* the prologue stored the registers where the walkers look for them *)
Lemma load_area_gp fin n : (n < 6)%nat -> load_area fin (24 + Z.of_nat n * 8) = nth_error (fr_gp fin) n.
Proof. intros Hn. unfold load_area. do 6 (destruct n as [|n]; [reflexivity|]). lia. Qed.

Lemma load_area_fp fin n : (n < 8)%nat -> load_area fin (24 + (Z.of_nat n * 16 + 48)) = nth_error (fr_fp fin) n.
Proof. intros Hn. unfold load_area. do 8 (destruct n as [|n]; [reflexivity|]). lia. Qed.

Lemma nth_error_mid {A} (l : list A) x r : nth_error ((l ++ [x]) ++ r) (length l) = Some x.
Proof. rewrite <- app_assoc. apply nth_error_length_app. Qed.

Lemma load_stack_at fin S v s : fr_stk fin = (S ++ v) ++ s ->
  load_stack fin (16 + 8 * Z.of_nat (length S)) (length v) = Some v.
Proof.
  intros Hs. unfold load_stack.
  replace (16 + 8 * Z.of_nat (length S)) with ((2 + Z.of_nat (length S)) * 8) by lia.
  rewrite (proj2 (Z.leb_le 16 _)), Z_mod_mult by lia. cbn [andb Z.eqb].
  replace ((2 + Z.of_nat (length S)) * 8 - 16) with (Z.of_nat (length S) * 8) by lia.
  rewrite Z_div_mult by lia. rewrite Nat2Z.id, Hs, <- app_assoc, skipn_length_app, firstn_length_app, Nat.eqb_refl. reflexivity.
Qed.

Lemma round8 k w : (16 + 8 * k + 8 * w + 7) / 8 * 8 = 16 + 8 * (k + w).
Proof. lia. Qed.

Definition delivered (fr fin : frame) (t : vty) (v : list Z) : Prop :=
  va_arg fin (ap_of fr) t = (Some v, ap_of (pass_one fr (t, v))).

(* the overflow walker on an argument the caller put on the stack (alignment <= 8) *)
Lemma mem_step fr fin t v : align_of t = 8 -> length v = words t ->
  ext (Frame (fr_gp fr) (fr_fp fr) (fr_stk fr ++ v)) fin ->
  (let '(p, ap1) := va_arg_mem (ap_of fr) (size_of t) (align_of t) in (load fin p (words t), ap1))
  = (Some v, ap_of (Frame (fr_gp fr) (fr_fp fr) (fr_stk fr ++ v))).
Proof.
  intros -> Hl (_ & _ & s & _ & _ & Es). unfold va_arg_mem, size_of, ap_of. change (8 <? 8) with false.
  cbn [overflow_arg_area gp_offset fp_offset reg_save_area load fr_gp fr_fp fr_stk] in *.
  rewrite <- Hl, (load_stack_at _ _ _ _ Es), round8, app_length, Nat2Z.inj_add. reflexivity.
Qed.

Lemma step_int fr fin v : length v = 1%nat -> ext (pass_one fr (VInt, v)) fin -> delivered fr fin VInt v.
Proof.
  destruct v as [|x [|y v]]; try discriminate. intros _. unfold delivered.
  rewrite pass_one_eq. cbn [in_regs classes pick combine filter map fst snd Bool.eqb]. rewrite app_nil_r.
  unfold va_arg. cbn [reg_class Z.eqb Pos.eqb]. unfold va_arg_gp. cbn [gp_offset ap_of reg_save_area].
  destruct (Nat.ltb_spec (length (fr_gp fr)) 6) as [Hlt | Hge]; intros Hext.
  - destruct Hext as (g & _ & _ & Eg & _ & _). rewrite (proj2 (Z.leb_gt 48 _)) by lia.
    cbn [load words fr_gp] in *. rewrite (load_area_gp _ _ Hlt), Eg, nth_error_mid. cbn [option_map]. f_equal.
    unfold ap_of. cbn [fr_gp fr_fp fr_stk]. rewrite app_length, Nat2Z.inj_add. cbn [length]. f_equal; lia.
  - rewrite (proj2 (Z.leb_le 48 _)) by lia. apply mem_step; [reflexivity..|exact Hext].
Qed.

Lemma step_flt fr fin v : length v = 1%nat -> ext (pass_one fr (VFlt, v)) fin -> delivered fr fin VFlt v.
Proof.
  destruct v as [|x [|y v]]; try discriminate. intros _. unfold delivered.
  rewrite pass_one_eq. cbn [in_regs classes pick combine filter map fst snd Bool.eqb]. rewrite app_nil_r.
  unfold va_arg. cbn [reg_class Z.eqb Pos.eqb]. unfold va_arg_fp. cbn [fp_offset ap_of reg_save_area].
  destruct (Nat.ltb_spec (length (fr_fp fr)) 8) as [Hlt | Hge]; intros Hext.
  - destruct Hext as (_ & f & _ & _ & Ef & _). rewrite (proj2 (Z.leb_gt 176 _)) by lia.
    cbn [load words fr_fp] in *. rewrite (load_area_fp _ _ Hlt), Ef, nth_error_mid. cbn [option_map]. f_equal.
    unfold ap_of. cbn [fr_gp fr_fp fr_stk]. rewrite app_length, Nat2Z.inj_add. cbn [length]. f_equal; lia.
  - rewrite (proj2 (Z.leb_le 176 _)) by lia. apply mem_step; [reflexivity..|exact Hext].
Qed.

Lemma step_big fr fin w v : length v = w -> ext (pass_one fr (VBig w, v)) fin -> delivered fr fin (VBig w) v.
Proof. intros Hl Hext. apply mem_step; [reflexivity|exact Hl|exact Hext]. Qed.

Section Walk.
Variable allowed : vty -> Prop.
Hypothesis step : forall fr fin t v, allowed t -> length v = words t -> regs_ok fr ->
  ext (pass_one fr (t, v)) fin -> delivered fr fin t v.

Lemma walk vs : forall fr fin, Forall (fun a => allowed (fst a)) vs -> wf_args vs -> regs_ok fr ->
  fin = pass_args fr vs ->
  fst (va_args fin (ap_of fr) (map fst vs)) = map (fun a => Some (snd a)) vs.
Proof.
  induction vs as [|[t v] r IH]; intros fr fin Hal Hwf Hok ->; [reflexivity|].
  inversion_clear Hal as [|? ? Ha Hal']. inversion_clear Hwf as [|? ? Hl Hwf']. cbn [fst snd] in Ha, Hl.
  change (pass_args fr ((t, v) :: r)) with (pass_args (pass_one fr (t, v)) r). cbn [map va_args fst].
  rewrite (step fr _ t v Ha Hl Hok (pass_args_ext r _)).
  specialize (IH (pass_one fr (t, v)) _ Hal' Hwf' (pass_one_ok fr (t, v) Hl Hok) eq_refl).
  destruct (va_args _ _ _) as [xs ap2]. cbn [fst] in *. rewrite IH. reflexivity.
Qed.

Theorem delivers_allowed named variadic :
  wf_args named -> wf_args variadic -> Forall (fun a => allowed (fst a)) variadic ->
  delivers (call_reads named variadic) variadic.
Proof.
  intros Hn Hv Hal. unfold delivers, call_reads.
  rewrite (va_start_is_ap_of named Hn).
  apply walk; auto.
  - apply pass_args_ok; auto. unfold regs_ok, frame0. cbn. lia.
  - unfold pass_args. now rewrite fold_left_app.
Qed.
End Walk.

Definition scalar (t : vty) : Prop := t = VInt \/ t = VFlt.
Definition scalar_or_big (t : vty) : Prop := t = VInt \/ t = VFlt \/ exists w, t = VBig w.

Theorem vararg_scalars_memstructs_delivered named variadic :
  wf_args named -> wf_args variadic -> Forall (fun a => scalar_or_big (fst a)) variadic ->
  delivers (call_reads named variadic) variadic.
Proof.
  apply delivers_allowed. intros fr fin t v [-> | [-> | [w ->]]] Hl _.
  - apply step_int, Hl.
  - apply step_flt, Hl.
  - apply step_big, Hl.
Qed.

(* a long double that lands on an even stack word is delivered, e.g. as the first stack argument
   (push_args packs stack arguments 8-byte wise, __va_arg_mem aligns the overflow pointer to 16) *)
Example vararg_long_double_even :
  call_reads [(VInt, [1])] [(VLdbl, [2; 3]); (VInt, [4]); (VLdbl, [5; 6])] = [Some [2; 3]; Some [4]; Some [5; 6]].
Proof. vm_compute. reflexivity. Qed.
