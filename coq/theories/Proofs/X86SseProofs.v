(* Facts about the SSE instructions of Model/X86Sse.v against the operations of Spec/C11Float.v:
   equality up to the choice of NaN ([feq]) is a congruence for every operation, so the NaN rule of
   the hardware (X86Sse) and the NaN choice of the specification (Flocq's default) never matter;
   the bit-level instructions (xor with the sign bit, replacing the low lane, movq) do what the
   floating-point reading says, for every bit pattern. *)
From Coq Require Import ZArith Bool List Lia.
From Flocq Require Import Core Binary Bits.
From Chibicc Require Import Spec.C11Int Spec.C11Float Spec.C11LDouble Model.X86Int Model.X86Sse.
Local Open Scope Z_scope.

Lemma feq_refl {p e} (x : binary_float p e) : feq x x. Proof. reflexivity. Qed.
Lemma feq_sym {p e} (x y : binary_float p e) : feq x y -> feq y x. Proof. unfold feq. congruence. Qed.
Lemma feq_trans {p e} (x y z : binary_float p e) : feq x y -> feq y z -> feq x z. Proof. unfold feq. congruence. Qed.

Lemma feq_nan {p e} (x y : binary_float p e) : is_nan p e x = true -> is_nan p e y = true -> feq x y.
Proof. destruct x, y; try discriminate. reflexivity. Qed.

Lemma feq_is_nan {p e} (x y : binary_float p e) : feq x y -> is_nan p e x = is_nan p e y.
Proof. unfold feq. destruct x, y; cbn; congruence. Qed.

Lemma feq_exact {p e} (x y : binary_float p e) : feq x y -> is_nan p e y = false -> x = y.
Proof.
  unfold feq. destruct x as [s|s|s pl H|s m ex H], y as [s'|s'|s' pl' H'|s' m' ex' H']; cbn; intros E N; try discriminate; try congruence.
  (* left: both finite, the same sign, mantissa and exponent with two proofs of boundedness *)
  inversion E; subst. f_equal. apply eqbool_irrelevance.
Qed.

Lemma feq_iff {p e} (x y : binary_float p e) : feq x y <-> (x = y \/ (is_nan p e x = true /\ is_nan p e y = true)).
Proof.
  split.
  - intros H. destruct (is_nan p e y) eqn:N.
    + right. split; [rewrite (feq_is_nan _ _ H); exact N|reflexivity].
    + left. apply feq_exact; assumption.
  - intros [-> | [A B]]; [reflexivity|apply feq_nan; assumption].
Qed.

Lemma feq_map2 {p e p' e'} (f g : binary_float p e -> binary_float p' e') :
  (forall x, is_nan p e x = true -> is_nan p' e' (f x) = true /\ is_nan p' e' (g x) = true) ->
  (forall x, is_nan p e x = false -> f x = g x) -> forall x x', feq x x' -> feq (f x) (g x').
Proof.
  intros Hn Hfg x x' H. destruct (is_nan p e x') eqn:N.
  - apply feq_nan; [apply (Hn x); rewrite (feq_is_nan _ _ H); exact N|apply (Hn x'), N].
  - rewrite (feq_exact _ _ H N). rewrite (Hfg x' N). apply feq_refl.
Qed.
Lemma feq_map {p e p' e'} (f : binary_float p e -> binary_float p' e') :
  (forall x, is_nan p e x = true -> is_nan p' e' (f x) = true) -> forall x x', feq x x' -> feq (f x) (f x').
Proof. intros Hf. apply feq_map2; [intros x N; split; apply Hf, N|reflexivity]. Qed.

(* into long double every NaN becomes the same one: values equal up to the choice of NaN arrive equal *)
Lemma l_of_fp_eq {p e} (x x' : binary_float p e) : feq x x' -> l_of_fp x = l_of_fp x'.
Proof. intros H. apply feq_iff in H as [-> | [A B]]; [reflexivity|]. destruct x, x'; try discriminate. reflexivity. Qed.
Lemma l_of_fp_feq {p e} (x x' : binary_float p e) : feq x x' -> feq (l_of_fp x) (l_of_fp x').
Proof. intros H. rewrite (l_of_fp_eq x x' H). apply feq_refl. Qed.
Lemma s_of_l_feq x x' : feq x x' -> feq (s_of_l x) (s_of_l x').
Proof. apply feq_map. intros [] N; try discriminate N; reflexivity. Qed.
Lemma d_of_l_feq x x' : feq x x' -> feq (d_of_l x) (d_of_l x').
Proof. apply feq_map. intros [] N; try discriminate N; reflexivity. Qed.
Lemma opp_l_feq a a' : feq a a' -> feq (opp_l a) (opp_l a').
Proof. apply feq_map. intros [] N; try discriminate N; reflexivity. Qed.

Lemma lane32_range x : 0 <= lane32 x < 2 ^ 32. Proof. unfold lane32. apply Z.mod_pos_bound. reflexivity. Qed.
Lemma lane64_range x : 0 <= lane64 x < 2 ^ 64. Proof. unfold lane64. apply Z.mod_pos_bound. reflexivity. Qed.
Lemma lane32_small x : 0 <= x < 2 ^ 32 -> lane32 x = x. Proof. intros H. unfold lane32. apply Z.mod_small. exact H. Qed.
Lemma lane64_small x : 0 <= x < 2 ^ 64 -> lane64 x = x. Proof. intros H. unfold lane64. apply Z.mod_small. exact H. Qed.
Lemma lane32_lane64 x : lane32 (lane64 x) = lane32 x.
Proof.
  unfold lane32, lane64. symmetry. apply Znumtheory.Zmod_div_mod; [reflexivity|reflexivity|].
  exists (2 ^ 32). reflexivity.
Qed.
Lemma lane64_idem x : lane64 (lane64 x) = lane64 x. Proof. apply lane64_small, lane64_range. Qed.
Lemma lane32_idem x : lane32 (lane32 x) = lane32 x. Proof. apply lane32_small, lane32_range. Qed.

Lemma lane64_upper old : exists q, lane64 old - lane32 old = 2 ^ 32 * q /\ 0 <= q < 2 ^ 32.
Proof.
  rewrite <- (lane32_lane64 old). pose proof (lane64_range old) as A. unfold lane32. set (o := lane64 old) in *.
  exists (o / 2 ^ 32). change (2 ^ 64) with (2 ^ 32 * 2 ^ 32) in A.
  split; [rewrite (Z.div_mod o (2 ^ 32)) at 1 by discriminate; ring|].
  split; [apply Z.div_pos; lia|apply Z.div_lt_upper_bound; lia].
Qed.
Lemma put32_range old new : 0 <= put32 old new < 2 ^ 64.
Proof.
  unfold put32. destruct (lane64_upper old) as (q & -> & Hq). pose proof (lane32_range new).
  change (2 ^ 64) with (2 ^ 32 * 2 ^ 32). lia.
Qed.
Lemma lane32_put32 old new : lane32 (put32 old new) = lane32 new.
Proof.
  unfold put32. destruct (lane64_upper old) as (q & -> & _). unfold lane32.
  rewrite Z.add_comm, Z.mul_comm, Z.mod_add by discriminate. apply Z.mod_mod. discriminate.
Qed.

Lemma bits32_range (x : binary32) : 0 <= bits_of_b32 x < 2 ^ 32.
Proof. apply (bits_of_binary_float_range 23 8); reflexivity. Qed.
Lemma bits64_range (x : binary64) : 0 <= bits_of_b64 x < 2 ^ 64.
Proof. apply (bits_of_binary_float_range 52 11); reflexivity. Qed.
Lemma b32_bits (x : binary32) : b32_of_bits (bits_of_b32 x) = x.
Proof. apply (binary_float_of_bits_of_binary_float 23 8). Qed.
Lemma b64_bits (x : binary64) : b64_of_bits (bits_of_b64 x) = x.
Proof. apply (binary_float_of_bits_of_binary_float 52 11). Qed.
Lemma bits_b32 b : 0 <= b < 2 ^ 32 -> bits_of_b32 (b32_of_bits b) = b.
Proof. intros H. apply (bits_of_binary_float_of_bits 23 8). exact H. Qed.
Lemma bits_b64 b : 0 <= b < 2 ^ 64 -> bits_of_b64 (b64_of_bits b) = b.
Proof. intros H. apply (bits_of_binary_float_of_bits 52 11). exact H. Qed.

(* reading a float / double from a register after it was written: [with_x0] stores [lane64 v], and the ss forms write
   [put32 old (bits_of_b32 r)], the sd forms [bits_of_b64 r] *)
Lemma f32_lane64 v : f32 (lane64 v) = f32 v. Proof. unfold f32. rewrite lane32_lane64. reflexivity. Qed.
Lemma f64_lane64 v : f64 (lane64 v) = f64 v. Proof. unfold f64. rewrite lane64_idem. reflexivity. Qed.
Lemma f32_put32 old (r : binary32) : f32 (put32 old (bits_of_b32 r)) = r.
Proof. unfold f32. rewrite lane32_put32, (lane32_small _ (bits32_range r)). apply b32_bits. Qed.
Lemma f64_bits (r : binary64) : f64 (bits_of_b64 r) = r.
Proof. unfold f64. rewrite (lane64_small _ (bits64_range r)). apply b64_bits. Qed.
Lemma f32_put old (r : binary32) : f32 (lane64 (put32 old (bits_of_b32 r))) = r.
Proof. rewrite f32_lane64. apply f32_put32. Qed.
Lemma f64_put (r : binary64) : f64 (lane64 (bits_of_b64 r)) = r.
Proof. rewrite f64_lane64. apply f64_bits. Qed.
Lemma f32_bits_lane (r : binary32) : f32 (lane64 (bits_of_b32 r)) = r.
Proof. rewrite f32_lane64. unfold f32. rewrite (lane32_small _ (bits32_range r)). apply b32_bits. Qed.

(* + - * / of a format under a choice of NaN: [arith32], [arith64], [X87.arith80] and, at the operators that have a [fop], the
   specification's [arith_s], [arith_d], [arith_l] are instances.  The choice of NaN - the x86 rule, Flocq's default - does not
   matter up to [feq]. *)
Definition barith {p e} Hp He nan (f : fop) : binary_float p e -> binary_float p e -> binary_float p e :=
  match f with
  | FAdd => Bplus p e Hp He nan mode_NE | FSub => Bminus p e Hp He nan mode_NE
  | FMul => Bmult p e Hp He nan mode_NE | FDiv => Bdiv p e Hp He nan mode_NE
  end.
Lemma barith_feq {p e} Hp He nan nan' f (a a' b b' : binary_float p e) : feq a a' -> feq b b' ->
  feq (barith Hp He nan f a b) (barith Hp He nan' f a' b').
Proof. unfold feq, barith, Bplus, Bminus, Bmult, Bdiv. intros Ha Hb. destruct f; rewrite !B2BSN_BSN2B, Ha, Hb; reflexivity. Qed.
Lemma arith32_barith f : arith32 f = barith xprec32 xemax32 x86_nan32 f. Proof. destruct f; reflexivity. Qed.
Lemma arith64_barith f : arith64 f = barith xprec64 xemax64 x86_nan64 f. Proof. destruct f; reflexivity. Qed.

Lemma compare_feq {p e} (a a' b b' : binary_float p e) : feq a a' -> feq b b' -> Bcompare p e a b = Bcompare p e a' b'.
Proof. unfold feq, Bcompare. intros -> ->. reflexivity. Qed.
Lemma is_zero_feq {p e} (a a' : binary_float p e) : feq a a' -> is_zero a = is_zero a'.
Proof. intros H. unfold is_zero. rewrite (compare_feq a a' _ _ H (feq_refl _)). reflexivity. Qed.

Lemma opp32_feq a a' : feq a a' -> feq (b32_opp a) (b32_opp a').
Proof. apply feq_map. intros [] N; try discriminate N. apply is_nan_build_nan. Qed.
Lemma opp64_feq a a' : feq a a' -> feq (b64_opp a) (b64_opp a').
Proof. apply feq_map. intros [] N; try discriminate N. apply is_nan_build_nan. Qed.

(* what xor with the sign bit does to the datum; unlike [Bopp] it leaves the payload of a NaN alone *)
Definition flip {p e} (x : binary_float p e) : binary_float p e :=
  match x with
  | B754_zero _ _ s => B754_zero p e (negb s)
  | B754_infinity _ _ s => B754_infinity p e (negb s)
  | B754_nan _ _ s pl H => B754_nan p e (negb s) pl H
  | B754_finite _ _ s m ex H => B754_finite p e (negb s) m ex H
  end.
Lemma flip_opp {p e} nan (x : binary_float p e) : feq (flip x) (Bopp p e nan x).
Proof. destruct x; reflexivity. Qed.
Lemma flip_opp32 x : feq (flip x) (b32_opp x). Proof. apply flip_opp. Qed.
Lemma flip_opp64 x : feq (flip x) (b64_opp x). Proof. apply flip_opp. Qed.
Lemma flip_sign {p e} (x : binary_float p e) : Bsign p e (flip x) = negb (Bsign p e x). Proof. destruct x; reflexivity. Qed.

Lemma lxor_bit_clear v k : 0 <= k -> 0 <= v < 2 ^ k -> Z.lxor v (2 ^ k) = v + 2 ^ k.
Proof.
  intros Hk Hv. symmetry. apply Z.add_nocarry_lxor.
  apply Z.bits_inj'. intros n Hn. rewrite Z.land_spec, Z.bits_0, Z.pow2_bits_eqb by assumption.
  destruct (Z.eqb_spec k n) as [->|Hne]; [|apply andb_false_r].
  rewrite <- (Z.mod_small v (2 ^ n)) by assumption. rewrite Z.mod_pow2_bits_high by lia. reflexivity.
Qed.
Lemma lxor_bit_set v k : 0 <= k -> 0 <= v < 2 ^ k -> Z.lxor (v + 2 ^ k) (2 ^ k) = v.
Proof.
  intros Hk Hv. rewrite <- (lxor_bit_clear v k Hk Hv). rewrite Z.lxor_assoc, Z.lxor_nilpotent. apply Z.lxor_0_r.
Qed.

Lemma join_bits_flip mw ew s m e : 0 <= mw -> 0 <= ew ->
  0 <= join_bits mw ew s m e < 2 ^ (mw + ew + 1) -> 0 <= join_bits mw ew (negb s) m e < 2 ^ (mw + ew + 1) ->
  Z.lxor (join_bits mw ew s m e) (2 ^ (mw + ew)) = join_bits mw ew (negb s) m e.
Proof.
  intros Hm He. assert (S : join_bits mw ew true m e = join_bits mw ew false m e + 2 ^ (mw + ew)).
  { unfold join_bits. rewrite !Z.shiftl_mul_pow2, (Z.add_comm mw ew), Z.pow_add_r by assumption. ring. }
  replace (2 ^ (mw + ew + 1)) with (2 * 2 ^ (mw + ew)) by (rewrite (Z.pow_add_r 2 (mw + ew) 1) by lia; ring).
  destruct s; cbn [negb]; rewrite S; intros R1 R2; [apply lxor_bit_set|apply lxor_bit_clear]; lia.
Qed.
(* xorps / xorpd with the sign bit: the pattern of x becomes the pattern of [flip x], for every x of every format *)
Lemma xor_sign mw ew (Hmw : 0 < mw) (Hew : 0 < ew) x :
  Z.lxor (bits_of_binary_float mw ew x) (2 ^ (mw + ew)) = bits_of_binary_float mw ew (flip x).
Proof.
  pose proof (bits_of_binary_float_range mw ew Hmw Hew x) as R1. pose proof (bits_of_binary_float_range mw ew Hmw Hew (flip x)) as R2.
  destruct x as [s|s|s pl H|s m ex H]; unfold bits_of_binary_float, flip in *;
    [| | |destruct (0 <=? Z.pos m - 2 ^ mw)]; apply join_bits_flip; (assumption || lia).
Qed.

(* so for every bit pattern: flipping bit 31 / 63 is negation (sign flip, also of zeros, infinities and NaNs) *)
Lemma neg_bits mw ew Hmw Hew Hmax b : 0 <= b < 2 ^ (mw + ew + 1) ->
  0 <= Z.lxor b (2 ^ (mw + ew)) < 2 ^ (mw + ew + 1) /\
  binary_float_of_bits mw ew Hmw Hew Hmax (Z.lxor b (2 ^ (mw + ew))) = flip (binary_float_of_bits mw ew Hmw Hew Hmax b).
Proof.
  intros Hb. pose proof (xor_sign mw ew Hmw Hew (binary_float_of_bits mw ew Hmw Hew Hmax b)) as X.
  rewrite (bits_of_binary_float_of_bits mw ew Hmw Hew Hmax b Hb) in X. rewrite X.
  split; [apply bits_of_binary_float_range; assumption|apply binary_float_of_bits_of_binary_float].
Qed.
Lemma neg_bits32 b : 0 <= b < 2 ^ 32 ->
  0 <= Z.lxor b (2 ^ 31) < 2 ^ 32 /\ b32_of_bits (Z.lxor b (2 ^ 31)) = flip (b32_of_bits b).
Proof. apply (neg_bits 23 8). Qed.
Lemma neg_bits64 b : 0 <= b < 2 ^ 64 ->
  0 <= Z.lxor b (2 ^ 63) < 2 ^ 64 /\ b64_of_bits (Z.lxor b (2 ^ 63)) = flip (b64_of_bits b).
Proof. apply (neg_bits 52 11). Qed.

Lemma cvtsi2ss_spec z : cvtsi2ss z = s_of_int z. Proof. reflexivity. Qed.
Lemma cvtsi2sd_spec z : cvtsi2sd z = d_of_int z. Proof. reflexivity. Qed.

Lemma cvtss2sd_feq x x' : feq x x' -> feq (cvtss2sd x) (d_of_s x').
Proof.
  apply feq_map2.
  - intros [] N; try discriminate N. split; [apply (proj2_sig (nan64_of_bits _))|apply (proj2_sig default_nan_pl64)].
  - intros [] N; try discriminate N; reflexivity.
Qed.
Lemma cvtsd2ss_feq x x' : feq x x' -> feq (cvtsd2ss x) (s_of_d x').
Proof.
  apply feq_map2.
  - intros [] N; try discriminate N. split; [apply (proj2_sig (nan32_of_bits _))|apply (proj2_sig default_nan_pl32)].
  - intros [] N; try discriminate N; reflexivity.
Qed.

(* cvttss2si / cvttsd2si: when C defines the conversion and the integral part fits the destination register,
   the register receives it (two's complement) *)
Lemma cvtt_int_part {p e} (w : opsz) (y x : binary_float p e) z :
  feq y x -> int_part x = Some z -> - 2 ^ (bits w - 1) <= z < 2 ^ (bits w - 1) -> cvtt w y = z mod 2 ^ bits w.
Proof.
  intros H I Rz.
  assert (N : is_nan p e x = false) by (destruct x; try reflexivity; discriminate).
  rewrite (feq_exact _ _ H N). clear H N y.
  assert (C : (- 2 ^ (bits w - 1) <=? z) && (z <? 2 ^ (bits w - 1)) = true).
  { apply andb_true_intro. split; [apply Z.leb_le|apply Z.ltb_lt]; lia. }
  destruct x as [s|s|s pl H|s m ex H]; try discriminate; cbn [int_part] in I; injection I as <-; unfold cvtt.
  - change (Btrunc p e (B754_zero p e s)) with 0 in *. rewrite C. reflexivity.
  - rewrite C. reflexivity.
Qed.

Lemma byte_replace r c : 0 <= c < 256 -> (r - r mod 256 + c) mod 256 = c.
Proof. intros H. Z.div_mod_to_equations. lia. Qed.

Lemma al_set_al s b : al (set_al s b) = b2z b.
Proof. unfold al, set_al, set_rax. cbn [rax]. apply byte_replace. destruct b; cbn; lia. Qed.
Lemma dl_set_al s b : dl (set_al s b) = dl s. Proof. reflexivity. Qed.
Lemma dl_set_dl s b : dl (set_dl s b) = b2z b.
Proof. unfold dl, set_dl, set_rdx. cbn [rdx]. apply byte_replace. destruct b; cbn; lia. Qed.
Lemma al_set_dl s b : al (set_dl s b) = al s. Proof. reflexivity. Qed.
Lemma al_logic_al s r : 0 <= r < 256 -> al (logic_al s r) = r.
Proof. intros H. unfold al at 1, logic_al, set_flags, set_rax. cbn [rax]. unfold al. apply byte_replace. exact H. Qed.

Lemma set_al_range s b : 0 <= rax s < 2 ^ 64 -> 0 <= rax (set_al s b) < 2 ^ 64.
Proof.
  intros H. unfold set_al, set_rax. cbn [rax]. assert (0 <= (if b then 1 else 0) < 256) by (destruct b; lia).
  change (2 ^ 64) with (2 ^ 56 * 256) in *. Z.div_mod_to_equations. lia.
Qed.
Lemma land_bits a b : Z.land (b2z a) (b2z b) = b2z (a && b). Proof. destruct a, b; reflexivity. Qed.
Lemma lor_bits a b : Z.lor (b2z a) (b2z b) = b2z (a || b). Proof. destruct a, b; reflexivity. Qed.
Lemma land_bit1 a : Z.land (b2z a) 1 = b2z a. Proof. destruct a; reflexivity. Qed.
Lemma b2z_byte a : 0 <= b2z a < 256. Proof. destruct a; cbn; lia. Qed.
Lemma b2z_eq1 a : (b2z a =? 1) = a. Proof. destruct a; reflexivity. Qed.
