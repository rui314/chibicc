From Chibicc Require Import Base.Mach Model.LineDir.
Local Open Scope Z_scope.

(* without a directive every text line reports its physical line *)
Theorem no_directive_physical : forall f l, has_dir f = false ->
  forall k, nth_error (impl_lines 0 l f) k = Some (Some (l + Z.of_nat k)) \/ nth_error (impl_lines 0 l f) k = None.
Proof.
  induction f as [|[n|] r IH]; intros l H k; cbn in *; try discriminate.
  - right. destruct k; reflexivity.
  - destruct k as [|k]; cbn; [left; f_equal; f_equal; lia|].
    destruct (IH (l + 1) H k) as [E|E]; [left; rewrite E; f_equal; f_equal; lia|right; exact E].
Qed.

Theorem no_directive_spec : forall f d l, has_dir f = false -> impl_lines d l f = spec_lines d l f.
Proof. induction f as [|[n|] r IH]; intros d l H; cbn in *; try discriminate; [reflexivity|]. f_equal. apply IH. exact H. Qed.

(* where the implementation's delta is one more than the specification's it stays so - a later directive sets
   n - l against n - (l + 1) - and every line reported is one more than C11 requires *)
Lemma after_dir : forall f d l k v, nth_error (impl_lines (d + 1) l f) k = Some (Some v) ->
  nth_error (spec_lines d l f) k = Some (Some (v - 1)).
Proof.
  induction f as [|[n|] r IH]; intros d l k v H; destruct k as [|k]; cbn in *; try discriminate.
  - replace (n - l) with ((n - (l + 1)) + 1) in H by lia. eapply IH. exact H.
  - injection H as <-. f_equal. f_equal. lia.
  - eapply IH. exact H.
Qed.

Theorem directive_off_by_one : forall f d l n k v,
  nth_error (impl_lines d l (Dir n :: f)) (S k) = Some (Some v) ->
  nth_error (spec_lines d l (Dir n :: f)) (S k) = Some (Some (v - 1)).
Proof.
  intros f d l n k v H. cbn in *. replace (n - l) with ((n - (l + 1)) + 1) in H by lia. eapply after_dir. exact H.
Qed.

(* an instance: the line after `#line 500` is reported as 501, C11 6.10.4p3 says 500 (chibicc does the same:
   known finding C18-line-directive) *)
Theorem directive_refuted : impl_lines 0 1 [Dir 500; Text] = [None; Some 501] /\ spec_lines 0 1 [Dir 500; Text] = [None; Some 500].
Proof. split; reflexivity. Qed.
