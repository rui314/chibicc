(* rehash moves the live entries into a fresh table that they fill below LOW_WATERMARK: no insertion on the way
   reaches rehash again, and since keys are stored once the count the refill arrives at is the number of live
   entries ([assert(map2.used == nkeys)]).  With that, put keeps [Rep], and a history of operations is a chain of
   [Rep] along the dictionary specification ([run_refines]). *)
From Coq Require Import List NArith Bool Lia.
From Chibicc Require Import Model.Hashmap Proofs.HashmapWalk Proofs.HashmapInv.
Import ListNotations.
Local Open Scope N_scope.

Lemma le_mul_pow2 c i : c <= c * 2 ^ i.
Proof.
  rewrite <- (N.mul_1_r c) at 1. apply N.mul_le_mono_l.
  pose proof (N.pow_nonzero 2 i). lia.
Qed.

Section Refine.
Variable K V : Type.
Variable keqb : K -> K -> bool.
Hypothesis keqb_eq : forall a b, keqb a b = true <-> a = b.
Variable hash : K -> N.
Variable P : hm_params.
Hypothesis Pok : params_ok P.

Notation slot := (slot K V).
Notation hmap := (hmap K V).
Notation probe := (probe K V keqb hash).
Notation WInv := (WInv K V keqb hash).
Notation absf := (absf K V keqb hash).
Notation upd := (upd K V keqb).
Notation Inv := (Inv K V keqb hash P).
Notation capacity_ok := (capacity_ok K V P).
Notation Rep := (Rep K V keqb hash P).

Definition dict := K -> option V.

Lemma grow_S f nkeys cap : 1 <= cap ->
  grow P (S f) nkeys cap =
  if low_wm P * cap <=? nkeys * 100
  then if int_max1 <=? cap * 2 then Crash IntOverflow else grow P f nkeys (cap * 2)
  else Ok cap.
Proof. intros Hc. cbn [grow]. rewrite leb_div by lia. reflexivity. Qed.

(* Doubling stops, before the fuel runs out and before [int] overflows, at a capacity the
   keys fill below LOW_WATERMARK: [low_wm >= 1] bounds the capacity by [nkeys * 100]. *)
Lemma grow_ok nkeys : nkeys * 100 < 1073741824 ->
  forall f cap, 1 <= cap -> cap < int_max1 -> 1073741824 <= cap * 2 ^ (N.of_nat f) ->
  exists i, grow P (S f) nkeys cap = Ok (cap * 2 ^ i) /\
    nkeys * 100 < low_wm P * (cap * 2 ^ i) /\ cap * 2 ^ i < int_max1.
Proof.
  intros Hn. destruct Pok as (_ & _ & Hlow & _).
  assert (Hgo : forall cap, low_wm P * cap <= nkeys * 100 -> cap < 1073741824).
  { intros cap E. apply N.le_lt_trans with (nkeys * 100); [|exact Hn].
    apply N.le_trans with (low_wm P * cap); [|exact E].
    rewrite <- (N.mul_1_l cap) at 1. apply N.mul_le_mono_r, Hlow. }
  induction f as [|f IH]; intros cap Hcap Hlt Hbig; rewrite grow_S by assumption.
  (* with or without fuel left: the test ends the loop here (i = 0), or cap < 2^30 by Hgo *)
  all: destruct (N.leb_spec (low_wm P * cap) (nkeys * 100)) as [E|E];
         [apply Hgo in E | exists 0; rewrite N.pow_0_r, N.mul_1_r; auto].
  - simpl in Hbig. lia.
  - assert (Hcap2 : cap * 2 < int_max1) by (unfold int_max1; lia).
    rewrite (proj2 (N.leb_gt _ _) Hcap2).
    destruct (IH (cap * 2)) as (i & G & Hl & Hi); [lia | assumption | |].
    { rewrite Nat2N.inj_succ, N.pow_succ_r' in Hbig. lia. }
    exists (i + 1). replace (cap * 2 ^ (i + 1)) with (cap * 2 * 2 ^ i); auto.
    rewrite N.pow_add_r, N.pow_1_r, (N.mul_comm (2 ^ i)), N.mul_assoc. reflexivity.
Qed.

Lemma live_in (bs : list slot) k v :
  In (k, v) (live K V bs) <-> exists j, (j < length bs)%nat /\ nth j bs Empty = Full k v.
Proof.
  unfold live. rewrite in_flat_map. split.
  - intros [s [Hs Hin]].
    destruct s as [| |k' v']; [destruct Hin | destruct Hin | destruct Hin as [[= -> ->]|[]]].
    destruct (In_nth _ _ Empty Hs) as [j [Hj E]]. exists j. auto.
  - intros [j [Hj E]]. exists (Full k v). split; [|left; reflexivity]. rewrite <- E. apply nth_In; auto.
Qed.

Lemma live_nodup (bs : list slot) : WInv bs -> NoDup (map fst (live K V bs)).
Proof.
  intros HW.
  assert (H : forall j j' k v v', (j < length bs)%nat -> (j' < length bs)%nat ->
     nth j bs Empty = Full k v -> nth j' bs Empty = Full k v' -> j = j').
  { intros j j' k v v' Hj Hj' E E'.
    destruct (iw_unique K V keqb hash bs k j j' v v' (HW k) Hj Hj' E E'); auto. }
  clear HW. induction bs as [|s r IH]; simpl; [constructor|].
  assert (Hr : NoDup (map fst (live K V r))).
  { apply IH. intros j j' k v v' Hj Hj' E E'.
    assert (S j = S j') by (eapply (H (S j) (S j')); simpl; eauto; lia). lia. }
  destruct s as [| |k v]; simpl; auto.
  constructor; auto. intros Hin. apply in_map_iff in Hin as [[k' v'] [Hk Hin]]. simpl in Hk; subst k'.
  apply live_in in Hin as [j' [Hj' E']].
  assert (0%nat = S j') by (eapply (H 0%nat (S j')); simpl; eauto; lia). lia.
Qed.

Lemma live_absf (bs : list slot) k v :
  WInv bs -> (In (k, v) (live K V bs) <-> absf bs k = Some v).
Proof. intros HW. rewrite live_in, (absf_some K V keqb keqb_eq hash) by auto. reflexivity. Qed.

(* keys are stored once, so a table whose dictionary extends another's holds as many entries *)
Lemma live_length_mono (bs bs' : list slot) :
  WInv bs -> WInv bs' -> (forall x v, absf bs x = Some v -> absf bs' x = Some v) ->
  (length (live K V bs) <= length (live K V bs'))%nat.
Proof.
  intros HW HW' H. rewrite <- (map_length fst (live K V bs)), <- (map_length fst (live K V bs')).
  apply NoDup_incl_length; [apply live_nodup, HW|].
  apply incl_map. intros [x v]. rewrite !live_absf by auto. apply H.
Qed.

Lemma live_le_used m : Inv m -> N.of_nat (length (live K V (buckets m))) <= used m.
Proof.
  intros [_ -> _]. induction (buckets m) as [|s r IH]; [apply N.le_refl|].
  rewrite cnt_cons. destruct s; simpl; lia.
Qed.

(* re-inserting the live entries into the fresh array *)
Notation refill := (fold_left (fun acc kv => bind acc (fun m2 => put_fresh K V keqb hash P m2 kv))).

Lemma refill_ok : forall lv m2,
  Inv m2 -> capacity_ok m2 ->
  NoDup (map fst lv) -> (forall k, In k (map fst lv) -> absf (buckets m2) k = None) ->
  (used m2 + N.of_nat (length lv)) * 100 < low_wm P * capacity m2 ->
  (used m2 + N.of_nat (length lv)) * 100 < 1073741824 ->
  exists m3, refill lv (Ok m2) = Ok m3 /\
    Inv m3 /\ capacity_ok m3 /\ used m3 <= used m2 + N.of_nat (length lv) /\
    capacity m3 = capacity m2 /\
    (forall x v, absf (buckets m3) x = Some v <-> absf (buckets m2) x = Some v \/ In (x, v) lv).
Proof.
  induction lv as [|[k v] lv IH]; intros m2 HI Hs Hnd Habs Hload Hbound.
  - exists m2. simpl. rewrite N.add_0_r. repeat apply conj; auto using N.le_refl.
    split; [auto | intros [|[]]; auto].
  - simpl length in Hload, Hbound |- *. rewrite Nat2N.inj_succ in Hload, Hbound |- *.
    inversion Hnd as [|? ? Hni Hnd']; subst.
    pose proof (capacity_ok_used _ _ _ _ Hs) as Hu.
    assert (Hhigh : used m2 * 100 < high_wm P * capacity m2) by (apply below_low_below_high; auto; lia).
    (* filled below LOW_WATERMARK, the fresh table stays under the load test: no nested rehash *)
    assert (Hpf : put_fresh K V keqb hash P m2 (k, v) = insert_nr K V keqb hash m2 k v).
    { unfold put_fresh. rewrite no_overflow, leb_div by lia.
      rewrite (proj2 (N.leb_gt _ _) Hhigh). reflexivity. }
    destruct (insert_ok K V keqb keqb_eq hash P Pok m2 _ k v (inv_rep _ _ _ _ _ m2 HI) Hs Hhigh)
      as (m' & Hins & [HI' Hupd] & Hs' & Hu1 & Hcap).
    cbn [fold_left bind]. rewrite Hpf, Hins.
    destruct (IH m') as (m3 & Hre & HI3 & Hs3 & Hu3 & Hc3 & Hab3); auto.
    + intros k' Hk'. rewrite Hupd, (upd_neq K V keqb keqb_eq) by (intros ->; auto).
      apply Habs; simpl; auto.
    + rewrite Hcap. lia.
    + lia.
    + exists m3. repeat apply conj; auto; [lia | congruence |].
      intros x w. rewrite Hab3, Hupd, (upd_fresh K V keqb keqb_eq) by (apply Habs; simpl; auto).
      simpl. apply or_assoc.
Qed.

Lemma rehash_ok m d :
  Rep m d -> capacity_ok m -> used m * 100 < 1073741824 ->
  exists m2, rehash K V keqb hash P m = Ok m2 /\ Rep m2 d /\ capacity_ok m2 /\
    used m2 <= used m /\ used m2 * 100 < low_wm P * capacity m2.
Proof.
  intros [HI Hd] (a & E1 & E2 & E3 & E4) Hbound. pose proof (I_w _ _ _ _ _ _ HI) as HW.
  unfold rehash.
  set (lv := live K V (buckets m)). set (nkeys := N.of_nat (length lv)).
  pose proof (live_le_used m HI) as Hnk. fold lv nkeys in Hnk.
  assert (Hnb : nkeys * 100 < 1073741824) by lia.
  rewrite no_overflow by exact Hnb.
  (* rehash gives [grow] the fuel 64: 63 doublings take any capacity >= 1 beyond 2^30 *)
  destruct (grow_ok nkeys Hnb 63%nat (capacity m)) as (i & G & Hl & Hci);
    [lia | assumption | lia |].
  change (S 63) with 64%nat in G. rewrite G. cbn [bind].
  destruct (fresh_ok K V keqb keqb_eq hash P (capacity m * 2 ^ i)) as ([HI0 Hab0] & Hs0 & Hcap0).
  { exists (a + i). rewrite E1, N.pow_add_r. reflexivity. }
  { apply (N.le_trans _ _ _ E2), le_mul_pow2. }
  { exact Hci. }
  destruct (refill_ok lv _ HI0 Hs0) as (m3 & Hre & HI3 & Hs3 & Hu3 & Hc3 & Hab3).
  - apply live_nodup, HW.
  - intros k _. apply Hab0.
  - rewrite Hcap0. exact Hl.
  - exact Hnb.
  - rewrite Hre. cbn [bind]. simpl in Hu3. fold nkeys in Hu3.
    pose proof (I_w _ _ _ _ _ _ HI3) as HW3.
    assert (Hab : forall x, absf (buckets m3) x = d x).
    { intros x. rewrite <- Hd. apply option_ext. intros v. rewrite Hab3, Hab0. unfold lv. rewrite live_absf by auto.
      split; [intros [|]; [discriminate | auto] | auto]. }
    (* assert(map2.used == nkeys): the refill counted each key at most once, and all are there *)
    assert (Hge : nkeys <= used m3).
    { pose proof (live_le_used m3 HI3).
      assert (Hl3 : (length lv <= length (live K V (buckets m3)))%nat).
      { apply live_length_mono; auto. intros x v. rewrite Hab, Hd. auto. }
      unfold nkeys. lia. }
    rewrite (proj2 (N.eqb_eq _ _) (N.le_antisymm _ _ Hu3 Hge)).
    exists m3. repeat apply conj; auto; lia.
Qed.

Lemma put_ok m d k v :
  Rep m d -> (used m + 1) * 100 < 1073741824 ->
  exists m', hm_put K V keqb hash P m k v = Ok m' /\ Rep m' (upd d k (Some v)) /\
    used m' <= used m + 1.
Proof.
  intros HR Hbound. pose proof HR as [HI Hd]. unfold hm_put.
  (* what remains once the table has room, whether it was allocated, rebuilt or left alone *)
  assert (Hstep : forall m1, Rep m1 d -> capacity_ok m1 -> used m1 <= used m ->
            used m1 * 100 < high_wm P * capacity m1 ->
            exists m', insert_nr K V keqb hash m1 k v = Ok m' /\ Rep m' (upd d k (Some v)) /\
              used m' <= used m + 1).
  { intros m1 HR1 Hs1 Hu1 Hload.
    destruct (insert_ok K V keqb keqb_eq hash P Pok m1 d k v HR1 Hs1 Hload)
      as (m' & Hins & HR' & _ & Hu & _).
    exists m'. split; [exact Hins|]. split; [exact HR' | lia]. }
  destruct (buckets m) as [|s bs'] eqn:Eb; cbn [bind].
  - assert (Hu0 : used m = 0) by (destruct HI as [_ -> _]; rewrite Eb; reflexivity).
    destruct Pok as (Hpow & Hi & _). rewrite Hu0 in *.
    destruct (fresh_ok K V keqb keqb_eq hash P (init_size P) Hpow (N.le_refl _) Hi)
      as ([HI0 Hab0] & Hs0 & Hcap0).
    apply Hstep; auto using N.le_refl.
    + split; [exact HI0|]. intros x. rewrite Hab0, <- Hd. reflexivity.
    + rewrite Hcap0. apply empty_below_high, Pok.
  - rewrite <- Eb in *.
    assert (Hs : capacity_ok m) by (apply (inv_capacity_ok _ _ _ _ _ _ HI); congruence).
    pose proof (capacity_ok_used _ _ _ _ Hs).
    rewrite no_overflow, leb_div by lia.
    destruct (N.leb_spec (high_wm P * capacity m) (used m * 100)) as [G|G]; cbn [bind].
    + destruct (rehash_ok m d HR Hs) as (m2 & -> & HR2 & Hs2 & Hu2 & Hl2); [lia|].
      cbn [bind]. apply Hstep; auto. apply below_low_below_high; auto.
    + apply Hstep; auto using N.le_refl.
Qed.

Notation op := (op K V).

Definition spec_step (d : dict) (o : op) : dict * option V :=
  match o with
  | Put k v => (upd d k (Some v), None)
  | Get k => (d, d k)
  | Del k => (upd d k None, None)
  end.

Fixpoint spec_run (d : dict) (ops : list op) : list (option V) :=
  match ops with
  | [] => []
  | o :: r => snd (spec_step d o) :: spec_run (fst (spec_step d o)) r
  end.

(* last-write-wins, stated per name *)
Definition lastw (k : K) (acc : option V) (o : op) : option V :=
  match o with
  | Put k' v => if keqb k k' then Some v else acc
  | Del k' => if keqb k k' then None else acc
  | Get _ => acc
  end.

Lemma spec_step_lastw d o k : fst (spec_step d o) k = lastw k (d k) o.
Proof. destruct o; reflexivity. Qed.

Lemma step_ok m d o :
  Rep m d -> (used m + 1) * 100 < 1073741824 ->
  exists m' out, (step K V keqb hash P m o = Ok (m', out) /\
    Rep m' (fst (spec_step d o)) /\ out = snd (spec_step d o)) /\
    used m' <= used m + 1.
Proof.
  intros HR Hb. destruct o as [k v|k|k]; cbn [step spec_step fst snd].
  - destruct (put_ok m d k v HR Hb) as (m' & -> & HR' & Hu). exists m', None. auto.
  - rewrite (get_ok K V keqb hash P m d k HR). exists m, (d k). auto using N.le_add_r.
  - destruct (delete_ok K V keqb keqb_eq hash P m d k HR) as (m' & -> & HR' & Hu).
    exists m', None. rewrite Hu. auto using N.le_add_r.
Qed.

Theorem run_refines : forall ops m d,
  Rep m d -> (used m + N.of_nat (length ops)) * 100 < 1073741824 ->
  exists m' outs, run K V keqb hash P m ops = Ok (m', outs) /\
    outs = spec_run d ops /\
    Rep m' (fun x => fold_left (lastw x) ops (d x)).
Proof.
  induction ops as [|o r IH]; intros m d HR Hb.
  - exists m, []. auto.
  - simpl length in Hb. rewrite Nat2N.inj_succ in Hb.
    destruct (step_ok m d o HR) as (m1 & out & (Hst & HR1 & Ho) & Hu); [lia|].
    destruct (IH m1 _ HR1) as (m' & outs & Hr & Ho' & HI' & Hf); [lia|].
    cbn [run]. rewrite Hst. cbn [bind fst snd]. rewrite Hr. cbn [bind fst snd].
    exists m', (out :: outs). repeat apply conj; auto.
    + simpl. rewrite Ho, Ho'. reflexivity.
    + intros x. rewrite Hf, spec_step_lastw. reflexivity.
Qed.

End Refine.
