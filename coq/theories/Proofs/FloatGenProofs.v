(* The code gen_expr composes for an expression tree over int / float / double operands computes the
   C11 value of the tree (Spec/C11Float.v), bit for bit except for the sign and payload of a NaN:
   by induction on the tree from the per-operator lemmas of Proofs/FloatOpsProofs.v, whose head says what the
   theorem amounts to, the arithmetic being Flocq's on both sides; what the induction itself checks is that
   gen_expr puts around every node the conversions C11 prescribes there. *)
From Coq Require Import ZArith Bool List Lia.
From Flocq Require Import Core Binary Bits.
From Chibicc Require Import Base.Mach Spec.C11Int Spec.C11Float Model.X86Int Model.CodegenInt Gen.CastTable
     Model.ConstFold Proofs.ConstFoldProofs Proofs.CastTableProofs Proofs.CodegenIntProofs
     Model.X86Sse Model.FloatGen Proofs.X86SseProofs Proofs.X86SseRowsProofs Proofs.FloatOpsProofs.
Local Open Scope Z_scope.

Section Main.
Variable mem : Z -> Z.
Variable rho : nat -> val.
Hypothesis Hmem : forall n, mem (addr_of n) = obj_bits (rho n).

Lemma lit_s_ok (x : binary32) : computes mem (CIns [SMovImm W32 (bits_of_b32 x); SMovqRax X0]) TF32 (VS x).
Proof.
  intros s k. eexists. split; [reflexivity|]. cbn [Rv with_x0 with_ix x0 ix rax set_rax]. unfold lo. cbn [bits].
  rewrite (Z.mod_small _ _ (bits32_range x)), f32_bits_lane. apply feq_refl.
Qed.
Lemma lit_d_ok (x : binary64) : computes mem (CIns [SMovImm W64 (bits_of_b64 x); SMovqRax X0]) TF64 (VD x).
Proof.
  intros s k. eexists. split; [reflexivity|]. cbn [Rv with_x0 with_ix x0 ix rax set_rax]. unfold lo. cbn [bits].
  rewrite (Z.mod_small _ _ (bits64_range x)), f64_put. apply feq_refl.
Qed.
Lemma var_ok t n : val_ok t (rho n) = true -> computes mem (CIns [SLea n; SLoad (load_kind t)]) t (rho n).
Proof.
  intros Hv s k. destruct t as [it| |].
  - destruct (val_ok_int it _ Hv) as (z & E & Hz).
    destruct (var_int_ok mem it z s n) as (s' & Es & Rs); [rewrite Hmem, E; reflexivity|exact Hz|].
    exists s'. split; [apply run_ins; exact Es|]. rewrite E. exact Rs.
  - destruct (rho n) as [?|x|?] eqn:E; try discriminate Hv.
    eexists. split; [reflexivity|]. cbn [Rv with_x0 with_ix x0 ix rax set_rax load_kind]. rewrite Hmem, E. cbn [obj_bits].
    rewrite (lane32_small _ (bits32_range x)), f32_bits_lane. apply feq_refl.
  - destruct (rho n) as [?|?|x] eqn:E; try discriminate Hv.
    eexists. split; [reflexivity|]. cbn [Rv with_x0 with_ix x0 ix rax set_rax load_kind]. rewrite Hmem, E. cbn [obj_bits].
    rewrite (lane64_small _ (bits64_range x)), f64_put. apply feq_refl.
Qed.

Lemma unop_ok o t x w s : val_ok t x = true -> Rv (promote_ty t) x s -> eval_unary o t x = Some w -> (o = Neg \/ o = BitNot) ->
  exists s', sexec mem (match o with Neg => mneg (promote_ty t) | _ => [SI (INot W64)] end) s = Some s' /\ Rv (promote_ty t) w s'.
Proof.
  intros Hv HR He Ho. destruct t as [it| |].
  - destruct (val_ok_int it x Hv) as (a & -> & Ha). cbn [promote_ty Rv mneg] in *. destruct Ho as [-> | ->]; cbn [eval_unary] in He.
    + destruct (arith_result (promote it) (- a)) as [z|] eqn:E; [|discriminate]. injection He as <-.
      apply (int_code_ok mem [INeg W64]), (neg_codegen_ok (promote it) a (ix s) z (promote_big it) HR E).
    + injection He as <-. apply (int_code_ok mem [INot W64]), (not_codegen_ok (promote it) a (ix s) (promote_big it) HR).
  - destruct Ho as [-> | ->]; [|destruct x; discriminate He]. apply (fp_neg_ok mem TF32 x w s eq_refl HR He).
  - destruct Ho as [-> | ->]; [|destruct x; discriminate He]. apply (fp_neg_ok mem TF64 x w s eq_refl HR He).
Qed.

Lemma unop_code_ok o c t x v : (o = Neg \/ o = BitNot) -> computes mem c t x -> val_ok t x = true ->
  eval_unary o t x = Some v ->
  computes mem (c ;; ccast t (promote_ty t) ;; CIns (match o with Neg => mneg (promote_ty t) | _ => [SI (INot W64)] end)) (promote_ty t) v.
Proof.
  intros Ho Hc Vx H. apply (computes_seq mem _ _ _ x _ _ Hc). intros s k R1. rewrite run_seq.
  destruct (run_cast mem _ _ x x s k Vx R1 (convert_promote _ _ Vx)) as (s2 & -> & R2).
  destruct (unop_ok _ _ x v s2 Vx R2 H Ho) as (s3 & E3 & R3). exists s3. split; [apply run_ins, E3|exact R3].
Qed.

Lemma compile_bin o a b : o <> LAnd -> o <> LOr ->
  compile (FBin o a b) = bin_code o (compile a) (ftype_of a) (compile b) (ftype_of b).
Proof.
  intros N1 N2. destruct o; try congruence; cbn [compile bin_code is_shift];
    rewrite ?mf_promote, ?mf_common_is_uac, !mf_type_is_c11; reflexivity.
Qed.

(* No condition on the code or on the operand types is needed: an operator whose code is the error text (% & | ^ << >>
   at a floating type) has no value in [feval], and every row of the cast table has a meaning in X86Sse. *)
Theorem compile_correct : forall e v, feval rho e = Some v -> computes mem (compile e) (ftype_of e) v.
Proof.
  induction e as [t z|x|x|t n|o a IHa|o a IHa b IHb|t a IHa|c IHc a IHa b IHb|a IHa b IHb]; intros v H.
  - cbn [feval] in H. destruct (in_range t z) eqn:Hr; [|discriminate]. injection H as <-.
    intros s k. eexists. split; [reflexivity|]. apply R_imm, Hr.
  - injection H as <-. apply lit_s_ok.
  - injection H as <-. apply lit_d_ok.
  - cbn [feval] in H. destruct (val_ok t (rho n)) eqn:Hv; [|discriminate]. injection H as <-. apply var_ok, Hv.
  - cbn [feval] in H. destruct (feval rho a) as [x|] eqn:Ea; [|discriminate]. pose proof (feval_ok rho a x Ea) as Vx.
    specialize (IHa x eq_refl). destruct o; cbn [compile]; rewrite ?mf_type_is_c11; cbn [ftype_of].
    + exact (unop_code_ok Neg _ _ x v (or_introl eq_refl) IHa Vx H).
    + exact (unop_code_ok BitNot _ _ x v (or_intror eq_refl) IHa Vx H).
    + injection H as <-. apply (computes_seq mem _ _ _ x _ _ IHa). intros s k R1.
      destruct (lognot_ok mem _ x s Vx R1) as (s2 & E2 & R2). exists s2. split; [apply run_ins, E2|exact R2].
    + assert (v = x) as -> by (destruct (ftype_of a) as [it| |], x as [?|?|?]; try discriminate Vx; cbn [eval_unary] in H; congruence).
      apply (computes_cast mem _ _ _ x x IHa Vx (convert_promote _ _ Vx)).
  - pose proof (mf_type_is_c11 a) as Hta. pose proof (mf_type_is_c11 b) as Htb. cbn [ftype_of].
    destruct (binop_cases o) as [-> | [-> | [N1 N2]]].
    { cbn [feval compile] in *. rewrite Hta, Htb. destruct (feval rho a) as [x|] eqn:Ea; [|discriminate].
      apply (cand_ok mem _ _ _ _ x v (IHa x eq_refl) (feval_ok rho a x Ea)).
      destruct (truth x); cbn [negb] in H; [|injection H as <-; reflexivity].
      destruct (feval rho b) as [y|] eqn:Eb; [|discriminate]. injection H as <-.
      exists y. split; [exact (IHb y eq_refl)|]. split; [exact (feval_ok rho b y Eb)|reflexivity]. }
    { cbn [feval compile] in *. rewrite Hta, Htb. destruct (feval rho a) as [x|] eqn:Ea; [|discriminate].
      apply (cor_ok mem _ _ _ _ x v (IHa x eq_refl) (feval_ok rho a x Ea)).
      destruct (truth x); cbn [negb] in H; [injection H as <-; reflexivity|].
      destruct (feval rho b) as [y|] eqn:Eb; [|discriminate]. injection H as <-.
      exists y. split; [exact (IHb y eq_refl)|]. split; [exact (feval_ok rho b y Eb)|reflexivity]. }
    rewrite (feval_bin rho o a b N1 N2) in H. rewrite (compile_bin o a b N1 N2).
    destruct (feval rho a) as [x|] eqn:Ea; [|discriminate]. destruct (feval rho b) as [y|] eqn:Eb; [|discriminate].
    exact (cbin_ok mem o _ _ _ _ x y v N1 N2 (IHa x eq_refl) (IHb y eq_refl) (feval_ok rho a x Ea) (feval_ok rho b y Eb) H).
  - cbn [feval] in H. destruct (feval rho a) as [x|] eqn:Ea; [|discriminate]. cbn [compile]. rewrite (mf_type_is_c11 a).
    apply (computes_cast mem _ _ _ x v (IHa x eq_refl) (feval_ok rho a x Ea) H).
  - cbn [feval] in H. destruct (feval rho c) as [x|] eqn:Ec; [|discriminate].
    pose proof (feval_ok rho c x Ec) as Vx. cbv zeta in H.
    cbn [compile]. rewrite (mf_type_is_c11 a), (mf_type_is_c11 b), (mf_type_is_c11 c), mf_common_is_uac.
    intros s k. cbn [frun ftype_of]. destruct (IHc x eq_refl s k) as (s1 & -> & R1).
    destruct (zero_test_ok mem _ x s1 Vx R1) as (s2 & ->).
    destruct (truth x); cbn [negb].
    + destruct (feval rho a) as [y|] eqn:Ea; [|discriminate].
      apply (computes_cast mem _ _ _ y v (IHa y eq_refl) (feval_ok rho a y Ea) H).
    + destruct (feval rho b) as [y|] eqn:Eb; [|discriminate].
      apply (computes_cast mem _ _ _ y v (IHb y eq_refl) (feval_ok rho b y Eb) H).
  - cbn [feval] in H. destruct (feval rho a) as [x|] eqn:Ea; [|discriminate]. cbn [compile].
    apply (computes_seq mem _ _ _ x _ _ (IHa x eq_refl)). intros s k _. apply (IHb v H).
Qed.

End Main.

Lemma mem_of_ok rho n : mem_of rho (addr_of n) = obj_bits (rho n).
Proof. unfold mem_of, addr_of. rewrite Nat2Z.id. reflexivity. Qed.

(* what the bits delivered by [run_expr] have to be *)
Definition result_is (t : ty) (v : val) (b : Z) : Prop :=
  match t, v with
  | TI it, VI z => b = (if size_of it =? 8 then z mod 2 ^ 64 else z mod 2 ^ 32)
  | TF32, VS x => 0 <= b < 2 ^ 32 /\ feq (b32_of_bits b) x /\ (is_nan 24 128 x = false -> b = bits_of_b32 x)
  | TF64, VD x => 0 <= b < 2 ^ 64 /\ feq (b64_of_bits b) x /\ (is_nan 53 1024 x = false -> b = bits_of_b64 x)
  | _, _ => False
  end.

Lemma Rv_result t v s : val_ok t v = true -> Rv t v s -> result_is t v (result_bits t s).
Proof.
  intros Hv HR. destruct t as [it| |], v as [z|x|x]; try contradiction; cbn [Rv result_is result_bits] in *.
  - destruct it; cbn [size_of Z.eqb Pos.eqb]; first [exact (proj2 HR)|exact (R_low _ _ _ HR)].
  - split; [apply lane32_range|]. split; [exact HR|]. intros N.
    rewrite <- (feq_exact _ _ HR N). unfold f32. symmetry. apply bits_b32, lane32_range.
  - split; [apply lane64_range|]. split; [exact HR|]. intros N.
    rewrite <- (feq_exact _ _ HR N). unfold f64. symmetry. apply bits_b64, lane64_range.
Qed.

Theorem run_expr_correct rho e v : feval rho e = Some v -> exists b, run_expr rho e = Some b /\ result_is (ftype_of e) v b.
Proof.
  intros H. unfold run_expr. destruct (compile_correct (mem_of rho) rho (mem_of_ok rho) e v H s_init nil) as (s' & E & HR).
  rewrite E. eexists. split; [reflexivity|]. rewrite mf_type_is_c11. apply Rv_result; [apply (feval_ok rho e v H)|exact HR].
Qed.

(* every row of the table and every operator of a well-typed tree has a meaning in X86Sse; [compile_correct] does not rest on it *)
Lemma all_rows_modelled from to : forallb insn_modelled (mcast from to) = true.
Proof. destruct from as [f| |], to as [t| |]; try destruct f; try destruct t; vm_compute; reflexivity. Qed.

Lemma modelled_SI p : forallb insn_modelled (map SI p) = true.
Proof. induction p as [|i p IH]; [reflexivity|exact IH]. Qed.
Lemma cmp_zero_modelled t : forallb insn_modelled (m_cmp_zero t) = true.
Proof. destruct t as [it| |]; reflexivity. Qed.

Lemma mbinop_modelled o t : (is_fp t = true -> int_only o = false) -> o <> OGt -> o <> OGe -> o <> LAnd -> o <> LOr ->
  forallb insn_modelled (mbinop o t) = true.
Proof.
  intros H N1 N2 N3 N4. destruct t as [it| |]; [apply modelled_SI| |];
    specialize (H eq_refl); destruct o; try discriminate H; try congruence; reflexivity.
Qed.

Lemma cbin_modelled o t ca ta cb tb castb : modelled ca = true -> modelled cb = true ->
  forallb insn_modelled (mbinop o t) = true -> modelled (cbin o t ca ta cb tb castb) = true.
Proof.
  intros Ha Hb Ho. unfold cbin, ccast. cbn [modelled]. rewrite Ha, Hb, Ho, all_rows_modelled.
  destruct castb, (is_fp t); cbn [modelled forallb andb]; try rewrite all_rows_modelled; reflexivity.
Qed.

Lemma mf_common_int a b : is_fp a = false -> is_fp b = false -> is_fp (mf_common a b) = false.
Proof. destruct a, b; try discriminate; reflexivity. Qed.

Theorem wt_modelled e : well_typed e = true -> modelled (compile e) = true.
Proof.
  induction e as [t z|x|x|t n|o a IHa|o a IHa b IHb|t a IHa|c IHc a IHa b IHb|a IHa b IHb]; cbn [well_typed]; intros W; try reflexivity.
  - (* W carries a second conjunct at ~ only *)
    destruct o; cbn [compile modelled ccast];
      try (apply andb_true_iff in W as [W _]); rewrite (IHa W); cbn [andb];
      try rewrite all_rows_modelled; try reflexivity.
    + destruct (mf_type (FUn Neg a)) as [it| |]; reflexivity.
    + rewrite forallb_app, cmp_zero_modelled. reflexivity.
  - apply andb_true_iff in W as [W Wo]. apply andb_true_iff in W as [Wa Wb]. specialize (IHa Wa). specialize (IHb Wb).
    rewrite <- !mf_type_is_c11 in Wo.
    (* the operator's code is the error text only for % & | ^ << >> at a floating type; the constraint gives them integer
       operands, and the common type of integer types is an integer type *)
    assert (K : forall t, (is_fp (mf_type a) = false -> is_fp (mf_type b) = false -> is_fp t = false) -> is_fp t = true -> int_only o = false).
    { intros t Ht Ft. destruct (int_only o); [|reflexivity]. cbn [negb orb] in Wo. unfold is_int_ty in Wo.
      apply andb_true_iff in Wo as [A B]. apply negb_true_iff in A, B. rewrite (Ht A B) in Ft. discriminate. }
    destruct o; cbn [compile is_shift modelled]; try (rewrite IHa, IHb; reflexivity);   (* && || *)
      apply cbin_modelled; try assumption; apply mbinop_modelled; try discriminate;
      apply K; intros A B; apply mf_common_int; assumption || reflexivity.
  - cbn [compile modelled ccast]. rewrite (IHa W), all_rows_modelled. reflexivity.
  - apply andb_true_iff in W as [W Wb]. apply andb_true_iff in W as [Wc Wa].
    cbn [compile modelled ccast]. rewrite (IHc Wc), (IHa Wa), (IHb Wb), !all_rows_modelled. reflexivity.
  - apply andb_true_iff in W as [Wa Wb]. cbn [compile modelled]. rewrite (IHa Wa), (IHb Wb). reflexivity.
Qed.
