(* convert_universal_chars (translation phase 1 of chibicc: \uXXXX and \UXXXXXXXX are replaced
   by UTF-8 before tokenizing) against C11 6.4.3, and its composition with the literal scanners. *)
From Chibicc Require Import Base.Mach Base.ListFacts Model.Unicode Spec.Utf Model.IntLit Spec.IntLitSpec
     Proofs.UnicodeProofs Model.LitScan Spec.LitSpec Proofs.LitScanProofs.
Local Open Scope N_scope.

Lemma cuc_fuel : forall f1 p f2, (length p <= f1)%nat -> (length p <= f2)%nat ->
  convert_universal_chars f1 p = convert_universal_chars f2 p.
Proof.
  induction f1 as [|f1 IH]; intros p f2 H1 H2.
  - destruct p as [|b p1]; [|cbn [length] in H1; lia]. destruct f2; reflexivity.
  - destruct p as [|b p1]; [destruct f2; reflexivity|].
    destruct f2 as [|f2]; [cbn [length] in H2; lia|].
    cbn [length] in H1, H2.
    assert (L : forall n, (length (skipn (S n) (b :: p1)) <= length p1)%nat)
      by (intros n; cbn [skipn]; rewrite skipn_length; lia).
    pose proof (L 5%nat) as L6. pose proof (L 9%nat) as L10.
    cbn [convert_universal_chars].
    rewrite (IH (skipn 6 (b :: p1)) f2), (IH (skipn 10 (b :: p1)) f2), (IH p1 f2) by lia.
    destruct p1 as [|b2 p2]; [reflexivity|].
    rewrite (IH p2 f2) by (cbn [length] in *; lia). reflexivity.
Qed.

Definition cuc (p : list N) : res (list N) := convert_universal_chars (length p) p.

Lemma cuc_refuel f p : (length p <= f)%nat -> convert_universal_chars f p = cuc p.
Proof. intros H. apply cuc_fuel; [exact H|lia]. Qed.

(* written so that [cbn] unfolds one round only: the fuel of the inner call is not a constructor *)
Lemma cuc_cons b p : cuc (b :: p) = convert_universal_chars (S (length p)) (b :: p).
Proof. reflexivity. Qed.

Lemma cuc_plain b more : (b =? 92) = false -> cuc (b :: more) = res_map (cons b) (cuc more).
Proof. intros Hb. rewrite cuc_cons. cbn [convert_universal_chars startswith]. rewrite Hb. reflexivity. Qed.

(* the pair rule: a backslash and the character behind it are copied together, whatever
   follows - so the u of \\u is never taken for a universal character name *)
Lemma cuc_pair x more : x <> 117 -> x <> 85 ->
  cuc (92 :: x :: more) = res_map (fun r => 92 :: x :: r) (cuc more).
Proof.
  intros H1 H2. rewrite cuc_cons. cbn [convert_universal_chars startswith].
  replace (x =? 117) with false by lia. replace (x =? 85) with false by lia.
  change (92 =? 92) with true. cbn [andb]. rewrite cuc_refuel by (cbn [length]; lia). reflexivity.
Qed.

Lemma sw2 a b t a' b' : startswith (a :: b :: t) [a'; b'] = (a =? a') && (b =? b').
Proof. cbn [startswith]. destruct t; rewrite andb_true_r; reflexivity. Qed.

Lemma skipn_SS n a b (l : list N) : skipn (S (S n)) (a :: b :: l) = skipn n l.
Proof. reflexivity. Qed.

Lemma cuc_name (big : bool) p :
  cuc (92 :: (if big then 85 else 117) :: p) =
    let n := if big then 8%nat else 4%nat in
    let c := read_universal_char p n 0 in
    if negb (c =? 0) then res_map (app (encode_utf8 c)) (cuc (skipn n p))
    else res_map (cons 92) (cuc ((if big then 85 else 117) :: p)).
Proof.
  rewrite cuc_cons. destruct big; cbn [convert_universal_chars]; cbv zeta;
    rewrite !sw2, !skipn_SS; change (skipn 0 p) with p; cbn [andb N.eqb Pos.eqb];
    rewrite cuc_refuel by (rewrite skipn_length; cbn [length]; lia); reflexivity.
Qed.

Lemma res_map_app_nil {A} (r : res (list A)) : res_map (app []) r = r.
Proof. destruct r; reflexivity. Qed.
Lemma res_map_app_app {A} (a b : list A) r : res_map (app a) (res_map (app b) r) = res_map (app (a ++ b)) r.
Proof. destruct r; cbn [res_map]; try reflexivity. rewrite app_assoc. reflexivity. Qed.

Lemma cuc_plain_bytes q bs : forall more, forallb (plain_byte q) bs = true ->
  cuc (bs ++ more) = res_map (app bs) (cuc more).
Proof.
  induction bs as [|b bs IH]; intros more H.
  - cbn [app]. rewrite res_map_app_nil. reflexivity.
  - destruct (andb_prop _ _ H) as [Hb Hbs].
    cbn [app]. rewrite cuc_plain by (unfold plain_byte in Hb; lia).
    rewrite IH by exact Hbs. destruct (cuc more); reflexivity.
Qed.

Lemma ruc_spec ds : forall acc more, forallb (is_digit_of 16) ds = true ->
  read_universal_char (ds ++ more) (length ds) (acc mod two32) = fold_left hstep ds acc mod two32.
Proof.
  induction ds as [|d ds IH]; intros acc more Hds; [reflexivity|].
  apply andb_prop in Hds. destruct Hds as [Hd Hds].
  destruct (digit_facts 16 d Hd) as (Hx & Hv & Hlt & _).
  cbn [length app read_universal_char peek tl fold_left]. rewrite Hx.
  unfold u32. rewrite lor_shiftl_add, <- Hv by (rewrite <- Hv; exact Hlt).
  rewrite <- (IH _ more) by exact Hds. f_equal. apply hstep_mod.
Qed.

Lemma valid_ucn_facts c : valid_ucn_value c = true ->
  c < 1114112 /\ c <> 0 /\ (forall q, q = 34 \/ q = 39 -> valid_item q (IChr c) = true).
Proof.
  unfold valid_ucn_value. intros H. apply andb_prop in H. destruct H as [Hs Hr].
  pose proof (is_scalar_bound c Hs) as Hb. repeat split; [exact Hb|lia|].
  intros q Hq. cbn [valid_item]. rewrite Hs. destruct Hq as [-> | ->]; lia.
Qed.

Lemma cuc_ucn (big : bool) ds more :
  (length ds = if big then 8 else 4)%nat -> forallb (is_digit_of 16) ds = true ->
  valid_ucn_value (ucn_value ds) = true ->
  cuc (92 :: (if big then 85 else 117) :: ds ++ more) = res_map (app (rfc3629 (ucn_value ds))) (cuc more).
Proof.
  intros Hlen Hds Hv. destruct (valid_ucn_facts _ Hv) as [Hb [Hnz _]].
  rewrite cuc_name. cbv zeta. rewrite <- Hlen, skipn_length_app.
  rewrite (ruc_spec ds 0) by exact Hds.
  change (fold_left hstep ds 0) with (ucn_value ds). rewrite N.mod_small by (unfold two32; lia).
  replace (ucn_value ds =? 0) with false by lia. cbn [negb].
  rewrite encode_is_rfc3629 by lia. reflexivity.
Qed.

Lemma cuc_sitem q it more : (q = 34 \/ q = 39) -> valid_sitem q it = true ->
  cuc (spell_sitem it ++ more) = res_map (app (spell_item (resolve_sitem it))) (cuc more).
Proof.
  intros Hq Hv. destruct it as [c|e|big ds]; cbn [spell_sitem resolve_sitem spell_item valid_sitem] in *.
  - apply (cuc_plain_bytes q). apply valid_chr_bytes; assumption.
  - destruct (escape_shape e Hv) as [x [ds [Hsp [Hds [Hx1 Hx2]]]]].
    unfold spell_escape. rewrite Hsp. cbn [app]. rewrite cuc_pair by assumption.
    rewrite (cuc_plain_bytes q) by (apply digits_plain; assumption).
    destruct (cuc more); reflexivity.
  - apply andb_prop in Hv. destruct Hv as [Hv Hval]. apply andb_prop in Hv. destruct Hv as [Hlen Hds].
    cbn [app]. apply cuc_ucn; [|exact Hds|exact Hval].
    destruct big; apply Nat.eqb_eq in Hlen; exact Hlen.
Qed.

Lemma spell_sitems_cons it l : spell_sitems (it :: l) = spell_sitem it ++ spell_sitems l.
Proof. reflexivity. Qed.

Theorem cuc_sitems q l more : (q = 34 \/ q = 39) -> forallb (valid_sitem q) l = true ->
  cuc (spell_sitems l ++ more) = res_map (app (spell_items (map resolve_sitem l))) (cuc more).
Proof.
  intros Hq. induction l as [|it l IH]; intros Hv.
  - cbn [spell_sitems spell_items map concat app]. rewrite res_map_app_nil. reflexivity.
  - destruct (andb_prop _ _ Hv) as [Hit Hl].
    rewrite spell_sitems_cons, <- app_assoc, (cuc_sitem q) by assumption.
    rewrite IH by exact Hl. rewrite res_map_app_app. reflexivity.
Qed.

Lemma resolve_valid q it : (q = 34 \/ q = 39) -> valid_sitem q it = true -> valid_item q (resolve_sitem it) = true.
Proof.
  intros Hq Hv. destruct it as [c|e|big ds]; cbn [valid_sitem resolve_sitem] in *; try exact Hv.
  apply andb_prop in Hv. destruct Hv as [_ Hval]. destruct (valid_ucn_facts _ Hval) as [_ [_ H]]. apply H. exact Hq.
Qed.

Lemma resolve_all_valid q l : (q = 34 \/ q = 39) -> forallb (valid_sitem q) l = true ->
  forallb (valid_item q) (map resolve_sitem l) = true.
Proof.
  intros Hq H. rewrite forallb_forall in *. intros it Hin. apply in_map_iff in Hin.
  destruct Hin as [s [<- Hs]]. apply resolve_valid; [exact Hq|]. apply H. exact Hs.
Qed.

(* a string literal written with universal character names, anywhere in a buffer whose remainder
   converts to rest': after convert_universal_chars the scanner finds the array of the body in
   which every \u / \U is the character it names *)
Theorem ucn_string_literal p l rest rest' :
  forallb (valid_sitem 34) l = true -> munch_ok 34 (map resolve_sitem l) = true ->
  cuc rest = Ok rest' ->
  exists buf, cuc (spell_sitems l ++ 34 :: rest) = Ok buf /\
    string_token (model_sprefix p) buf =
      Ok (model_elem_ty (string_elem_ty p), stored_units p (map resolve_sitem l), rest').
Proof.
  intros Hv Hm Hrest.
  exists (spell_items (map resolve_sitem l) ++ 34 :: rest'). split.
  - rewrite (cuc_sitems 34) by (auto). rewrite cuc_plain by reflexivity. rewrite Hrest. reflexivity.
  - apply string_token_stored. unfold valid_items. rewrite Hm, andb_true_r.
    apply resolve_all_valid; [left; reflexivity|exact Hv].
Qed.

Theorem ucn_char_constant p it rest rest' v :
  valid_sitem 39 it = true -> spec_char_value p (resolve_sitem it) = Some v -> cuc rest = Ok rest' ->
  exists buf val, cuc (spell_sitem it ++ 39 :: rest) = Ok buf /\
    char_token (model_cprefix p) buf = Ok (val, model_char_ty (char_const_ty p), rest') /\
    num_value (model_char_ty (char_const_ty p)) val = v.
Proof.
  intros Hv Hs Hrest.
  pose proof (resolve_valid 39 it (or_intror eq_refl) Hv) as Hv'.
  destruct (char_token_spec p (resolve_sitem it) rest' v Hv' Hs) as [val [H1 H2]].
  exists (spell_item (resolve_sitem it) ++ 39 :: rest'), val. split; [|split; assumption].
  rewrite (cuc_sitem 39) by (auto). rewrite cuc_plain by reflexivity. rewrite Hrest. reflexivity.
Qed.

(* the C code treats \u0000 (and \U00000000) as "not a universal character name": value 0 is its
   failure marker; the six characters stay (6.4.3 forbids the name anyway) *)
Theorem cuc_ucn_zero more :
  cuc (92 :: 117 :: 48 :: 48 :: 48 :: 48 :: more) = res_map (app [92; 117; 48; 48; 48; 48]) (cuc more).
Proof.
  rewrite (cuc_name false). cbv zeta.
  change (read_universal_char (48 :: 48 :: 48 :: 48 :: more) 4 0) with 0. cbn [N.eqb negb].
  rewrite !cuc_plain by reflexivity. destruct (cuc more); reflexivity.
Qed.
