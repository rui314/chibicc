(* C03 (switch, labels, goto): the big-step seek semantics of Spec/SwSem.v agrees with the small-step
   continuation semantics of Spec/SwCont.v - for every statement, every mode, every oracle; no
   well-formedness needed (both take the first label in program order).

   The statement (cspec, sw_seek_both) is about the RESULT of sexec, whatever it is: if there is one, the
   machine - entered where sexec enters the statement - runs to the state that expresses the outcome; if
   there is none, the machine does not reach the end of the function within n steps, for every n that the
   fuel covers beyond the depth of the statement.  One induction on the fuel, computing what the result says
   along the operators sexec is written with (spre, sswitch_end, sfor_after, sdo_after, the loops' own
   fuel); every recursive call of sexec (S f) is made with fuel f, so results of different fuel never meet.
   The half about results is stated separately below it (sw_seek_agrees_with_continuations; LoweringSwProofs
   rests on it).  sw_function_both says the same of srun through its gotos, again of the result whatever it is;
   SwContComplete turns its half about failures into completeness for function bodies. *)
From Coq Require Import List Arith Bool Lia.
Import ListNotations.
From Chibicc Require Import Spec.SwSem Spec.SwCont.
From Chibicc Require Export Proofs.SwSemFacts.

Lemma cstar_trans {fn s1 t1 s2 t2 s3} : cstar fn s1 t1 s2 -> cstar fn s2 t2 s3 -> cstar fn s1 (t1 ++ t2) s3.
Proof. induction 1 as [|st ev st' tr st'' Hs _ IH]; intros H2; [exact H2|]. rewrite <- app_assoc. eapply cstar_step; [exact Hs|apply IH; exact H2]. Qed.
Lemma cstar_one {fn s ev s'} : cstep fn s = Some (ev, s') -> cstar fn s ev s'.
Proof. intros H. rewrite <- (app_nil_r ev). eapply cstar_step; [exact H|apply cstar_refl]. Qed.
Lemma cstar_eq fn s t s' t' : cstar fn s t s' -> t = t' -> cstar fn s t' s'.
Proof. intros H <-. exact H. Qed.
Lemma cstar_trans_nil {fn s1 t s2 s3} : cstar fn s1 t s2 -> cstar fn s2 [] s3 -> cstar fn s1 t s3.
Proof. intros H1 H2. exact (cstar_eq _ _ _ _ _ (cstar_trans H1 H2) (app_nil_r t)). Qed.

Lemma crun_S f fn st : crun (S f) fn st =
  match cstep fn st with
  | Some (ev, st1) => match crun f fn st1 with Some (tr, o') => Some (ev ++ tr, o') | None => None end
  | None => match st with (SSkip, Kstop, o) => Some ([], o) | _ => None end
  end.
Proof. destruct st as [[s k] o]. destruct s; try reflexivity. destruct k; reflexivity. Qed.
Lemma crun_sound fn : forall fuel st tr o', crun fuel fn st = Some (tr, o') -> cstar fn st tr (SSkip, Kstop, o').
Proof.
  induction fuel as [|f IH]; intros st tr o' H; [discriminate|]. rewrite crun_S in H.
  destruct (cstep fn st) as [[ev st1]|] eqn:Es.
  - destruct (crun f fn st1) as [[tr0 o0]|] eqn:Er; [|discriminate]. injection H as <- <-. exact (cstar_step _ _ _ _ _ _ Es (IH _ _ _ Er)).
  - destruct st as [[s k] o]. destruct s; try discriminate. destruct k; try discriminate. injection H as <- <-. apply cstar_refl.
Qed.
Lemma crun_mono fn : forall n n' st r, n <= n' -> crun n fn st = Some r -> crun n' fn st = Some r.
Proof.
  induction n as [|n IH]; intros n' st r Hle H; [discriminate|]. destruct n' as [|n'']; [destruct (Nat.nle_succ_0 _ Hle)|].
  pose proof (le_S_n _ _ Hle) as Hle'. rewrite crun_S in *.
  destruct (cstep fn st) as [[ev st1]|]; [|exact H]. destruct (crun n fn st1) as [[tr o']|] eqn:E; [|discriminate].
  rewrite (IH n'' _ _ Hle' E). exact H.
Qed.
Lemma crun_none_le {fn n n' st} : n <= n' -> crun n' fn st = None -> crun n fn st = None.
Proof. intros Hle H. destruct (crun n fn st) as [r|] eqn:E; [|reflexivity]. rewrite (crun_mono fn n n' st r Hle E) in H. discriminate. Qed.
(* the machine is a function: a run that does not finish from a later state does not finish from an earlier one *)
Lemma crun_back {fn st ev st2} : cstar fn st ev st2 -> forall n, crun n fn st2 = None -> crun n fn st = None.
Proof.
  induction 1 as [st|st ev st1 tr st2 Hs _ IH]; intros n H; [exact H|]. destruct n as [|n]; [reflexivity|].
  rewrite crun_S, Hs, (IH n (crun_none_le (Nat.le_succ_diag_r n) H)). reflexivity.
Qed.
Lemma crun_S_none {fn st ev st1 n} : cstep fn st = Some (ev, st1) -> crun n fn st1 = None -> crun (S n) fn st = None.
Proof. intros Hs H. rewrite crun_S, Hs, H. reflexivity. Qed.
Lemma crun_complete {fn st tr o'} : cstar fn st tr (SSkip, Kstop, o') -> exists n, crun n fn st = Some (tr, o').
Proof.
  intros H. remember (SSkip, Kstop, o') as fin eqn:Efin. induction H as [st|st ev st1 tr st2 Hs _ IH]; subst.
  - exists 1. reflexivity.
  - destruct (IH eq_refl) as [n Hn]. exists (S n). rewrite crun_S, Hs, Hn. reflexivity.
Qed.
(* the machine is a function: both runs are the value of crun *)
Lemma cstar_final_unique {fn s t1 o1 t2 o2} :
  cstar fn s t1 (SSkip, Kstop, o1) -> cstar fn s t2 (SSkip, Kstop, o2) -> t2 = t1 /\ o2 = o1.
Proof.
  intros H1 H2. destruct (crun_complete H1) as [n1 E1], (crun_complete H2) as [n2 E2].
  apply (crun_mono fn _ (max n1 n2) _ _ (Nat.le_max_l _ _)) in E1. rewrite (crun_mono fn _ (max n1 n2) _ _ (Nat.le_max_r _ _) E2) in E1.
  injection E1 as <- <-. split; reflexivity.
Qed.

(* the state in which a statement executed with continuation k leaves the small-step machine *)
Definition coutcome (out : soutcome) (k : scont) (o' : soracle) (st : cstate) : Prop :=
  match out with
  | RNormal => st = (SSkip, k, o')
  | RBreak => st = (SBreak, k, o')
  | RCont => st = (SContinue, k, o')
  | RGoto l => exists k1, st = (SGoto l, k1, o')      (* a goto does not look at its continuation *)
  | RSeek => False
  end.
Lemma coutcome_noseek {out k o st} : coutcome out k o st -> out <> RSeek.
Proof. intros H ->. exact H. Qed.

(* from st the machine comes, with trace tr, to the state that expresses out relative to k *)
Definition cruns fn (st : cstate) (tr : strace) (out : soutcome) (k : scont) (o' : soracle) : Prop :=
  exists st', cstar fn st tr st' /\ coutcome out k o' st'.

Lemma cruns_here {fn st} out {k o'} : coutcome out k o' st -> cruns fn st [] out k o'.
Proof. intros Ho. exists st. split; [apply cstar_refl|exact Ho]. Qed.
Lemma cruns_after {fn st t1 st1 t2 out k o'} : cstar fn st t1 st1 -> cruns fn st1 t2 out k o' -> cruns fn st (t1 ++ t2) out k o'.
Proof. intros H1 (st' & H2 & Ho). exists st'. split; [exact (cstar_trans H1 H2)|exact Ho]. Qed.
Lemma cruns_after_nil {fn st t1 st1 out k o'} : cstar fn st t1 st1 -> cruns fn st1 [] out k o' -> cruns fn st t1 out k o'.
Proof. intros H1 (st' & H2 & Ho). exists st'. split; [exact (cstar_trans_nil H1 H2)|exact Ho]. Qed.
Lemma cruns_step {fn st ev st1 tr out k o'} : cstep fn st = Some (ev, st1) -> cruns fn st1 tr out k o' -> cruns fn st (ev ++ tr) out k o'.
Proof. intros Hs. apply cruns_after. apply cstar_one. exact Hs. Qed.
Lemma cruns_one {fn st ev st1} out {k o'} : cstep fn st = Some (ev, st1) -> coutcome out k o' st1 -> cruns fn st ev out k o'.
Proof. intros Hs Ho. exists st1. split; [exact (cstar_one Hs)|exact Ho]. Qed.
Lemma cruns_noseek {fn st tr out k o'} : cruns fn st tr out k o' -> out <> RSeek.
Proof. intros (st' & _ & Ho). exact (coutcome_noseek Ho). Qed.

(* What the machine does with an outcome when it meets a frame of the continuation: the run goes on through
   these steps, whether it then comes to an end (a result of sexec) or not (no result). *)
Lemma cframe_seq fn {b k out o st} : coutcome out (Kseq b k) o st ->
  match out with RNormal => cstar fn st [] (b, k, o) | _ => cruns fn st [] out k o end.
Proof.
  destruct out; cbn [coutcome]; intros Ho; try subst st.
  - apply cstar_one. reflexivity.
  - eapply cruns_one; reflexivity.
  - eapply cruns_one; reflexivity.
  - apply cruns_here. exact Ho.
  - contradiction.
Qed.
Lemma cframe_switch fn {k out o st} : coutcome out (Kswitch k) o st -> cruns fn st [] (swout out) k o.
Proof.
  destruct out; cbn [coutcome swout]; intros Ho; try subst st.
  - eapply cruns_one; reflexivity.
  - eapply cruns_one; reflexivity.
  - eapply cruns_one; reflexivity.
  - apply cruns_here. exact Ho.
  - contradiction.
Qed.
(* the body of a for is complete, or continued: the increment, then the loop from its test on *)
Lemma cframe_for fn {kc inc body k out o st} : coutcome out (Kfor kc inc body k) o st ->
  if sround out then cstar fn st inc (SFor [] kc inc body, k, o) else cruns fn st [] (swout out) k o.
Proof.
  destruct out; cbn [coutcome swout sround]; intros Ho; try subst st.
  - apply cstar_one. reflexivity.
  - eapply cruns_one; reflexivity.
  - apply (cstar_step fn _ [] (SSkip, Kfor kc inc body k, o) inc); [reflexivity|]. apply cstar_one. reflexivity.
  - apply cruns_here. exact Ho.
  - contradiction.
Qed.
(* the body of a do is complete, or continued: the test is next *)
Lemma cframe_do fn {body kc k out o st} : coutcome out (Kdo body kc k) o st ->
  if sround out then cstar fn st [] (SSkip, Kdo body kc k, o) else cruns fn st [] (swout out) k o.
Proof.
  destruct out; cbn [coutcome swout sround]; intros Ho; try subst st.
  - apply cstar_refl.
  - eapply cruns_one; reflexivity.
  - apply cstar_one. reflexivity.
  - apply cruns_here. exact Ho.
  - contradiction.
Qed.

Definition centry (m : smode) (s : sstmt) (k : scont) : option (sstmt * scont) :=
  match m with None => Some (s, k) | Some t => sfind t s k end.

(* what a result (tr, o', out) of sexec says of the machine: entered at e it runs to the state that
   expresses out; with no entry (the label sought is not there) the result is RSeek, nothing done *)
Definition cfrom fn (e : option (sstmt * scont)) (o : soracle) (tr : strace) (out : soutcome) (k : scont) (o' : soracle) : Prop :=
  match e with
  | None => out = RSeek /\ tr = [] /\ o' = o
  | Some (s1, k1) => cruns fn (s1, k1, o) tr out k o'
  end.
Definition cagree_at fn (f : nat) : Prop :=
  forall m s o tr o' out, sexec f m s o = Some (tr, o', out) -> forall k, cfrom fn (centry m s k) o tr out k o'.

(* sexec spends one unit of fuel per level of nesting on its way to a label, the machine no step *)
Fixpoint sheight (s : sstmt) : nat :=
  match s with
  | SSeq a b | SIf _ a b => S (max (sheight a) (sheight b))
  | SFor _ _ _ body | SDo body _ | SSwitch _ body | SCase _ body | SDefault body | SLabel _ body => S (sheight body)
  | _ => 1
  end.

(* entered at e the machine does not finish within n steps.  With no entry - the label sought is not in the
   statement - sexec does not fail once the fuel covers the depth of the statement (it reports RSeek): False *)
Definition cnever fn (e : option (sstmt * scont)) (o : soracle) (n : nat) : Prop :=
  match e with Some (s1, k1) => crun n fn (s1, k1, o) = None | None => False end.

(* what a result r of sexec, or of one of its loops, says of the machine started in st *)
Definition cres fn (st : cstate) (k : scont) (N : nat -> Prop) (r : option sres) : Prop :=
  match r with
  | Some (tr, o', out) => cruns fn st tr out k o'
  | None => forall n, N n -> crun n fn st = None
  end.
(* The joint statement: what the result r of sexec says of the machine entered at e, where sexec enters the statement
   (with an entry it is cres).  A result is a run to the state that expresses the outcome - with no entry it is RSeek,
   nothing done (cfrom).  No result means that no run from e finishes within n steps, for every n that N admits; N says
   how far the fuel reaches beyond the depth of the statement, and with no entry it admits no n (cnever).  It is a
   predicate on the value of sexec, so the lemmas below follow the operators sexec is written with. *)
Definition cspec fn (e : option (sstmt * scont)) (o : soracle) (k : scont) (N : nat -> Prop) (r : option sres) : Prop :=
  match r with
  | Some (tr, o', out) => cfrom fn e o tr out k o'
  | None => forall n, N n -> cnever fn e o n
  end.
Definition cboth_at fn (f : nat) : Prop :=
  forall m s o k, cspec fn (centry m s k) o k (fun n => n + sheight s <= f) (sexec f m s o).

Lemma cres_weaken {fn st k} {N N1 : nat -> Prop} {r} : (forall n, N n -> N1 n) -> cres fn st k N1 r -> cres fn st k N r.
Proof. intros HN. destruct r as [[[t o'] out]|]; cbn [cres]; [exact (fun H => H)|]. intros H n Hn. exact (H n (HN n Hn)). Qed.
Lemma cspec_weaken {fn e o k} {N N1 : nat -> Prop} {r} : (forall n, N n -> N1 n) -> cspec fn e o k N1 r -> cspec fn e o k N r.
Proof.
  intros HN. destruct e as [[s1 k1]|], r as [[[t o'] out]|]; cbn [cspec cres]; try exact (fun H => H); intros H n Hn; exact (H n (HN n Hn)).
Qed.
Lemma cres_after {fn st t1 st1 k N r} : cstar fn st t1 st1 -> cres fn st1 k N r -> cres fn st k N (spre t1 r).
Proof.
  intros Hs. destruct r as [[[t o'] out]|]; cbn [cres spre]; [exact (cruns_after Hs)|]. intros H n Hn. exact (crun_back Hs n (H n Hn)).
Qed.
Lemma cres_after_nil {fn st st1 k N r} : cstar fn st [] st1 -> cres fn st1 k N r -> cres fn st k N r.
Proof. intros Hs H. pose proof (cres_after Hs H) as H1. destruct r as [[[t o'] out]|]; exact H1. Qed.
Lemma cres_step {fn st ev st1 k N r} : cstep fn st = Some (ev, st1) -> cres fn st1 k N r -> cres fn st k N (spre ev r).
Proof. intros Hs. exact (cres_after (cstar_one Hs)). Qed.
Lemma cres_silent {fn st st1 k N r} : cstep fn st = Some ([], st1) -> cres fn st1 k N r -> cres fn st k N r.
Proof. intros Hs. exact (cres_after_nil (cstar_one Hs)). Qed.
(* the machine is stuck in a state that is not the end of the function *)
Lemma cres_stuck {fn s k0 o k N} : cstep fn (s, k0, o) = None -> (s = SSkip -> k0 <> Kstop) -> cres fn (s, k0, o) k N None.
Proof. intros Hs Hne [|n] _; [reflexivity|]. rewrite crun_S, Hs. destruct s; try reflexivity. destruct k0; try reflexivity. destruct (Hne eq_refl eq_refl). Qed.

(* a part, entered at e, has run to its outcome relative to the frame kf; `rest` is what follows from the state that expresses it *)
Lemma cspec_then {fn e o t1 out1 kf o1 k N rest} :
  cfrom fn e o t1 out1 kf o1 -> out1 <> RSeek -> (forall st, coutcome out1 kf o1 st -> cres fn st k N rest) ->
  cspec fn e o k N (spre t1 rest).
Proof.
  destruct e as [[s1 k1]|]; cbn [cfrom cspec].
  - intros (st' & Hs & Ho) _ H. exact (cres_after Hs (H st' Ho)).
  - intros (-> & _) Hn. destruct (Hn eq_refl).
Qed.
(* s' is s1 under the label `here` *)
Lemma cspec_label {fn} m here s1 (s' : sstmt) {k o N r} :
  (forall t, sfind t s' k = if starget_eqb t here then Some (s1, k) else sfind t s1 k) ->
  cstep fn (s', k, o) = Some ([], (s1, k, o)) ->
  cspec fn (centry (sarrive m here) s1 k) o k N r -> cspec fn (centry m s' k) o k N r.
Proof.
  intros Hf Hs. destruct m as [t|]; cbn [centry sarrive].
  - rewrite Hf. destruct (starget_eqb t here); exact (fun H => H).
  - exact (cres_silent Hs).
Qed.

(* the frame kf hands the outcome on to k as out', without executing anything *)
Lemma cfrom_frame {fn e o t1 out1 kf o1 out' k} : cfrom fn e o t1 out1 kf o1 ->
  (forall st, coutcome out1 kf o1 st -> cruns fn st [] out' k o1) -> (out1 = RSeek -> out' = RSeek) -> cfrom fn e o t1 out' k o1.
Proof.
  destruct e as [[s1 k1]|]; cbn [cfrom].
  - intros (st' & Hs & Ho) H _. exact (cruns_after_nil Hs (H st' Ho)).
  - intros (-> & -> & ->) _ H. rewrite (H eq_refl). repeat split.
Qed.

Lemma cspec_switch_end {fn e o k N r} : cspec fn e o (Kswitch k) N r -> cspec fn e o k N (sswitch_end r).
Proof.
  destruct r as [[[t1 o1] out1]|]; [|destruct e as [[s1 k1]|]; exact (fun H => H)]. rewrite sswitch_end_out. intros Sb.
  apply (cfrom_frame Sb); [exact (@cframe_switch fn k out1 o1)|intros ->; reflexivity].
Qed.

(* what a loop does with the result of its body: `loop` is the loop from its test on *)
Lemma cspec_for_after {fn loop kc inc body k N} : (forall o1, cres fn (SFor [] kc inc body, k, o1) k N (loop o1)) ->
  forall {e o r}, cspec fn e o (Kfor kc inc body k) N r -> cspec fn e o k N (sfor_after loop inc r).
Proof.
  intros Hloop e o [[[t1 o1] out1]|]; [|destruct e as [[s1 k1]|]; exact (fun H => H)]. rewrite sfor_after_round. intros Sb.
  destruct (sround out1) eqn:Hr.
  - rewrite spre_app. apply (cspec_then Sb); [intros ->; discriminate|]. intros st Ho. pose proof (cframe_for fn Ho) as Hf. rewrite Hr in Hf.
    exact (cres_after Hf (Hloop o1)).
  - apply (cfrom_frame Sb); [|intros ->; reflexivity]. intros st Ho. pose proof (cframe_for fn Ho) as Hf. rewrite Hr in Hf. exact Hf.
Qed.
Lemma cspec_do_after {fn loop body kc k N} : (forall o1, cres fn (SDo body kc, k, o1) k N (loop o1)) ->
  forall {e o r}, cspec fn e o (Kdo body kc k) N r -> cspec fn e o k N (sdo_after loop kc r).
Proof.
  intros Hloop e o [[[t1 o1] out1]|]; [|destruct e as [[s1 k1]|]; exact (fun H => H)]. rewrite sdo_after_round. intros Sb.
  destruct (sround out1) eqn:Hr.
  - (* the machine comes to stand before the test *)
    assert (Htest : forall st, coutcome out1 (Kdo body kc k) o1 st ->
              cres fn st k N (match o1 with [] => None | v :: o2 => if v =? 0 then Some ([kc], o2, RNormal) else spre [kc] (loop o2) end)).
    { intros st Ho. pose proof (cframe_do fn Ho) as Hf. rewrite Hr in Hf. apply (cres_after_nil Hf).
      destruct o1 as [|v o2]; [apply cres_stuck; [reflexivity|discriminate]|].
      assert (Hs : cstep fn (SSkip, Kdo body kc k, v :: o2) = Some ([kc], ((if v =? 0 then SSkip else SDo body kc), k, o2))) by reflexivity.
      destruct (v =? 0); [exact (cruns_one RNormal Hs eq_refl)|exact (cres_step Hs (Hloop o2))]. }
    pose proof (cspec_then Sb ltac:(intros ->; discriminate) Htest) as S. destruct o1 as [|v o2]; [exact S|].
    destruct (v =? 0); [exact S|]. rewrite spre_app. exact S.
  - apply (cfrom_frame Sb); [|intros ->; reflexivity]. intros st Ho. pose proof (cframe_do fn Ho) as Hf. rewrite Hr in Hf. exact Hf.
Qed.

(* the machine takes a step first, and that step is counted *)
Lemma cres_step_S {fn st ev st1 k} {N N1 : nat -> Prop} {r} : cstep fn st = Some (ev, st1) -> (forall n, N (S n) -> N1 n) ->
  cres fn st1 k N1 r -> cres fn st k N (spre ev r).
Proof.
  intros Hs HN. destruct r as [[[t o'] out]|]; cbn [cres spre]; [exact (cruns_step Hs)|].
  intros H [|n] Hn; [reflexivity|]. exact (crun_S_none Hs (H n (HN n Hn))).
Qed.
(* sexec does not fail where there is nothing to enter, when the fuel covers the depth *)
Lemma cspec_absent {fn e o k} {N : nat -> Prop} : (forall n, ~ N n) -> cspec fn e o k N None.
Proof. intros H. destruct e as [[s1 k1]|]; cbn [cspec cres]; [|exact H]. intros n Hn. destruct (H n Hn). Qed.

Section Loops.
Context {fn : sstmt} {f : nat} {N : nat -> Prop} {body : sstmt}.
Hypothesis Hdown : forall n, N (S n) -> N n.
Hypothesis Hbody : forall m o k', cspec fn (centry m body k') o k' N (sexec f m body o).
(* g iterations at most: the loop's own fuel *)
Let Ng (g n : nat) : Prop := n <= g /\ N n.
Let HN g : forall n, Ng (S g) (S n) -> Ng g n.
Proof. intros n [H1 H2]. split; [exact (le_S_n _ _ H1)|exact (Hdown n H2)]. Qed.

Lemma cboth_for_loop kc inc k : forall g init o,
  cres fn (SFor init kc inc body, k, o) k (Ng g) (spre init (sfor_loop (sexec f None) g kc inc body o)).
Proof.
  induction g as [|g IHg]; intros init o; cbn [sfor_loop].
  - intros n [Hn _]. apply Nat.le_0_r in Hn. subst n. reflexivity.
  - assert (Hloop : forall o1, cres fn (SFor [] kc inc body, k, o1) k (Ng g) (sfor_loop (sexec f None) g kc inc body o1))
      by (intros o1; pose proof (IHg [] o1) as H; rewrite spre_nil in H; exact H).
    assert (Hb : forall o1, cres fn (body, Kfor kc inc body k, o1) k (Ng g) (sfor_after (sfor_loop (sexec f None) g kc inc body) inc (sexec f None body o1))).
    { intros o1. exact (cspec_for_after Hloop (e := Some (body, Kfor kc inc body k)) (cspec_weaken (fun n Hn => proj2 Hn) (Hbody None o1 _))). }
    destruct kc as [c|]; [|exact (cres_step_S (st := (SFor init None inc body, k, o)) eq_refl (HN g) (Hb o))].
    destruct o as [|v o1]; [apply cres_stuck; [reflexivity|discriminate]|]. destruct (v =? 0) eqn:Ev.
    + apply (cruns_one RNormal (st1 := (SSkip, k, o1))); [cbn [cstep]; rewrite Ev; reflexivity|reflexivity].
    + rewrite <- spre_app. refine (cres_step_S _ (HN g) (Hb o1)). cbn [cstep]. rewrite Ev. reflexivity.
Qed.
Lemma cboth_do_loop kc k : forall g o, cres fn (SDo body kc, k, o) k (Ng g) (sdo_loop (sexec f None) g body kc o).
Proof.
  induction g as [|g IHg]; intros o; cbn [sdo_loop].
  - intros n [Hn _]. apply Nat.le_0_r in Hn. subst n. reflexivity.
  - rewrite <- spre_nil. apply (cres_step_S (st := (SDo body kc, k, o)) eq_refl (HN g)).
    exact (cspec_do_after IHg (e := Some (body, Kdo body kc k)) (cspec_weaken (fun n Hn => proj2 Hn) (Hbody None o _))).
Qed.
End Loops.

Theorem sw_seek_both fn : forall f, cboth_at fn f.
Proof.
  induction f as [|f IH]; intros m s o k.
  - apply cspec_absent. intros n Hn. destruct s; cbn [sheight] in Hn; lia.
  - set (N := fun n => n + sheight s <= S f).
    assert (IH' : forall m' s' o' k', sheight s' < sheight s -> cspec fn (centry m' s' k') o' k' N (sexec f m' s' o')).
    { intros m' s' o' k' Hs. apply (cspec_weaken (N1 := fun n => n + sheight s' <= f)); [unfold N; intros n Hn; lia|apply IH]. }
    assert (Hdown : forall n, N (S n) -> N n) by (unfold N; intros n Hn; lia).
    assert (Hf : forall n, N n -> n <= f /\ N n) by (unfold N; intros n Hn; split; [destruct s; cbn [sheight] in Hn; lia|exact Hn]).
    clearbody N.
    destruct s as [n| |a b|c a b|init kc inc body|body kc| | |c body|cv s1|s1|l s1|l|c tab]; cbn [sexec]; cbn [sheight] in IH'.
    (* the statements without sub-statement (SMark, SSkip, SBreak, SContinue, SGoto, SGotoInd) come first: seeking in
       them finds nothing *)
    1,2,7,8,13,14: (destruct m as [t|]; [repeat split|]; cbn [centry cspec cres]).
    + eapply cruns_one; reflexivity.
    + exact (cruns_here RNormal eq_refl).
    + exact (cruns_here RBreak eq_refl).
    + exact (cruns_here RCont eq_refl).
    + exact (cruns_here (RGoto l) (ex_intro _ k eq_refl)).
    + destruct o as [|v o1]; [apply (cres_stuck (k := k)); [reflexivity|discriminate]|]. destruct (nth_error tab v) as [l|] eqn:En.
      * eapply cruns_one; [cbn [cstep]; rewrite En; reflexivity|]. exists k. reflexivity.
      * apply (cres_stuck (k := k)); [cbn [cstep]; rewrite En; reflexivity|discriminate].
    + pose proof (IH' m a o (Kseq b k) ltac:(lia)) as Sa. pose proof (fun m' o1 => IH' m' b o1 k ltac:(lia)) as Hb.
      (* what the frame Kseq b k does with the result of a *)
      assert (Hafter : forall st, cres fn st (Kseq b k) N (sexec f m a o) ->
                cres fn st k N (match sexec f m a o with
                                | Some (t1, o1, RNormal) => spre t1 (sexec f None b o1)
                                | Some (t1, o1, RSeek) => spre t1 (sexec f m b o1)
                                | r => r end)).
      { intros st. destruct (sexec f m a o) as [[[t1 o1] out1]|]; [|exact (fun H => H)]. intros (st1 & Hr1 & Ho1).
        pose proof (cframe_seq fn Ho1) as Hfr. destruct out1; try exact (cruns_after_nil Hr1 Hfr); [|destruct Ho1].
        exact (cres_after (cstar_trans_nil Hr1 Hfr) (Hb None o1)). }
      destruct m as [t|]; cbn [centry sfind] in *; [|exact (cres_silent (st := (SSeq a b, k, o)) eq_refl (Hafter _ Sa))].
      destruct (sfind t a (Kseq b k)) as [[s1 k1]|]; [exact (Hafter _ Sa)|].
      (* not in a: the seek goes on in b *)
      destruct (sexec f (Some t) a o) as [[[t1 o1] out1]|]; [|exact (cspec_absent Sa)].
      destruct Sa as (-> & -> & ->). rewrite spre_nil. exact (Hb (Some t) o).
    + pose proof (fun m' o1 => IH' m' b o1 k ltac:(lia)) as Hb. destruct m as [t|]; cbn [centry sfind].
      * pose proof (IH' (Some t) a o k ltac:(lia)) as Sa. cbn [centry] in Sa. destruct (sfind t a k) as [[s1 k1]|].
        -- destruct (sexec f (Some t) a o) as [[[t1 o1] out1]|]; [|exact Sa]. destruct out1; try exact Sa. elim (cruns_noseek Sa eq_refl).
        -- destruct (sexec f (Some t) a o) as [[[t1 o1] out1]|]; [|exact (cspec_absent Sa)].
           destruct Sa as (-> & -> & ->). rewrite spre_nil. exact (Hb (Some t) o).
      * destruct o as [|v o1]; [apply (cres_stuck (k := k)); [reflexivity|discriminate]|].
        apply (cres_step (st := (SIf c a b, k, v :: o1)) eq_refl). destruct (v =? 0); [exact (Hb None o1)|exact (IH' None a o1 k ltac:(lia))].
    + pose proof (fun m' o1 k' => IH' m' body o1 k' ltac:(lia)) as Hbody.
      destruct m as [t|]; cbn [centry sfind].
      * refine (cspec_for_after _ (Hbody (Some t) o _)). intros o1. rewrite <- spre_nil.
        exact (cres_weaken Hf (cboth_for_loop Hdown Hbody kc inc k f [] o1)).
      * exact (cres_weaken Hf (cboth_for_loop Hdown Hbody kc inc k f init o)).
    + pose proof (fun m' o1 k' => IH' m' body o1 k' ltac:(lia)) as Hbody.
      pose proof (cspec_do_after (fun o1 => cres_weaken Hf (cboth_do_loop Hdown Hbody kc k f o1)) (Hbody m o _)) as Sb.
      destruct m as [t|]; [exact Sb|exact (cres_silent (st := (SDo body kc, k, o)) eq_refl Sb)].
    + pose proof (fun t o1 => IH' (Some t) body o1 (Kswitch k) ltac:(lia)) as Hbody. cbn [centry] in Hbody.
      destruct m as [[cv| |l]|]; cbn [centry sfind]; [repeat split..| |].
      * exact (cspec_switch_end (Hbody _ o)).
      * (* the machine enters the body at the label that the seek for it finds *)
        destruct o as [|v o1]; [apply (cres_stuck (k := k)); [reflexivity|discriminate]|].
        pose proof (Hbody (TCase v) o1) as S1. pose proof (Hbody TDefault o1) as S2.
        destruct (sfind (TCase v) body (Kswitch k)) as [[s1 k1]|] eqn:F1.
        { apply (cres_step (st1 := (s1, k1, o1))); [cbn [cstep]; rewrite F1; reflexivity|]. apply (cspec_switch_end (e := Some (s1, k1))) in S1.
          destruct (sexec f (Some (TCase v)) body o1) as [[[t1 o2] out1]|]; [|exact S1]. destruct out1; try exact S1. elim (cruns_noseek S1 eq_refl). }
        destruct (sexec f (Some (TCase v)) body o1) as [[[t1 o2] out1]|]; [|exact (cspec_absent (e := Some (SSwitch c body, k)) S1)].
        destruct S1 as (-> & _ & _).
        destruct (sfind TDefault body (Kswitch k)) as [[s2 k2]|] eqn:F2.
        { apply (cres_step (st1 := (s2, k2, o1))); [cbn [cstep]; rewrite F1, F2; reflexivity|]. apply (cspec_switch_end (e := Some (s2, k2))) in S2.
          destruct (sexec f (Some TDefault) body o1) as [[[t3 o3] out3]|]; [|exact S2]. destruct out3; try exact S2. elim (cruns_noseek S2 eq_refl). }
        destruct (sexec f (Some TDefault) body o1) as [[[t3 o3] out3]|]; [|exact (cspec_absent (e := Some (SSwitch c body, k)) S2)].
        destruct S2 as (-> & _ & _). eapply cruns_one; [cbn [cstep]; rewrite F1, F2; reflexivity|reflexivity].
    + exact (cspec_label m (TCase cv) s1 (SCase cv s1) (fun _ => eq_refl) eq_refl (IH' _ s1 o k ltac:(lia))).
    + exact (cspec_label m TDefault s1 (SDefault s1) (fun _ => eq_refl) eq_refl (IH' _ s1 o k ltac:(lia))).
    + exact (cspec_label m (TLabel l) s1 (SLabel l s1) (fun _ => eq_refl) eq_refl (IH' _ s1 o k ltac:(lia))).
Qed.

Theorem sw_seek_agrees_with_continuations fn : forall f, cagree_at fn f.
Proof. intros f m s o tr o' out H k. pose proof (sw_seek_both fn f m s o k) as S. rewrite H in S. exact S. Qed.

(* What the result of srun says of the machine, entered where srun enters the body: a result is a run to the end of
   the function, through any number of gotos; no result means that the machine does not get there within the steps the
   fuel covers - a break or continue that nothing binds, a goto to a label the function does not have, or whatever
   makes sexec fail.  Where there is nothing to enter, srun has no result. *)
Lemma sw_function_both : forall fuel m body o,
  match centry m body Kstop, srun fuel m body o with
  | Some (s1, k1), Some (tr, o') => cstar body (s1, k1, o) tr (SSkip, Kstop, o')
  | Some (s1, k1), None => forall n, n + sheight body < fuel -> crun n body (s1, k1, o) = None
  | None, r => r = None
  end.
Proof.
  induction fuel as [|f IHf]; intros m body o; [destruct (centry m body Kstop) as [[s1 k1]|]; [intros n Hn; lia|reflexivity]|].
  cbn [srun]. pose proof (sw_seek_both body f m body o Kstop) as S. destruct (centry m body Kstop) as [[s1 k1]|].
  - destruct (sexec f m body o) as [[[t o1] out]|]; [|intros n Hn; apply S; lia]. destruct S as (st' & Hr & Ho).
    destruct out; cbn [coutcome] in Ho.
    + subst st'. exact Hr.
    + (* a break that nothing binds: the machine is stuck at Kstop *)
      subst st'. intros n _. apply (crun_back Hr). destruct n; reflexivity.
    + subst st'. intros n _. apply (crun_back Hr). destruct n; reflexivity.
    + (* the goto itself is a step of the machine *)
      destruct Ho as [k3 ->]. specialize (IHf (Some (TLabel l)) body o1). cbn [centry] in IHf.
      destruct (sfind (TLabel l) body Kstop) as [[s2 k2]|] eqn:Ef.
      * assert (Hs : cstep body (SGoto l, k3, o1) = Some ([], (s2, k2, o1))) by (cbn [cstep]; rewrite Ef; reflexivity).
        destruct (srun f (Some (TLabel l)) body o1) as [[t2 o2]|].
        -- exact (cstar_trans Hr (cstar_step body _ [] _ _ _ Hs IHf)).
        -- intros n Hn. apply (crun_back Hr). destruct n as [|n]; [reflexivity|]. exact (crun_S_none Hs (IHf n ltac:(lia))).
      * rewrite IHf. intros n _. apply (crun_back Hr). destruct n as [|n]; [reflexivity|]. rewrite crun_S. cbn [cstep]. rewrite Ef. reflexivity.
    + destruct Ho.
  - destruct (sexec f m body o) as [[[t o1] out]|]; [destruct S as (-> & _); reflexivity|reflexivity].
Qed.

(* whenever the seek semantics gives the function body a complete run (through any number of
   gotos), the continuation machine runs from the body - or from the labelled statement it was
   entered at - with the same trace to the final state: nothing left to do *)
Theorem sw_function_agrees_with_continuations : forall fuel m body o tr o',
  srun fuel m body o = Some (tr, o') ->
  exists s1 k1, centry m body Kstop = Some (s1, k1) /\ cstar body (s1, k1, o) tr (SSkip, Kstop, o').
Proof.
  intros fuel m body o tr o' H. pose proof (sw_function_both fuel m body o) as B. rewrite H in B.
  destruct (centry m body Kstop) as [[s1 k1]|]; [|discriminate B]. exists s1, k1. split; [reflexivity|exact B].
Qed.

Corollary sw_program_agrees_with_continuations : forall fuel body o tr o',
  srun fuel None body o = Some (tr, o') -> cstar body (body, Kstop, o) tr (SSkip, Kstop, o').
Proof.
  intros fuel body o tr o' H. destruct (sw_function_agrees_with_continuations _ _ _ _ _ _ H) as (s1 & k1 & He & Hr). cbn [centry] in He. injection He as <- <-. exact Hr.
Qed.
