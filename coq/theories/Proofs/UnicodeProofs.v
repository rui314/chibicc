(* unicode.c.  encode_utf8 writes the RFC 3629 sequence and decode_utf8 reads it back: a byte is a
   tag above a payload, so the C code's shifts and masks are the table's divisions and remainders.
   The identifier tables denote Annex D: a union of ranges changes value only at the end points of
   its ranges, so the two sides are compared there ([eq_by_breakpoints]). *)
From Chibicc Require Import Base.Mach Model.Unicode Spec.Utf Gen.UnicodeTables.
Local Open Scope N_scope.

(* the byte t + x: a tag t (a multiple of 2^k) above a k-bit payload x *)
Lemma tag_multiple t k : t mod 2 ^ k = 0 -> t = t / 2 ^ k * 2 ^ k.
Proof. intros H. rewrite (N.div_mod' t (2 ^ k)) at 1. rewrite H, N.add_0_r. apply N.mul_comm. Qed.

Lemma tag_of t k x : t mod 2 ^ k = 0 -> x < 2 ^ k -> N.shiftr (t + x) k = t / 2 ^ k.
Proof.
  intros Ht Hx. rewrite (tag_multiple t k Ht) at 1.
  rewrite N.shiftr_div_pow2, N.div_add_l by (apply N.pow_nonzero; discriminate).
  rewrite (N.div_small x) by exact Hx. apply N.add_0_r.
Qed.

Lemma payload_of t k x : t mod 2 ^ k = 0 -> x < 2 ^ k -> N.land (t + x) (N.ones k) = x.
Proof.
  intros Ht Hx. rewrite (tag_multiple t k Ht).
  rewrite N.land_ones, N.add_comm, N.mod_add by (apply N.pow_nonzero; discriminate).
  apply N.mod_small. exact Hx.
Qed.

Lemma tagged_byte t k x : t mod 2 ^ k = 0 -> x < 2 ^ k -> t + x < 256 -> to_char (N.lor t x) = t + x.
Proof.
  intros Ht Hx Hb. rewrite (tag_multiple t k Ht) at 1. rewrite lor_const_add by exact Hx.
  rewrite <- (tag_multiple t k Ht). apply N.mod_small. exact Hb.
Qed.

Lemma cont_byte x : to_char (N.lor 128 (N.land x 63)) = 128 + x mod 64.
Proof.
  assert (H : x mod 64 < 64) by (apply N.mod_lt; discriminate).
  change 63 with (N.ones 6). rewrite N.land_ones. apply (tagged_byte 128 6); [reflexivity|exact H|].
  change (2 ^ 6) with 64. lia.
Qed.

Lemma encode_is_rfc3629 c : c < 2097152 -> encode_utf8 c = rfc3629 c.
Proof.
  intros Hc. unfold encode_utf8, rfc3629. rewrite !cont_byte, !N.shiftr_div_pow2.
  change (2 ^ 6) with 64. change (2 ^ 12) with 4096. change (2 ^ 18) with 262144.
  replace (c <=? 127) with (c <? 128) by lia. replace (c <=? 2047) with (c <? 2048) by lia.
  replace (c <=? 65535) with (c <? 65536) by lia.
  destruct (c <? 128) eqn:F1.
  { f_equal. apply N.mod_small. lia. }
  destruct (c <? 2048) eqn:F2.
  { rewrite (tagged_byte 192 5) by lia. reflexivity. }
  destruct (c <? 65536) eqn:F3.
  { rewrite (tagged_byte 224 4) by lia. reflexivity. }
  (* the lead byte has room for three payload bits above the 18 of its continuation bytes: c < 2^21 *)
  rewrite (tagged_byte 240 3) by lia. reflexivity.
Qed.

(* one round of the continuation loop appends the six payload bits: with the higher bits x / 64
   of x accumulated, the continuation byte of x mod 64 gives x *)
Lemma cont_step n x p : x < 4294967296 ->
  dec_cont (S n) (x / 64) (128 + x mod 64 :: p) = dec_cont n x p.
Proof.
  intros Hx. assert (Hr : x mod 2 ^ 6 < 2 ^ 6) by (apply N.mod_lt; discriminate).
  cbn [dec_cont]. change 64 with (2 ^ 6). change 63 with (N.ones 6).
  rewrite (tag_of 128), (payload_of 128), lor_shiftl_add by (reflexivity || exact Hr).
  rewrite (N.mul_comm (x / 2 ^ 6)), <- N.div_mod'. unfold u32. rewrite N.mod_small by exact Hx. reflexivity.
Qed.

Lemma lead2 q p : q < 32 -> decode_utf8 (192 + q :: p) = dec_cont 1 q p.
Proof.
  intros H. cbn [decode_utf8]. change 31 with (N.ones 5). rewrite (payload_of 192) by (reflexivity || exact H).
  replace (192 + q <? 128) with false by lia. replace (240 <=? 192 + q) with false by lia.
  replace (224 <=? 192 + q) with false by lia. replace (192 <=? 192 + q) with true by lia. reflexivity.
Qed.
Lemma lead3 q p : q < 16 -> decode_utf8 (224 + q :: p) = dec_cont 2 q p.
Proof.
  intros H. cbn [decode_utf8]. change 15 with (N.ones 4). rewrite (payload_of 224) by (reflexivity || exact H).
  replace (224 + q <? 128) with false by lia. replace (240 <=? 224 + q) with false by lia.
  replace (224 <=? 224 + q) with true by lia. reflexivity.
Qed.
Lemma lead4 q p : q < 8 -> decode_utf8 (240 + q :: p) = dec_cont 3 q p.
Proof.
  intros H. cbn [decode_utf8]. change 7 with (N.ones 3). rewrite (payload_of 240) by (reflexivity || exact H).
  replace (240 + q <? 128) with false by lia. replace (240 <=? 240 + q) with true by lia. reflexivity.
Qed.

Theorem decode_rfc3629 c rest : c < 2097152 -> decode_utf8 (rfc3629 c ++ rest) = DecOk c rest.
Proof.
  intros Hc. unfold rfc3629.
  (* the payloads as c / 64 / 64 ..., the form in which [cont_step] takes them back one round at a time *)
  change 4096 with (64 * 64). change 262144 with (64 * 64 * 64). rewrite <- !N.div_div by discriminate.
  destruct (c <? 128) eqn:F1.
  { cbn [app decode_utf8]. rewrite F1. reflexivity. }
  destruct (c <? 2048) eqn:F2.
  { cbn [app]. rewrite lead2, cont_step by lia. reflexivity. }
  destruct (c <? 65536) eqn:F3.
  { cbn [app]. rewrite lead3, !cont_step by lia. reflexivity. }
  cbn [app]. rewrite lead4, !cont_step by lia. reflexivity.
Qed.

Theorem decode_rejects_lone_continuation b rest : 128 <= b < 192 -> decode_utf8 (b :: rest) = DecErr.
Proof.
  intros H. cbn [decode_utf8].
  replace (b <? 128) with false by lia. replace (240 <=? b) with false by lia.
  replace (224 <=? b) with false by lia. replace (192 <=? b) with false by lia. reflexivity.
Qed.

Theorem decode_rejects_bad_continuation b x rest :
  192 <= b < 256 -> x < 256 -> ~ (128 <= x < 192) -> decode_utf8 (b :: x :: rest) = DecErr.
Proof.
  intros Hb Hx Hn. cbn [decode_utf8].
  replace (b <? 128) with false by lia.
  assert (E : N.shiftr x 6 =? 2 = false).
  { rewrite N.shiftr_div_pow2. change (2 ^ 6) with 64. apply N.eqb_neq. lia. }
  destruct (240 <=? b); [cbn [dec_cont]; rewrite E; reflexivity|].
  destruct (224 <=? b); [cbn [dec_cont]; rewrite E; reflexivity|].
  replace (192 <=? b) with true by lia. cbn [dec_cont]. rewrite E. reflexivity.
Qed.

Theorem utf16_is_spec c : c < 1114112 -> utf16_units c = utf16_spec c.
Proof.
  intros Hc. unfold utf16_units, utf16_spec, to_u16, u32.
  destruct (c <? 65536) eqn:E.
  { rewrite N.mod_small by lia. reflexivity. }
  change 1023 with (N.ones 10). rewrite N.shiftr_div_pow2, !N.land_ones. change (2 ^ 10) with 1024.
  replace ((c + 4294967296 - 65536) mod 4294967296) with (c - 65536) by lia.
  rewrite !(N.mod_small _ 65536) by lia.
  rewrite (N.mod_small ((c - 65536) / 1024) 1024) by lia. reflexivity.
Qed.

Theorem utf16_surrogates c : 65536 <= c < 1114112 ->
  exists w1 w2, utf16_units c = [w1; w2] /\ 55296 <= w1 <= 56319 /\ 56320 <= w2 <= 57343 /\
                utf16_decode [w1; w2] = Some c.
Proof.
  intros Hc. rewrite utf16_is_spec by lia. unfold utf16_spec.
  replace (c <? 65536) with false by lia.
  eexists; eexists. split; [reflexivity|]. unfold utf16_decode. repeat split; [lia..|]. f_equal. lia.
Qed.

Theorem utf16_bmp c : c < 65536 -> utf16_units c = [c].
Proof. intros H. rewrite utf16_is_spec by lia. unfold utf16_spec. replace (c <? 65536) with true by lia. reflexivity. Qed.

(* [resp bps f]: from c to c + 1, f changes value only if c + 1 is a point of bps.  Two such predicates
   that agree at 0 and at the points of their lists agree everywhere, by induction on c *)
Definition resp (bps : list N) (f : N -> bool) : Prop :=
  forall c, ~ In (N.succ c) bps -> f (N.succ c) = f c.

Fixpoint bps_of (l : list (N * N)) : list N :=
  match l with [] => [] | (lo, hi) :: r => lo :: (hi + 1) :: bps_of r end.

Lemma in_range_resp l : resp (bps_of l) (in_range l).
Proof.
  induction l as [|[lo hi] r IH]; intros c H; cbn [in_range]; [reflexivity|].
  cbn [bps_of In] in H. rewrite IH by tauto.
  replace (lo <=? N.succ c) with (lo <=? c) by lia. replace (N.succ c <=? hi) with (c <=? hi) by lia.
  reflexivity.
Qed.

Lemma resp_binop (op : bool -> bool -> bool) bf bg f g :
  resp bf f -> resp bg g -> resp (bf ++ bg) (fun c => op (f c) (g c)).
Proof.
  intros Hf Hg c H. rewrite Hf, Hg; [reflexivity| |]; intros Hb; apply H, in_or_app; [right|left]; exact Hb.
Qed.

Lemma resp_negb bps f : resp bps f -> resp bps (fun c => negb (f c)).
Proof. intros Hf c H. rewrite (Hf c H). reflexivity. Qed.

Theorem eq_by_breakpoints bf bg f g :
  resp bf f -> resp bg g ->
  forallb (fun b => Bool.eqb (f b) (g b)) (0 :: bf ++ bg) = true ->
  forall c, f c = g c.
Proof.
  intros Hf Hg Hall. rewrite forallb_forall in Hall.
  induction c as [|c IH] using N.peano_ind.
  - apply Bool.eqb_prop, Hall. left. reflexivity.
  - destruct (in_dec N.eq_dec (N.succ c) (bf ++ bg)) as [Hin|Hn].
    + apply Bool.eqb_prop, Hall. right. exact Hin.
    + (* no point at c + 1: neither side changes *)
      rewrite Hf, Hg; [exact IH| |]; intros Hb; apply Hn, in_or_app; [right|left]; exact Hb.
Qed.

(* unicode.c is_ident1 / is_ident2, over its two range tables as Gen/UnicodeTables.v has them *)
Definition is_ident1 (c : N) : bool := in_range ident1_ranges c.
Definition is_ident2 (c : N) : bool := is_ident1 c || in_range ident2_ranges c.

Theorem is_ident1_annex_d : forall c, is_ident1 c = spec_ident_start c.
Proof.
  eapply eq_by_breakpoints.
  - apply in_range_resp.
  - apply (resp_binop orb); [apply in_range_resp|].
    apply (resp_binop andb); [apply in_range_resp|]. apply resp_negb, in_range_resp.
  - vm_compute. reflexivity.
Qed.

Theorem is_ident2_annex_d : forall c, is_ident2 c = spec_ident_cont c.
Proof.
  eapply eq_by_breakpoints.
  - apply (resp_binop orb); apply in_range_resp.
  - apply (resp_binop orb); [apply (resp_binop orb)|]; apply in_range_resp.
  - vm_compute. reflexivity.
Qed.
