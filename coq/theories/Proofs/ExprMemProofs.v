(* The ground under the correctness proof for expressions over objects (ExprMemCorrect.v).  The store of the
   specification (one value per variable) and the bytes of the machine are related by [agree]; code is
   specified by a triple over predicates on the MEMORY alone, [runs c t v P Q]; what code may change is bounded
   by [touch_only]: the variables and a window of the parser's temporaries.  load(ty), store(ty) and the code of
   the two-operand operators are brought into that form here, over CodegenIntProofs / CastTableProofs. *)
From Coq Require Import ZArith Bool List Lia.
From Chibicc Require Import Base.Mach Spec.C11Int Spec.C11IntMem Model.X86Int Model.CodegenInt Gen.CastTable
     Model.ConstFold Proofs.ConstFoldProofs Proofs.CastTableProofs Proofs.CodegenIntProofs Model.ExprGen Model.ExprMem.
Import ListNotations.
Local Open Scope Z_scope.

Theorem store_outside : forall m a n v p, ~ (a <= p < a + Z.of_nat n) -> store_le m a n v p = m p.
Proof.
  intros m a n. revert m a. induction n as [|n IH]; intros m a v p Hp; cbn [store_le]; [reflexivity|].
  rewrite IH by lia. destruct (Z.eqb_spec p a) as [E|E]; [lia|reflexivity].
Qed.

Lemma load_le_ext : forall n m m' a, (forall p, a <= p < a + Z.of_nat n -> m p = m' p) -> load_le m a n = load_le m' a n.
Proof.
  induction n as [|n IH]; intros m m' a H; cbn [load_le]; [reflexivity|].
  rewrite (H a) by lia. rewrite (IH m m' (a + 1)); [reflexivity|]. intros p Hp. apply H. lia.
Qed.

Lemma load_le_range : forall n m a, 0 <= load_le m a n < 256 ^ Z.of_nat n.
Proof.
  induction n as [|n IH]; intros m a; cbn [load_le].
  - cbn. lia.
  - rewrite Nat2Z.inj_succ, Z.pow_succ_r by lia. specialize (IH m (a + 1)).
    pose proof (Z.mod_pos_bound (m a) 256 ltac:(lia)). nia.
Qed.

Lemma load_store_same : forall n m a v, load_le (store_le m a n v) a n = v mod 256 ^ Z.of_nat n.
Proof.
  induction n as [|n IH]; intros m a v; cbn [load_le store_le].
  - cbn. rewrite Z.mod_1_r. reflexivity.
  - rewrite IH, store_outside, Z.eqb_refl by lia.
    rewrite Nat2Z.inj_succ, Z.pow_succ_r by lia.
    assert (Hp : 0 < 256 ^ Z.of_nat n) by (apply Z.pow_pos_nonneg; lia).
    rewrite (Z.rem_mul_r v 256 (256 ^ Z.of_nat n)) by lia.
    rewrite Z.mod_mod by lia. reflexivity.
Qed.

(* property C04: no neighbouring object is disturbed *)
Theorem store_disjoint : forall m a1 n1 a2 n2 v,
  a2 + Z.of_nat n2 <= a1 \/ a1 + Z.of_nat n1 <= a2 ->
  load_le (store_le m a2 n2 v) a1 n1 = load_le m a1 n1.
Proof.
  intros m a1 n1 a2 n2 v H. apply load_le_ext. intros p Hp. apply store_outside. lia.
Qed.

Definition nbytes (t : ity) : nat := Z.to_nat (size_of t).
(* object representation of a value of type t: two's complement in size_of t bytes *)
Definition urepr (t : ity) (v : Z) : Z := v mod 256 ^ Z.of_nat (nbytes t).

Definition nvars (F : frame) : nat := length (fvars F).
Definition ntmps (F : frame) : nat := length (ftemps F).

Definition sep (a1 n1 a2 n2 : Z) : Prop := a1 + n1 <= a2 \/ a2 + n2 <= a1.

Definition wf_frame (F : frame) : Prop :=
  (forall x, (x < nvars F)%nat -> 0 <= vaddr F x /\ vaddr F x + vsize F x <= 2 ^ 64) /\
  (forall i, (i < ntmps F)%nat -> 0 <= taddr F i /\ taddr F i + tsize F i <= 2 ^ 64) /\
  (forall x y, (x < nvars F)%nat -> (y < nvars F)%nat -> x <> y -> sep (vaddr F x) (vsize F x) (vaddr F y) (vsize F y)) /\
  (forall x i, (x < nvars F)%nat -> (i < ntmps F)%nat -> sep (vaddr F x) (vsize F x) (taddr F i) (tsize F i)) /\
  (forall i j, (i < ntmps F)%nat -> (j < ntmps F)%nat -> i <> j -> sep (taddr F i) (tsize F i) (taddr F j) (tsize F j)).

Definition sepb (a1 n1 a2 n2 : Z) : bool := (a1 + n1 <=? a2) || (a2 + n2 <=? a1).
Definition wf_frameb (F : frame) : bool :=
  let vs := seq 0 (nvars F) in let ts := seq 0 (ntmps F) in
  forallb (fun x => (0 <=? vaddr F x) && (vaddr F x + vsize F x <=? 2 ^ 64)) vs &&
  forallb (fun i => (0 <=? taddr F i) && (taddr F i + tsize F i <=? 2 ^ 64)) ts &&
  forallb (fun x => forallb (fun y => Nat.eqb x y || sepb (vaddr F x) (vsize F x) (vaddr F y) (vsize F y)) vs) vs &&
  forallb (fun x => forallb (fun i => sepb (vaddr F x) (vsize F x) (taddr F i) (tsize F i)) ts) vs &&
  forallb (fun i => forallb (fun j => Nat.eqb i j || sepb (taddr F i) (tsize F i) (taddr F j) (tsize F j)) ts) ts.

Lemma sepb_sep a1 n1 a2 n2 : sepb a1 n1 a2 n2 = true -> sep a1 n1 a2 n2.
Proof. unfold sepb, sep. intros H. apply orb_true_iff in H. lia. Qed.

Lemma forallb_seq f n x : forallb f (seq 0 n) = true -> (x < n)%nat -> f x = true.
Proof. rewrite forallb_forall. intros H Hx. apply H, in_seq. lia. Qed.

Lemma wf_frameb_sound F : wf_frameb F = true -> wf_frame F.
Proof.
  unfold wf_frameb. intros H.
  apply andb_true_iff in H as [H H5]. apply andb_true_iff in H as [H H4].
  apply andb_true_iff in H as [H H3]. apply andb_true_iff in H as [H1 H2].
  split; [|split; [|split; [|split]]].
  - intros x Hx. apply (forallb_seq _ _ x) in H1; [lia|exact Hx].
  - intros i Hi. apply (forallb_seq _ _ i) in H2; [lia|exact Hi].
  - intros x y Hx Hy Hxy. destruct (orb_prop _ _ (forallb_seq _ _ y (forallb_seq _ _ x H3 Hx) Hy)) as [E|E];
      [apply Nat.eqb_eq in E; contradiction|apply sepb_sep; exact E].
  - intros x i Hx Hi. apply sepb_sep. exact (forallb_seq _ _ i (forallb_seq _ _ x H4 Hx) Hi).
  - intros i j Hi Hj Hij. destruct (orb_prop _ _ (forallb_seq _ _ j (forallb_seq _ _ i H5 Hi) Hj)) as [E|E];
      [apply Nat.eqb_eq in E; contradiction|apply sepb_sep; exact E].
Qed.

Definition agree (F : frame) (env : venv) (m : mem) : Prop :=
  length env = nvars F /\
  forall x, (x < nvars F)%nat ->
    in_range (vty (ftys F) x) (vget env x) = true /\
    load_le m (vaddr F x) (nbytes (vty (ftys F) x)) = urepr (vty (ftys F) x) (vget env x).

Definition in_var (F : frame) (p : Z) : Prop := exists x, (x < nvars F)%nat /\ vaddr F x <= p < vaddr F x + vsize F x.
Definition in_temp (F : frame) (lo hi : nat) (p : Z) : Prop :=
  exists i, (lo <= i < hi)%nat /\ taddr F i <= p < taddr F i + tsize F i.
(* m' differs from m only inside the variables and the temporaries lo .. hi-1 *)
Definition touch_only (F : frame) (lo hi : nat) (m m' : mem) : Prop :=
  forall p, ~ in_var F p -> ~ in_temp F lo hi p -> m' p = m p.
Definition unchanged_outside (F : frame) (m m' : mem) : Prop := touch_only F 0 (ntmps F) m m'.

Lemma touch_refl F lo hi m : touch_only F lo hi m m.
Proof. intros p _ _. reflexivity. Qed.

Lemma touch_mono {F lo hi lo1 hi1 m1 m2} :
  touch_only F lo1 hi1 m1 m2 -> (lo <= lo1)%nat -> (hi1 <= hi)%nat -> touch_only F lo hi m1 m2.
Proof. intros H A B p Hv Ht. apply H; [exact Hv|]. intros (i & Hi & Hp). apply Ht. exists i. split; [lia|exact Hp]. Qed.

Lemma touch_trans {F lo hi m1 m2 m3} : touch_only F lo hi m1 m2 -> touch_only F lo hi m2 m3 -> touch_only F lo hi m1 m3.
Proof. intros H1 H2 p Hv Ht. rewrite H2, H1; auto. Qed.

Lemma vsize_nbytes F x : Z.of_nat (nbytes (vty (ftys F) x)) = vsize F x.
Proof. unfold nbytes, vsize. destruct (vty (ftys F) x); reflexivity. Qed.

Lemma vset_length : forall env x v, length (vset env x v) = length env.
Proof. induction env as [|a env IH]; intros [|x] v; cbn [vset length]; auto. Qed.

Lemma vget_vset : forall env x v z,
  vget (vset env x v) z = if Nat.eqb x z && (x <? length env)%nat then v else vget env z.
Proof.
  unfold vget. induction env as [|a env IH]; intros [|x] v [|z]; cbn [vset nth length]; try reflexivity.
  (* left: both indices successors.  In the empty store the bound fails behind a test that does not reduce *)
  - rewrite andb_false_r. reflexivity.
  - apply IH.
Qed.

Lemma store_var_agree F env m x v r :
  wf_frame F -> agree F env m -> (x < nvars F)%nat ->
  in_range (vty (ftys F) x) v = true -> r mod 256 ^ Z.of_nat (nbytes (vty (ftys F) x)) = urepr (vty (ftys F) x) v ->
  agree F (vset env x v) (store_le m (vaddr F x) (nbytes (vty (ftys F) x)) r).
Proof.
  intros (_ & _ & Wvv & _ & _) [Hl Ha] Hx Hr Hrep. split; [rewrite vset_length; exact Hl|].
  intros y Hy. rewrite vget_vset, Hl, (proj2 (Nat.ltb_lt _ _) Hx), andb_true_r. destruct (Nat.eqb_spec x y) as [<-|N].
  - split; [exact Hr|]. rewrite load_store_same. exact Hrep.
  - destruct (Ha y Hy) as [A B]. split; [exact A|].
    rewrite store_disjoint; [exact B|]. rewrite !vsize_nbytes. specialize (Wvv x y Hx Hy N). unfold sep in Wvv. lia.
Qed.

Lemma store_var_touch F lo hi m x n r : (x < nvars F)%nat -> Z.of_nat n = vsize F x ->
  touch_only F lo hi m (store_le m (vaddr F x) n r).
Proof.
  intros Hx Hn p Hv _. apply store_outside. intros Hp. apply Hv. exists x. split; [exact Hx|lia].
Qed.

Lemma store_temp_agree F env m i n r :
  wf_frame F -> agree F env m -> (i < ntmps F)%nat -> Z.of_nat n = tsize F i -> agree F env (store_le m (taddr F i) n r).
Proof.
  intros (_ & _ & _ & Wvt & _) [Hl Ha] Hi Hn. split; [exact Hl|]. intros y Hy. destruct (Ha y Hy) as [A B]. split; [exact A|].
  rewrite store_disjoint; [exact B|]. rewrite vsize_nbytes. specialize (Wvt y i Hy Hi). unfold sep in Wvt. lia.
Qed.

Lemma store_temp_touch F lo hi m i n r : (lo <= i < hi)%nat -> Z.of_nat n = tsize F i -> touch_only F lo hi m (store_le m (taddr F i) n r).
Proof.
  intros Hi Hn p _ Ht. apply store_outside. intros Hp. apply Ht. exists i. split; [exact Hi|]. lia.
Qed.

Lemma touch_keeps_temp {F lo hi m m' i n} :
  wf_frame F -> touch_only F lo hi m m' -> (i < ntmps F)%nat -> (i < lo \/ hi <= i)%nat -> (hi <= ntmps F)%nat ->
  Z.of_nat n = tsize F i ->
  load_le m' (taddr F i) n = load_le m (taddr F i) n.
Proof.
  intros (_ & _ & _ & Wvt & Wtt) Ht Hi Hout Hhi Hn. apply load_le_ext. intros p Hp. apply Ht.
  - intros (x & Hx & Hxp). specialize (Wvt x i Hx Hi). unfold sep in Wvt. lia.
  - intros (j & Hj & Hjp). assert (Hji : j <> i) by lia. specialize (Wtt j i ltac:(lia) Hi Hji). unfold sep in Wtt. lia.
Qed.

Lemma bin_type_c11 o ta tb :
  bin_type o ta tb = if is_arith o then uac ta tb else if is_shift o then promote ta else I32.
Proof. unfold bin_type. destruct (is_arith o); [apply m_common_is_uac|]. destruct (is_shift o); [apply m_promote|reflexivity]. Qed.

Theorem mm_type_is_c11 G e : mm_type G e = mtype G e.
Proof.
  induction e as [t v|x|o a IH|o a IHa b IHb|t a IH|c IHc a IHa b IHb|a IHa b IHb|x a IH|o x a IH|post inc x];
    cbn [mm_type mtype]; auto.
  - destruct o; rewrite ?IH, ?m_promote, ?plus_promote; reflexivity.
  - rewrite IHa, IHb. apply bin_type_c11.
  - rewrite IHa, IHb. apply m_common_is_uac.
Qed.

Lemma ld_bytes_kind t : ld_bytes (load_kind t) = nbytes t. Proof. destruct t; reflexivity. Qed.
Lemma st_bytes_kind t : st_bytes (store_kind t) = nbytes t. Proof. destruct t; reflexivity. Qed.
Lemma size_pos t : 0 < size_of t. Proof. destruct t; reflexivity. Qed.
Lemma urepr_bits t v : urepr t v = v mod 2 ^ (8 * size_of t). Proof. destruct t; reflexivity. Qed.

(* load(ty) of codegen.c: the extension it picks for each type gives the value back from its bytes *)
Lemma load_R t v : in_range t v = true -> R t v (ld_ext (load_kind t) (urepr t v)).
Proof.
  intros Hr. rewrite urepr_bits.
  (* read at its own type, the low bits of a value give it back *)
  assert (Hs : is_signed t = true -> X86Int.sx (width t) (v mod 2 ^ width t) = v).
  { intros S. change X86Int.sx with ConstFold.sx. rewrite <- (conv_signed t _ S).
    apply conv_unique; [intros ->; discriminate S|exact Hr|apply Zmod_mod]. }
  assert (Hu : is_signed t = false -> 0 <= v < 2 ^ width t) by (intros S; apply (range_unsigned t v S), Hr).
  destruct t; cbn [load_kind size_of Z.eqb Pos.eqb unsigned_flag ld_ext Z.mul Pos.mul width] in *;
    rewrite ?(Hs eq_refl); try specialize (Hu eq_refl).
  (* movs* of a value of a signed type, and mov: the value, cut to the destination *)
  2, 4, 6, 8, 9: apply R_cut; [discriminate|split; discriminate|reflexivity].
  (* movz* loads the value itself *)
  2, 3: rewrite (Z.mod_small v) by exact Hu.
  2, 3: rewrite <- (Z.mod_small v (2 ^ 32)) at 2 by exact (in_range_fits _ v Hr).
  2, 3: apply R_cut; [discriminate|split; discriminate|reflexivity].
  (* _Bool is loaded by movsbl; its values are 0 and 1 *)
  - assert (v = 0 \/ v = 1) as [-> | ->] by lia; [apply (Rbool_b2z false)|apply (Rbool_b2z true)]; reflexivity.
  (* unsigned int is loaded by movsxd as well: only the low half of the register counts *)
  - apply R_cut; [discriminate|split; discriminate|]. change X86Int.sx with ConstFold.sx. rewrite sx_mod. apply Zmod_mod.
Qed.

(* store(ty) writes the low size_of t bytes of the register *)
Lemma R_urepr t v r : R t v r -> r mod 256 ^ Z.of_nat (nbytes t) = urepr t v.
Proof.
  intros HR. rewrite urepr_bits. replace (256 ^ Z.of_nat (nbytes t)) with (2 ^ (8 * size_of t)) by (destruct t; reflexivity).
  apply (mod_pow2_eq r v _ (wbits t)); [destruct t; split; discriminate|apply R_eqmn, HR].
Qed.

Lemma zero_test t a s : in_range t a = true -> R t a (rax s) ->
  exists s', test_zero t s = Some (a =? 0, s').
Proof.
  intros Ra HA. unfold test_zero. cbn [gen_cmp_zero exec exec1 f_zf]. rewrite (R_zero t a (rax s) Ra HA).
  eexists. reflexivity.
Qed.

Section Code.
Variable F : frame.
Hypothesis WF : wf_frame F.
Local Notation G := (ftys F).
Local Notation run := (mrun (frbp F)).

(* the triple: c leaves v of type t in %rax and takes a memory satisfying P to one satisfying Q.  Registers and stack
   are quantified and the stack comes back as found, so the triple of an operand still applies while the other
   operand's value, or the address an assignment stores to, waits on the stack (run_mcbin, = and op=) *)
Definition runs (c : mcode) (t : ity) (v : Z) (P Q : mem -> Prop) : Prop :=
  forall s k m, P m -> exists s' m', run c (s, k, m) = Some (s', k, m') /\ R t v (rax s') /\ Q m'.

Lemma mrun_seq a b st : run (a ;;; b) st = match run a st with Some st' => run b st' | None => None end.
Proof. destruct st as [[s k] m]. reflexivity. Qed.
Lemma mrun_seq2 a b r st : run (a ;;; b ;;; r) st = match run (a ;;; b) st with Some st' => run r st' | None => None end.
Proof. rewrite (mrun_seq a), (mrun_seq a b). destruct (run a st) as [st1|]; [apply mrun_seq|reflexivity]. Qed.
Lemma mrun_seq3 a b c r st :
  run (a ;;; b ;;; c ;;; r) st = match run (a ;;; b ;;; c) st with Some st' => run r st' | None => None end.
Proof. rewrite (mrun_seq a), (mrun_seq a (b ;;; c)). destruct (run a st) as [st1|]; [apply mrun_seq2|reflexivity]. Qed.
Lemma mrun_push c s k m : run (CPush ;;; c) (s, k, m) = run c (s, rax s :: k, m). Proof. reflexivity. Qed.
Lemma mrun_pop c s v k m : run (CPopRdi ;;; c) (s, v :: k, m) = run c (set_rdi s v, k, m). Proof. reflexivity. Qed.
Lemma mrun_lea c off s k m : run (CLea off ;;; c) (s, k, m) = run c (set_rax s ((frbp F + off) mod 2 ^ 64), k, m). Proof. reflexivity. Qed.
Lemma mrun_loadq c s k m : valid_addr (rax s) 8 = true ->
  run (CLoad LdQ ;;; c) (s, k, m) = run c (set_rax s (load_le m (rax s) 8), k, m).
Proof. intros H. rewrite mrun_seq. cbn [mrun ld_bytes ld_ext]. rewrite H. reflexivity. Qed.
Lemma mrun_store sk c s k m : valid_addr (rdi s) (st_bytes sk) = true ->
  run (CStore sk ;;; c) (s, k, m) = run c (s, k, store_le m (rdi s) (st_bytes sk) (rax s)).
Proof. intros H. rewrite mrun_seq. cbn [mrun]. rewrite H. reflexivity. Qed.
Lemma mrun_ins p s k m s' : exec p s = Some s' -> run (CIns p) (s, k, m) = Some (s', k, m).
Proof. intros H. cbn [mrun]. rewrite H. reflexivity. Qed.

Lemma mrun_done p t v s k m : done s p t v -> exists s', run (CIns p) (s, k, m) = Some (s', k, m) /\ R t v (rax s').
Proof. intros (s' & He & HR). exists s'. split; [apply mrun_ins; exact He|exact HR]. Qed.

Definition maps (c : mcode) (t : ity) (x : Z) (t' : ity) (y : Z) : Prop :=
  forall s k m, R t x (rax s) -> exists s', run c (s, k, m) = Some (s', k, m) /\ R t' y (rax s').

Lemma maps_cast from to v : in_range from v = true -> maps (mcast from to) from v to (conv to v).
Proof.
  intros Hr s k m HR. destruct (cast_table_correct from to v s Hr HR) as (p & s' & Hp & He & HR').
  exists s'. split; [|exact HR']. unfold mcast. rewrite Hp. apply mrun_ins. exact He.
Qed.

Lemma maps_promote t x : in_range t x = true -> maps (mcast t (promote t)) t x (promote t) x.
Proof. intros Hr. pose proof (maps_cast t (promote t) x Hr) as M. rewrite (conv_in_range _ x (promote_range _ _ Hr)) in M. exact M. Qed.

Lemma maps_ins p t x t' y : (forall s, R t x (rax s) -> done s p t' y) -> maps (CIns p) t x t' y.
Proof. intros H s k m HR. apply mrun_done, H, HR. Qed.

Lemma maps_then {c t x c' t' y t'' z} : maps c t x t' y -> maps c' t' y t'' z -> maps (c ;;; c') t x t'' z.
Proof. intros H1 H2 s k m HR. destruct (H1 s k m HR) as (s1 & E1 & R1). rewrite mrun_seq, E1. apply H2, R1. Qed.

Lemma runs_then {c t x c' t' y} {P Q : mem -> Prop} : runs c t x P Q -> maps c' t x t' y -> runs (c ;;; c') t' y P Q.
Proof.
  intros Hc Hm s k m Hp. destruct (Hc s k m Hp) as (s1 & m1 & E1 & R1 & Q1). rewrite mrun_seq, E1.
  destruct (Hm s1 k m1 R1) as (s2 & E2 & R2). exists s2, m1. auto.
Qed.

Lemma runs_seq {a ta x b t y} {P Q Q' : mem -> Prop} : runs a ta x P Q -> runs b t y Q Q' -> runs (a ;;; b) t y P Q'.
Proof. intros Ha Hb s k m Hp. destruct (Ha s k m Hp) as (s1 & m1 & E1 & _ & Q1). rewrite mrun_seq, E1. apply Hb, Q1. Qed.

(* the operand of && || ?: and its test *)
Lemma runs_test {c t v} {P Q : mem -> Prop} : runs c t v P Q -> in_range t v = true -> forall s k m, P m ->
  exists s1 s2 m1, run c (s, k, m) = Some (s1, k, m1) /\ test_zero t s1 = Some (v =? 0, s2) /\ Q m1.
Proof.
  intros Hc Hr s k m Hp. destruct (Hc s k m Hp) as (s1 & m1 & E1 & R1 & Q1).
  destruct (zero_test t v s1 Hr R1) as (s2 & T2). exists s1, s2, m1. auto.
Qed.

(* rules of the triple for the code of && (w = true) and || (w = false) - the left operand's verdict w settles the value at 0
   resp. 1, otherwise the right operand's test decides - and for the code of ?: *)
Lemma runs_logic_short w {ca ta x} cb tb {P Q : mem -> Prop} : runs ca ta x P Q -> in_range ta x = true -> (x =? 0) = w ->
  runs ((if w then CAnd else COr) ca ta cb tb) I32 (if w then 0 else 1) P Q.
Proof.
  intros Ha Rx Hx s k m Hp. destruct (runs_test Ha Rx s k m Hp) as (s1 & s2 & m1 & E1 & T2 & Q1).
  destruct w; cbn [mrun]; rewrite E1, T2, Hx; eexists; eexists; (split; [reflexivity|]); (split; [|exact Q1]).
  - exact (R_b2z false _ eq_refl).
  - exact (R_b2z true _ eq_refl).
Qed.

Lemma runs_logic_long w {ca ta x cb tb y} {P Q Q' : mem -> Prop} : runs ca ta x P Q -> in_range ta x = true -> (x =? 0) = negb w ->
  runs cb tb y Q Q' -> in_range tb y = true -> runs ((if w then CAnd else COr) ca ta cb tb) I32 (b2z (negb (y =? 0))) P Q'.
Proof.
  intros Ha Rx Hx Hb Ry s k m Hp. destruct (runs_test Ha Rx s k m Hp) as (s1 & s2 & m1 & E1 & T2 & Q1).
  destruct (runs_test Hb Ry s2 k m1 Q1) as (s3 & s4 & m3 & E3 & T4 & Q3).
  destruct w; cbn [mrun negb] in *; rewrite E1, T2, Hx, E3, T4; eexists; eexists; (split; [reflexivity|]);
    (split; [apply R_b2z; destruct (y =? 0); reflexivity|exact Q3]).
Qed.

Lemma runs_cond {c tc x ca cb t y} {P Q Q' : mem -> Prop} : runs c tc x P Q -> in_range tc x = true ->
  runs (if x =? 0 then cb else ca) t y Q Q' -> runs (CCond c tc ca cb) t y P Q'.
Proof.
  intros Hc Rx H s k m Hp. cbn [mrun]. destruct (runs_test Hc Rx s k m Hp) as (s1 & s2 & m1 & -> & -> & Q1).
  destruct (x =? 0); exact (H s2 k m1 Q1).
Qed.

Lemma runs_weaken c t v (P P' Q Q' : mem -> Prop) :
  runs c t v P Q -> (forall m, P' m -> P m) -> (forall m, Q m -> Q' m) -> runs c t v P' Q'.
Proof.
  intros H HP HQ s k m Hm. destruct (H s k m (HP m Hm)) as (s' & m' & E & HR & Hq). exists s', m'. auto.
Qed.

Lemma lea_var x : (x < nvars F)%nat -> (frbp F + voff F x) mod 2 ^ 64 = vaddr F x.
Proof.
  intros Hx. destruct WF as (Wv & _). specialize (Wv x Hx). unfold vaddr in *. pose proof (size_pos (vty G x)). unfold vsize in Wv.
  apply Z.mod_small. lia.
Qed.
Lemma tk_size_pos k : 0 < tk_size k. Proof. destruct k as [|t]; [reflexivity|apply size_pos]. Qed.
Lemma lea_temp i : (i < ntmps F)%nat -> (frbp F + toff F i) mod 2 ^ 64 = taddr F i.
Proof.
  intros Hi. destruct WF as (_ & Wt & _). specialize (Wt i Hi). unfold taddr in *. pose proof (tk_size_pos (tkind_at F i)). unfold tsize in Wt.
  apply Z.mod_small. lia.
Qed.
Lemma valid_var x : (x < nvars F)%nat -> valid_addr (vaddr F x) (nbytes (vty G x)) = true.
Proof.
  intros Hx. destruct WF as (Wv & _). specialize (Wv x Hx). unfold valid_addr. rewrite vsize_nbytes. lia.
Qed.
Lemma valid_temp i n : (i < ntmps F)%nat -> Z.of_nat n = tsize F i -> valid_addr (taddr F i) n = true.
Proof.
  intros Hi Hn. destruct WF as (_ & Wt & _). specialize (Wt i Hi). unfold valid_addr. lia.
Qed.

Lemma mrun_load t v s k m : valid_addr (rax s) (nbytes t) = true -> in_range t v = true ->
  load_le m (rax s) (nbytes t) = urepr t v ->
  exists s', run (CLoad (load_kind t)) (s, k, m) = Some (s', k, m) /\ R t v (rax s').
Proof.
  intros Hv Hr Hl. cbn [mrun]. rewrite ld_bytes_kind, Hv, Hl. eexists. split; [reflexivity|]. cbn [rax set_rax]. apply load_R. exact Hr.
Qed.

(* the end of every assignment to x: the value in %rax, the address of x on the stack *)
Lemma run_cast_store x env t v s k m lo hi : (x < nvars F)%nat -> agree F env m -> in_range t v = true -> R t v (rax s) ->
  exists s' m', run (mcast t (vty G x) ;;; CPopRdi ;;; CStore (store_kind (vty G x))) (s, vaddr F x :: k, m) = Some (s', k, m') /\
                R (vty G x) (conv (vty G x) v) (rax s') /\ agree F (vset env x (conv (vty G x) v)) m' /\ touch_only F lo hi m m'.
Proof.
  intros Hx Ha Hr HR. destruct (maps_cast t (vty G x) v Hr s (vaddr F x :: k) m HR) as (s1 & E1 & R1). rewrite mrun_seq, E1, mrun_pop.
  cbn [mrun rdi rax set_rdi]. rewrite st_bytes_kind, (valid_var x Hx). eexists; eexists. split; [reflexivity|]. split; [exact R1|]. split.
  - apply store_var_agree; auto using conv_range. apply R_urepr. exact R1.
  - apply store_var_touch; [exact Hx|apply vsize_nbytes].
Qed.

(* the shared shape of all two-operand operators; c2 runs first *)
Lemma run_mcbin o t c1 t1 c2 t2 x1 x2 (castb : bool) tres v (P0 P1 P2 : mem -> Prop) :
  runs c2 t2 x2 P0 P1 -> runs c1 t1 x1 P1 P2 -> in_range t1 x1 = true -> in_range t2 x2 = true ->
  (forall s, R t (conv t x1) (rax s) -> R (if castb then t else t2) (if castb then conv t x2 else x2) (rdi s) -> done s (gen_binop o t) tres v) ->
  runs (mcbin o t c1 t1 c2 t2 castb) tres v P0 P2.
Proof.
  intros H2 H1 R1 R2 Hop s k m Hm. unfold mcbin. rewrite mrun_seq.
  destruct (H2 s k m Hm) as (s1 & m1 & E1 & V1 & Q1). rewrite E1. rewrite mrun_seq.
  assert (exists s2, run (if castb then mcast t2 t else CIns []) (s1, k, m1) = Some (s2, k, m1) /\
                     R (if castb then t else t2) (if castb then conv t x2 else x2) (rax s2)) as (s2 & E2 & V2).
  { destruct castb; [apply maps_cast; assumption|]. exists s1. split; [reflexivity|exact V1]. }
  rewrite E2. rewrite mrun_push, mrun_seq.
  destruct (H1 s2 (rax s2 :: k) m1 Q1) as (s3 & m3 & E3 & V3 & Q3). rewrite E3. rewrite mrun_seq.
  destruct (maps_cast t1 t x1 R1 s3 (rax s2 :: k) m3 V3) as (s4 & E4 & V4). rewrite E4. rewrite mrun_pop.
  destruct (mrun_done (gen_binop o t) tres v (set_rdi s4 (rax s2)) k m3) as (s5 & E5 & V5).
  { apply Hop; cbn [rax rdi set_rdi]; assumption. }
  exists s5, m3. auto.
Qed.

Lemma bin_code_rhs_first o ca ta cb tb : lhs_first o = false ->
  bin_code o ca ta cb tb = if is_shift o then mcbin o (m_common I32 ta) ca ta cb tb false else mcbin o (m_common ta tb) ca ta cb tb true.
Proof. destruct o; intros H; try discriminate H; reflexivity. Qed.

Lemma bin_code_ok o ca ta cb tb x y v (P0 P1 P2 : mem -> Prop) :
  eval_binval o ta tb x y = Some v -> in_range ta x = true -> in_range tb y = true ->
  (if lhs_first o then runs ca ta x P0 P1 /\ runs cb tb y P1 P2 else runs cb tb y P0 P1 /\ runs ca ta x P1 P2) ->
  runs (bin_code o ca ta cb tb) (bin_type o ta tb) v P0 P2.
Proof.
  intros H Rx Ry Hr. unfold eval_binval in H. unfold bin_type. destruct (lhs_first o) eqn:LF; destruct Hr as [Hr1 Hr2].
  - (* a > b, a >= b: the parser's b < a, b <= a - the comparison o' with the operands exchanged, a still evaluated first *)
    assert (Sw : forall o', is_cmp o' = true -> o' <> OGt -> o' <> OGe ->
              runs (mcbin o' (uac tb ta) cb tb ca ta true) I32 (eval_cmp o' (conv (uac tb ta) y) (conv (uac tb ta) x)) P0 P2).
    { intros o' C N1 N2. apply run_mcbin with (x1 := y) (x2 := x) (P1 := P1); try assumption. intros s HA HB.
      exact (cmp_ok _ _ _ s (conv_range _ _) (conv_range _ _) HA HB o' C N1 N2). }
    destruct o; try discriminate LF; cbn [is_arith is_shift is_cmp] in H |- *; injection H as <-;
      unfold bin_code; rewrite m_common_is_uac, (uac_comm ta tb).
    + apply (Sw OLt); [reflexivity|discriminate|discriminate].
    + apply (Sw OLe); [reflexivity|discriminate|discriminate].
  - rewrite (bin_code_rhs_first o ca ta cb tb LF). destruct (is_arith o) eqn:A; [|destruct (is_shift o) eqn:S].
    + replace (is_shift o) with false by (destruct o; try discriminate A; reflexivity). rewrite m_common_is_uac.
      apply run_mcbin with (x1 := x) (x2 := y) (P1 := P1); try assumption. intros s HA HB.
      exact (arith_codegen_ok o _ _ _ s v (uac_big _ _) A (conv_range _ _) (conv_range _ _) HA HB H).
    + rewrite m_promote. apply run_mcbin with (x1 := x) (x2 := y) (P1 := P1); try assumption. intros s HA HB.
      rewrite (conv_in_range _ _ (promote_range _ _ Rx)) in HA.
      exact (shift_codegen_ok o _ x tb y s v (promote_big _) (promote_range _ _ Rx) HA HB H).
    + destruct (is_cmp o) eqn:C; [|discriminate]. injection H as <-. rewrite m_common_is_uac.
      apply run_mcbin with (x1 := x) (x2 := y) (P1 := P1); try assumption. intros s HA HB.
      refine (cmp_ok _ _ _ s (conv_range _ _) (conv_range _ _) HA HB o C _ _); intros ->; discriminate LF.
Qed.
End Code.
