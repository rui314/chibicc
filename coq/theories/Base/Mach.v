(* Shared arithmetic facts: bit operators as div/mod arithmetic, finite sweeps lifted to
   universally quantified statements, lia set-up: the zify instances for bool, N and nat, and the hook below, which hands
   lia every division and modulo as its defining equations.  The hook is global: it takes effect in every file that
   requires this one, directly or through another file, imported or not; to add this file to, or take it from, the
   imports of a file changes what lia does there and in every file that requires that one. *)
From Coq Require Export List NArith ZArith Bool Lia.
From Coq Require Export ZifyBool ZifyN ZifyNat.
Export ListNotations.
Ltac Zify.zify_post_hook ::= Z.div_mod_to_equations.
Local Open Scope N_scope.

Lemma land_disjoint c k x : x < 2 ^ k -> N.land (c * 2 ^ k) x = 0.
Proof.
  intros H. apply N.bits_inj_0. intros n. rewrite N.land_spec.
  destruct (N.lt_ge_cases n k) as [Hlt|Hge].
  - rewrite N.mul_pow2_bits_low by assumption. reflexivity.
  - replace x with (x mod 2 ^ k) by (apply N.mod_small; assumption).
    rewrite N.mod_pow2_bits_high by assumption. apply andb_false_r.
Qed.

Lemma lor_shiftl_add c k x : x < 2 ^ k -> N.lor (N.shiftl c k) x = c * 2 ^ k + x.
Proof.
  intros H. rewrite N.shiftl_mul_pow2.
  pose proof (land_disjoint c k x H) as Hd.
  rewrite <- (N.lxor_lor _ _ Hd). symmetry. apply N.add_nocarry_lxor. exact Hd.
Qed.

Lemma lor_const_add h k x : x < 2 ^ k -> N.lor (h * 2 ^ k) x = h * 2 ^ k + x.
Proof. intros H. rewrite <- (lor_shiftl_add h k x H), N.shiftl_mul_pow2. reflexivity. Qed.

Lemma forall_below (P : N -> bool) (n : nat) :
  forallb P (map N.of_nat (seq 0 n)) = true -> forall x, x < N.of_nat n -> P x = true.
Proof.
  intros H x Hx. rewrite forallb_forall in H. apply H.
  apply in_map_iff. exists (N.to_nat x). split; [apply N2Nat.id|]. apply in_seq. lia.
Qed.
