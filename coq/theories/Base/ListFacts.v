(* Facts about lists that several parts of the development use and Coq 8.16's List lacks: membership and equality
   decided by boolean tests, the place where two appended lists meet, the length of a filtered list. *)
From Coq Require Import List Arith Bool Lia.
Import ListNotations.

Lemma existsb_eqb_In {A} (eqb : A -> A -> bool) (eqb_eq : forall a b, eqb a b = true <-> a = b) x l :
  existsb (eqb x) l = true <-> In x l.
Proof.
  rewrite existsb_exists. split.
  - intros (y & Hy & E). apply eqb_eq in E. subst y. exact Hy.
  - intros H. exists x. split; [exact H|apply eqb_eq; reflexivity].
Qed.
Lemma existsb_nat_In x l : existsb (Nat.eqb x) l = true <-> In x l.
Proof. exact (existsb_eqb_In Nat.eqb Nat.eqb_eq x l). Qed.

(* equality of lists decided element by element.  Model.Macro.txt_eqb, Model.Hashmap.bytes_eqb,
   Spec.LitSpec.list_eqb and Spec.EPrintSpec.bytes_eqb are [eqb_list N.eqb] written out, Spec.InitSpec.path_eqb
   is [eqb_list Nat.eqb]: each unfolds to the same [fix], so [eqb_list_eq] applies to them as it stands.
   (The parameters are section variables so that they stay outside the [fix].) *)
Section ListEqb.
Context {A : Type} (e : A -> A -> bool) (e_eq : forall x y, e x y = true <-> x = y).
Fixpoint eqb_list (a b : list A) : bool :=
  match a, b with [], [] => true | x :: a', y :: b' => e x y && eqb_list a' b' | _, _ => false end.
Lemma eqb_list_eq : forall a b, eqb_list a b = true <-> a = b.
Proof.
  induction a as [|x a IH]; intros [|y b]; cbn [eqb_list]; try (split; [reflexivity + discriminate|reflexivity + discriminate]).
  rewrite andb_true_iff, e_eq, IH. split; [intros [-> ->]; reflexivity|intros H; injection H as -> ->; split; reflexivity].
Qed.
End ListEqb.

Lemma firstn_length_app {A} (a b : list A) : firstn (length a) (a ++ b) = a.
Proof. rewrite <- (Nat.add_0_r (length a)), firstn_app_2, app_nil_r. reflexivity. Qed.
Lemma skipn_length_app {A} (a b : list A) : skipn (length a) (a ++ b) = b.
Proof. induction a as [|x a IH]; [reflexivity|exact IH]. Qed.
Lemma nth_error_length_app {A} (a : list A) x b : nth_error (a ++ x :: b) (length a) = Some x.
Proof. rewrite nth_error_app2, Nat.sub_diag by apply le_n. reflexivity. Qed.

Lemma filter_length_le {A} (f g : A -> bool) l : (forall y, f y = true -> g y = true) ->
  length (filter f l) <= length (filter g l).
Proof.
  intros Hfg. induction l as [|b l IHl]; cbn [filter]; [lia|].
  destruct (f b) eqn:Eb; [rewrite (Hfg _ Eb); cbn [length]; lia|]. destruct (g b); cbn [length]; lia.
Qed.
Lemma filter_length_lt {A} (f g : A -> bool) l x :
  (forall y, f y = true -> g y = true) -> In x l -> g x = true -> f x = false ->
  length (filter f l) < length (filter g l).
Proof.
  intros Hfg Hin Hg Hf. apply in_split in Hin. destruct Hin as (l1 & l2 & ->).
  rewrite !filter_app, !app_length. cbn [filter]. rewrite Hg, Hf. cbn [length].
  pose proof (filter_length_le f g l1 Hfg). pose proof (filter_length_le f g l2 Hfg). lia.
Qed.
